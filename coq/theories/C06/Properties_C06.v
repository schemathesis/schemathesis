(* C06 - the HTTP request on the wire is exactly the generated test case: property theorems only. *)
From Coq Require Import List NArith ZArith Bool.
From Verif Require Import Common.Str C06.Model_C06 C06.Proofs_C06.
Import ListNotations.
Open Scope N_scope.

(* percent-encoding: quote_plus (UTF-8 then percent-escapes, space as plus) read back by a form decoder.
   quote_plus s = None models UnicodeEncodeError, which happens exactly on code points that are not Unicode scalar values
   (lone surrogates, numbers from 0x110000 on). *)
Theorem C06_percent_roundtrip : forall s q, quote_plus s = Some q -> pct_decode_form q = Some s.
Proof.
  intros s q H. exact (proj1 (quote_plus_spec is_sp s q is_sp_ok H)).
Qed.
Print Assumptions C06_percent_roundtrip.

Theorem C06_percent_defined : forall s, (exists q, quote_plus s = Some q) <-> forallb is_scalar s = true.
Proof.
  intros s. unfold quote_plus, quote_with, utf8_encode. destruct (forallb is_scalar s); cbn [omap]; split; intros H;
    try reflexivity; try discriminate; [eexists; reflexivity | destruct H as [q H]; discriminate].
Qed.
Print Assumptions C06_percent_defined.

(* quote() with the default safe set, used by prepare_url around urljoin, read back by the RFC 3986 decoder *)
Theorem C06_quote_path_roundtrip : forall s q, quote_path s = Some q -> pct_decode q = Some s.
Proof.
  intros s q. apply quote_with_roundtrip. exact is_slash_plain.
Qed.
Print Assumptions C06_quote_path_roundtrip.

(* path values: quote_all, then an RFC 3986 path-segment decoder (plus is a literal plus) *)
Theorem C06_path_roundtrip_partial : forall s q, no_space s = true -> quote_value s = Some q -> pct_decode q = Some s.
Proof.
  intros s q Hsp H. exact (proj2 (quote_value_spec s q H) Hsp).
Qed.
Print Assumptions C06_path_roundtrip_partial.

Theorem C06_path_roundtrip_refuted : exists s q, quote_value s = Some q /\ pct_decode q <> Some s.
Proof.
  exists [97; 32; 98], [97; 43; 98]. split; [reflexivity | vm_compute; discriminate].
Qed.
Print Assumptions C06_path_roundtrip_refuted.

(* the same wire text read by a form decoder gives the value back for every string *)
Theorem C06_path_value_form_roundtrip : forall s q, quote_value s = Some q -> pct_decode_form q = Some s.
Proof.
  intros s q H. exact (proj1 (quote_value_spec s q H)).
Qed.
Print Assumptions C06_path_value_form_roundtrip.

(* styles: a decoder written from RFC 6570 / the OpenAPI style table recovers the generated value up to str() *)
Theorem C06_style_roundtrip_partial : forall f name v it,
  style_region f name v = true -> apply_sfun f name [(name, v)] = Some it -> decode f name it = Some (coerce v).
Proof.
  intros f name v it HR Happ.
  destruct (stores_one_text f) eqn:Hs.
  - (* one text stored under the name *)
    destruct (one_text_reduce f name v it Hs Happ) as [s [Hnew ->]]. exact (new_value_roundtrip f name v s HR Hnew).
  - (* the object is spread over the container *)
    assert (Hshape : shape_ok f v = true) by (unfold style_region in HR; rewrite !andb_true_iff in HR; apply HR).
    destruct f; try discriminate Hs; try discriminate Hshape; destruct v as [p | l | l]; try discriminate Hshape.
    + exact (rt_deep name l it HR Happ).
    + exact (rt_extracted name l it HR Happ).
Qed.
Print Assumptions C06_style_roundtrip_partial.

(* two different values with one wire form defeat every decoder *)
Theorem C06_collision_defeats_every_decoder : forall f name v1 v2,
  collision f name v1 v2 ->
  forall dec : item -> option cvalue,
    ~ (forall v it, (v = v1 \/ v = v2) -> enc f name v = Some it -> dec it = Some (coerce v)).
Proof.
  intros f name v1 v2.
  intros [He [Hn Hc]] dec H. destruct (enc f name v1) as [it|] eqn:E1; [|congruence].
  pose proof (H v1 it (or_introl eq_refl) E1) as A. symmetry in He.
  pose proof (H v2 it (or_intror eq_refl) He) as B. congruence.
Qed.
Print Assumptions C06_collision_defeats_every_decoder.

(* finding F2: a delimiter inside an item ([a,b] and [a; b] have one wire form) *)
Theorem C06_style_roundtrip_refuted_delimiter :
  collision (FDelimited 44) [113] (VArr [PStr [97;44;98]]) (VArr [PStr [97]; PStr [98]])
  /\ collision FCommaObj [113] (VObj [([107], PStr [97;44;98;44;99])]) (VObj [([107], PStr [97]); ([98], PStr [99])])
  /\ collision (FLabelArr true) [113] (VArr [PStr [49;46;53]]) (VArr [PStr [49]; PStr [53]])
  /\ collision (FMatrixObj true) [113] (VObj [([107], PStr [97;59;98;61;99])]) (VObj [([107], PStr [97]); ([98], PStr [99])]).
Proof.
  repeat split; vm_compute; discriminate.
Qed.
Print Assumptions C06_style_roundtrip_refuted_delimiter.

(* finding F3: the empty array and the array holding one empty string *)
Theorem C06_style_roundtrip_refuted_empty :
  collision (FDelimited 44) [113] (VArr []) (VArr [PStr []])
  /\ collision (FLabelArr false) [113] (VArr []) (VArr [PStr []])
  /\ collision (FMatrixArr false) [113] (VArr []) (VArr [PStr []]).
Proof.
  repeat split; vm_compute; discriminate.
Qed.
Print Assumptions C06_style_roundtrip_refuted_empty.

(* finding F4: label primitives are tested for truth: 0, False and the empty string are all sent as the empty string *)
Theorem C06_style_roundtrip_refuted_label_falsy :
  collision FLabelPrim [105;100] (VPrim (PInt 0)) (VPrim (PBool false))
  /\ style_region FLabelPrim [105;100] (VPrim (PInt 0)) = false
  /\ (forall it, enc FLabelPrim [105;100] (VPrim (PInt 0)) = Some it -> decode FLabelPrim [105;100] it = None).
Proof.
  split; [repeat split; vm_compute; discriminate|].
  split; [reflexivity|]. intros it H. vm_compute in H. injection H as <-. reflexivity.
Qed.
Print Assumptions C06_style_roundtrip_refuted_label_falsy.

(* finding F5: matrix without explode: the code writes ;3,4 where RFC 6570 and the OpenAPI table have ;id=3,4 *)
Theorem C06_style_roundtrip_refuted_matrix_noexplode :
  exists name v it, shape_ok (FMatrixArr false) v = true /\ delimiter_free (FMatrixArr false) v = true
    /\ nonempty_ok (FMatrixArr false) v = true
    /\ enc (FMatrixArr false) name v = Some it /\ decode (FMatrixArr false) name it <> Some (coerce v).
Proof.
  exists [105;100], (VArr [PInt 3; PInt 4]), [([105;100], sval [59;51;44;52])].
  repeat split. vm_compute. discriminate.
Qed.
Print Assumptions C06_style_roundtrip_refuted_matrix_noexplode.

(* finding F5 for objects: ;r,a where the table has ;id=r,a *)
Theorem C06_style_roundtrip_refuted_matrix_obj_noexplode :
  exists name v it, shape_ok (FMatrixObj false) v = true /\ delimiter_free (FMatrixObj false) v = true
    /\ nonempty_ok (FMatrixObj false) v = true
    /\ enc (FMatrixObj false) name v = Some it /\ decode (FMatrixObj false) name it <> Some (coerce v).
Proof.
  exists [105;100], (VObj [([114], PStr [97])]), [([105;100], sval [59;114;44;97])].
  repeat split. vm_compute. discriminate.
Qed.
Print Assumptions C06_style_roundtrip_refuted_matrix_obj_noexplode.

(* finding F6: a cookie array with explode is removed from the request, whatever it holds *)
Theorem C06_cookie_explode_refuted :
  serialize3 [cookie_explode_arr] [([99], VArr [PStr [97]])] = Some []
  /\ serialize3 [cookie_explode_arr] [([99], VArr [PStr [98]; PStr [99]])] = Some [].
Proof.
  split; reflexivity.
Qed.
Print Assumptions C06_cookie_explode_refuted.

(* dispatch: the serializer list chosen for a parameter is the one the OpenAPI 3 style table asks for *)
Theorem C06_dispatch_standard_partial : forall d fs,
  defaults_explicit d = true -> std_sfuns d = Some fs -> ser3_one d = fs.
Proof.
  intros [n l st e t c] fs. unfold defaults_explicit, std_sfuns, ser3_one.
  cbn [d_in d_style d_explode d_type d_content d_name].
  destruct c; [| intros _ H; injection H as <-; reflexivity | intros _ H; discriminate H].
  (* location, style and type settle most combinations before the explode keyword is looked at *)
  destruct l, st; try (intros Hd; discriminate Hd); destruct t; try (intros _ H; discriminate H);
    destruct e as [[|]|]; intros Hd H; try discriminate Hd; try discriminate H; injection H as <-; reflexivity.
Qed.
Print Assumptions C06_dispatch_standard_partial.

Theorem C06_dispatch_standard_refuted : exists d fs, std_sfuns d = Some fs /\ ser3_one d <> fs.
Proof.
  exists {| d_name := [105;100]; d_in := LPath; d_style := StNone; d_explode := None; d_type := TArray; d_content := CtNone |},
         [FDelimited 44].
  split; [reflexivity | discriminate].
Qed.
Print Assumptions C06_dispatch_standard_refuted.

(* prepare_headers (transport/prepare.py:18-26): a header of the call beats one of the case, which beats the User-Agent and
   test-case-id defaults; names compare case-insensitively (CaseInsensitiveDict) *)
Theorem C06_headers_precedence : forall case_h explicit ua id k,
  ci_get k (prepare_headers case_h explicit ua id) =
  match explicit_get k explicit with
  | Some v => Some v
  | None =>
    match case_get k case_h with
    | Some v => Some v
    | None => if ci_eqb k h_user_agent then Some ua else if ci_eqb k h_test_case_id then Some id else None
    end
  end.
Proof.
  intros case_h explicit ua id k. unfold prepare_headers. cbv zeta. rewrite !ci_get_setdefault, ci_get_case_and_call.
  destruct (explicit_get k explicit); [reflexivity|]. destruct (case_get k case_h); [reflexivity|].
  destruct (ci_eqb k h_user_agent); reflexivity.
Qed.
Print Assumptions C06_headers_precedence.

(* serialize_case (transport/requests.py:33-39): every header sent comes from the case, the call, the two defaults, or is the
   Content-Type of a case with a body *)
Theorem C06_headers_only_expected : forall case_h explicit ua id mt has_body x,
  In x (serialize_case_headers case_h explicit ua id mt has_body) ->
  In x (match case_h with Some h => h | None => [] end)
  \/ In x (match explicit with Some e => e | None => [] end)
  \/ x = (h_user_agent, ua) \/ x = (h_test_case_id, id)
  \/ (has_body = true /\ exists m, mt = Some m /\ x = (h_content_type, m)).
Proof.
  intros case_h explicit ua id mt has_body x H.
  assert (In x (prepare_headers case_h explicit ua id)
          \/ (has_body = true /\ exists m, mt = Some m /\ x = (h_content_type, m))) as [H' | H'].
  { unfold serialize_case_headers in H. destruct mt as [m|]; [|left; exact H].
    destruct (negb (is_nil m) && negb (str_eqb m s_multipart) && has_body) eqn:E; [|left; exact H].
    destruct (ci_setdefault_In _ _ _ _ H) as [A | A]; [right | left; exact A].
    rewrite !andb_true_iff in E. split; [apply E | exists m; split; [reflexivity | exact A]]. }
  - apply prepare_headers_In in H'. tauto.
  - tauto.
Qed.
Print Assumptions C06_headers_only_expected.

(* ... and that Content-Type is the media type of the case unless the case or the call set one *)
Theorem C06_content_type_is_media_type : forall case_h explicit ua id m,
  is_nil m = false -> str_eqb m s_multipart = false ->
  explicit_get h_content_type explicit = None -> case_get h_content_type case_h = None ->
  ci_get h_content_type (serialize_case_headers case_h explicit ua id (Some m) true) = Some m.
Proof.
  intros case_h explicit ua id m.
  intros H1 H2 H3 H4. unfold serialize_case_headers. rewrite H1, H2. cbn [negb andb].
  rewrite ci_get_setdefault, C06_headers_precedence, H3, H4. rewrite ci_eqb_refl.
  reflexivity.
Qed.
Print Assumptions C06_content_type_is_media_type.

(* finding F8: the delimiters of a styled PATH parameter are percent-encoded together with the value (witness: a matrix primitive) *)
Theorem C06_path_reserved_delimiters_refuted :
  exists name v s q, style_region FMatrixPrim name v = true /\ new_value FMatrixPrim name v = Some s
    /\ quote_value s = Some q /\ dec_value FMatrixPrim name q = None
    /\ obind (pct_decode q) (dec_value FMatrixPrim name) = Some (coerce v).
Proof.
  exists [105;100], (VPrim (PInt 5)), [59;105;100;61;53], [37;51;66;105;100;37;51;68;53].
  repeat split.
Qed.
Print Assumptions C06_path_reserved_delimiters_refuted.

(* query post-processing of RequestsTransport.serialize_case: only the entries equal to the empty object change *)
Theorem C06_empty_object_rule_is_pointwise : forall q, requests_params q = map blank_empty_obj q.
Proof. exact requests_params_pointwise. Qed.
Print Assumptions C06_empty_object_rule_is_pointwise.

Theorem C06_query_parameter_independent_of_neighbours : forall q k,
  d_get k (requests_params q) = omap (fun v => if is_empty_obj v then sval [] else v) (d_get k q).
Proof.
  intros q k.
  rewrite requests_params_pointwise. unfold blank_empty_obj.
  exact (d_get_map_snd (fun v => if is_empty_obj v then sval [] else v) k q).
Qed.
Print Assumptions C06_query_parameter_independent_of_neighbours.

(* coverage phase: Template._serialize (path and query containers) *)
(* for ALL parameter definitions, templates and case indices: the n-th case built from a template is the same function of the
   template as the first one (serialize, quote, stringify); the template is never modified *)
Theorem C06_coverage_template_pure : forall defs n tmpl,
  template_nth defs n tmpl = path_output defs tmpl /\ template_query_nth defs n tmpl = query_output defs tmpl.
Proof.
  intros defs n tmpl. split; apply iter_cases_output.
Qed.
Print Assumptions C06_coverage_template_pure.

(* for every string and every case index the case holds the quoted value, which decodes to the template value *)
Theorem C06_coverage_case_roundtrip : forall name s n out,
  template_nth [] n [(name, sval s)] = Some out ->
  exists q, out = [(name, sval q)] /\ quote_value s = Some q /\ pct_decode_form q = Some s.
Proof.
  intros name s n out. rewrite (proj1 (C06_coverage_template_pure [] n _)).
  unfold path_output. change (serialize3 [] ?t) with (Some t). cbn [obind]. rewrite quote_all_single.
  destruct (quote_value s) as [q|] eqn:E; [|discriminate]. cbn [omap]. rewrite stringify_item_single.
  intros H; injection H as <-. exists q. split; [reflexivity|]. split; [reflexivity|]. exact (proj1 (quote_value_spec s q E)).
Qed.
Print Assumptions C06_coverage_case_roundtrip.

(* finding C06-F9 (the rule before commit 06d349e9, kept as a sentinel): quote_all assigned into the template re-quotes it with
   every case; the rule of the code does not *)
Theorem C06_coverage_requote_sentinel_refuted :
  let tmpl := [([105;100], sval [97;32;98;37;99])] in
  let q1 := [97;43;98;37;50;53;99] in
  let q2 := [97;37;50;66;98;37;50;53;50;53;99] in
  template_nth_inplace [] 0 tmpl = Some [([105;100], sval q1)]
  /\ template_nth_inplace [] 1 tmpl = Some [([105;100], sval q2)]
  /\ pct_decode_form q2 <> Some [97;32;98;37;99]
  /\ template_nth [] 0 tmpl = Some [([105;100], sval q1)]
  /\ template_nth [] 1 tmpl = Some [([105;100], sval q1)].
Proof.
  repeat split. vm_compute. discriminate.
Qed.
Print Assumptions C06_coverage_requote_sentinel_refuted.

(* finding C06-F10 (the rule before commit fcf952d0, kept as a sentinel): the style serializer assigned into the template
   serializes the serialized text again (path label array, query form object without explode); the rule of the code gives the
   same text in both cases *)
Theorem C06_coverage_serializer_reapplied_refuted :
  let tmpl := [([105;100], VArr [PStr [97]; PStr [98]])] in
  let qt := [([111], VObj [([107], PStr [118])])] in
  template_nth_ser_inplace [label_arr_def] 0 tmpl = Some [([105;100], sval [46;97;37;50;67;98])]
  /\ template_nth_ser_inplace [label_arr_def] 1 tmpl = Some [([105;100], sval [46;46;97;37;50;67;98])]
  /\ obind (pct_decode [46;46;97;37;50;67;98]) (dec_value (FLabelArr false) [105;100]) <> Some (CArr [[97]; [98]])
  /\ template_nth [label_arr_def] 0 tmpl = Some [([105;100], sval [46;97;37;50;67;98])]
  /\ template_nth [label_arr_def] 1 tmpl = Some [([105;100], sval [46;97;37;50;67;98])]
  /\ template_query_nth_ser_inplace [form_obj_def] 0 qt = Some [([111], sval [107;44;118])]
  /\ template_query_nth_ser_inplace [form_obj_def] 1 qt = Some [([111], sval [44;107;44;118])]
  /\ template_query_nth [form_obj_def] 0 qt = Some [([111], sval [107;44;118])]
  /\ template_query_nth [form_obj_def] 1 qt = Some [([111], sval [107;44;118])].
Proof.
  repeat split. vm_compute. discriminate.
Qed.
Print Assumptions C06_coverage_serializer_reapplied_refuted.

(* configuration histories: one schema object re-configured in place between sends (Model_C06 section 12) *)
(* the configuration a history ends in is, field by field, the last value written (or the initial one) *)
Theorem C06_history_configuration_is_last_write : forall rd h s,
  hs_cfg (exec_with rd s h)
  = {| cf_base := last_write pick_base h (cf_base (hs_cfg s)); cf_loc := last_write pick_loc h (cf_loc (hs_cfg s));
       cf_spec := last_write pick_spec h (cf_spec (hs_cfg s)); cf_app := last_write pick_app h (cf_app (hs_cfg s)) |}.
Proof.
  intros rd h s.
  rewrite exec_cfg. exact (final_cfg_last_write h (hs_cfg s)).
Qed.
Print Assumptions C06_history_configuration_is_last_write.

(* sends, full_path and base_path are functions of the CURRENT configuration, not of the history: two histories that end in
   the same configuration give the same observation for every event that does not take an operation from the cache *)
Theorem C06_history_send_depends_on_current_configuration_only : forall c1 c2 h1 h2 e,
  final_cfg c1 h1 = final_cfg c2 h2 -> uses_cache e = false ->
  last (run_history (init_state c1) (h1 ++ [e])) ONone = last (run_history (init_state c2) (h2 ++ [e])) ONone.
Proof.
  intros c1 c2 h1 h2 e Hc Hu. unfold run_history. rewrite !run_app, !last_last.
  apply hstep_obs_cfg; [|exact Hu]. rewrite !exec_cfg. exact Hc.
Qed.
Print Assumptions C06_history_send_depends_on_current_configuration_only.

(* WSGI: for EVERY history and EVERY operation object (fresh or cached) the path the application receives is the base path of
   the current configuration joined with the filled template; full_path and base_path likewise *)
Theorem C06_history_wsgi_path_is_current_base_path : forall c0 h hw tmpl params w r,
  cf_app (hs_cfg (exec_history (init_state c0) h)) = TWsgi ->
  snd (hstep (exec_history (init_state c0) h) (EvSend hw tmpl params)) = OSent w r ->
  exists f, prepare_path tmpl params = FOk f /\ w = expected_path (final_cfg c0 h) f.
Proof.
  intros c0 h hw tmpl params w r. rewrite <- exec_history_cfg. apply wsgi_send_state.
Qed.
Print Assumptions C06_history_wsgi_path_is_current_base_path.

Theorem C06_history_full_path_is_current_base_path : forall c0 h tmpl,
  snd (hstep (exec_history (init_state c0) h) (EvFullPath tmpl)) = OPath (expected_path (final_cfg c0 h) tmpl)
  /\ snd (hstep (exec_history (init_state c0) h) EvBasePath) = OPath (cfg_base_path (final_cfg c0 h)).
Proof.
  intros c0 h tmpl. rewrite <- exec_history_cfg. split; reflexivity.
Qed.
Print Assumptions C06_history_full_path_is_current_base_path.

(* all three transports: after ANY history, a send whose operation object was made under the present configuration goes to
   <current base path> + <filled template>, and the reported request URL has exactly that path (the requests transport
   refuses to send without a netloc).  Region: cfg_ok (base path empty or absolute, no trailing double slash, no dot-dot
   segment, non-empty base URL text), no dot-dot segment in the filled template *)
Theorem C06_history_transports_send_to_current_base_url_partial : forall c0 h hw tmpl params f,
  cfg_ok (final_cfg c0 h) = true ->
  op_current (final_cfg c0 h) (op_used (exec_history (init_state c0) h) hw tmpl) = true ->
  prepare_path tmpl params = FOk f -> no_dotdot (lstrip_slash f) = true ->
  snd (hstep (exec_history (init_state c0) h) (EvSend hw tmpl params)) =
  if cannot_send (final_cfg c0 h) then ORaises
  else OSent (expected_path (final_cfg c0 h) f) (reported_prefix (final_cfg c0 h) ++ expected_path (final_cfg c0 h) f).
Proof.
  intros c0 h hw tmpl params f. rewrite <- exec_history_cfg. apply send_region_state.
Qed.
Print Assumptions C06_history_transports_send_to_current_base_url_partial.

(* an operation made now (get_all_operations) always satisfies the operation-is-current hypothesis *)
Theorem C06_history_fresh_operation_is_current : forall c0 h tmpl params f,
  cfg_ok (final_cfg c0 h) = true -> prepare_path tmpl params = FOk f -> no_dotdot (lstrip_slash f) = true ->
  snd (hstep (exec_history (init_state c0) h) (EvSend Fresh tmpl params)) =
  if cannot_send (final_cfg c0 h) then ORaises
  else OSent (expected_path (final_cfg c0 h) f) (reported_prefix (final_cfg c0 h) ++ expected_path (final_cfg c0 h) f).
Proof.
  intros c0 h tmpl params f Hok Hp Hf. apply C06_history_transports_send_to_current_base_url_partial; try assumption.
  cbn [op_used]. rewrite exec_history_cfg. apply fresh_is_current.
Qed.
Print Assumptions C06_history_fresh_operation_is_current.

(* the two ways of building the path agree: urljoin with a netloc (prepare_url) and without (get_full_path) *)
Theorem C06_urljoin_netloc_irrelevant_partial : forall bpath path,
  starts_with [47] bpath = true -> no_dotdot bpath = true -> no_dotdot path = true ->
  urljoin_path true bpath path = urljoin_path false bpath path.
Proof. exact urljoin_agree. Qed.
Print Assumptions C06_urljoin_netloc_irrelevant_partial.

(* finding C06-F11: an operation from schema[path][method] made before configure(base_url=..) keeps the old base URL:
   the requests transport sends to the OLD base URL; the WSGI transport sends to the new one and reports the old one *)
Theorem C06_history_cached_operation_refuted :
  let h := [EvBase (base_of s_api); EvSend Cached s_items []; EvBase (base_of s_v2)] in
  let s := exec_history (init_state (cfg0 TRequests)) h in
  let c := final_cfg (cfg0 TRequests) h in
  cfg_ok c = true /\ op_current c (op_used s Cached s_items) = false
  /\ expected_path c s_items = s_v2 ++ s_items
  /\ snd (hstep s (EvSend Cached s_items [])) = OSent (s_api ++ s_items) (s_loop ++ s_api ++ s_items)
  /\ snd (hstep s (EvSend Fresh s_items [])) = OSent (s_v2 ++ s_items) (s_loop ++ s_v2 ++ s_items)
  /\ (let sw := exec_history (init_state (cfg0 TWsgi)) h in
      snd (hstep sw (EvSend Cached s_items [])) = OSent (s_v2 ++ s_items) (s_loop ++ s_api ++ s_items)).
Proof.
  repeat split.
Qed.
Print Assumptions C06_history_cached_operation_refuted.

(* finding C06-F12: outside cfg_ok the transports / the reported request disagree: empty base URL text, trailing double slash *)
Theorem C06_history_base_url_shape_refuted :
  (let c := {| cf_base := Some {| bu_prefix := []; bu_path := [] |}; cf_loc := []; cf_spec := cf_spec (cfg0 TWsgi); cf_app := TWsgi |} in
   cfg_ok c = false
   /\ snd (hstep (init_state c) (EvSend Fresh s_items [])) = OSent (s_srv ++ s_items) (s_http_localhost ++ s_items))
  /\ (let c := {| cf_base := base_of (s_api ++ [47;47]); cf_loc := []; cf_spec := SpV3 []; cf_app := TWsgi |} in
      cfg_ok c = false
      /\ snd (hstep (init_state c) (EvSend Fresh [47] [])) = OSent (s_api ++ [47;47]) (s_loop ++ s_api ++ [47])).
Proof.
  repeat split.
Qed.
Print Assumptions C06_history_base_url_shape_refuted.

(* sentinel for the seeded regression C06_c: a base path remembered per schema object (read_memo) keeps WSGI sends and
   full_path at the first base path after configure(base_url=..); the rule of the code (read_live) follows the configuration *)
Theorem C06_history_base_path_memo_sentinel_refuted :
  let h := [EvBase (base_of s_api); EvSend Fresh s_items []; EvBase (base_of s_v2); EvSend Fresh s_items []; EvFullPath s_items] in
  run_history_memo (init_state (cfg0 TWsgi)) h
  = [ONone; OSent (s_api ++ s_items) (s_loop ++ s_api ++ s_items); ONone;
     OSent (s_api ++ s_items) (s_loop ++ s_v2 ++ s_items); OPath (s_api ++ s_items)]
  /\ run_history (init_state (cfg0 TWsgi)) h
  = [ONone; OSent (s_api ++ s_items) (s_loop ++ s_api ++ s_items); ONone;
     OSent (s_v2 ++ s_items) (s_loop ++ s_v2 ++ s_items); OPath (s_v2 ++ s_items)]
  /\ expected_path (final_cfg (cfg0 TWsgi) h) s_items = s_v2 ++ s_items.
Proof.
  repeat split.
Qed.
Print Assumptions C06_history_base_path_memo_sentinel_refuted.

(* exchanges: RESPONSE-side state carried from one exchange to the next (Model_C06 section 14).
   An exchange = a request that reaches the application (a case sent through the requests / WSGI / ASGI transport, with or
   without a session object of the user, or the loading of the schema) and the answer of the application (Set-Cookie,
   redirect, Connection: close).  fresh_clients = the code; any other client rule is hypothetical. *)

(* non-interference, for EVERY client rule: the request of an exchange is decided by the exchanges that went through the
   same long-lived client object; every other exchange of the history, and whatever was answered to it, can be deleted *)
Theorem C06_exchange_depends_on_its_own_client_object_only : forall rule e js h ev,
  snd (xstep rule e (xexec rule e js h) ev) = snd (xstep rule e (xexec rule e js (filter (same_slot rule ev) h)) ev).
Proof.
  intros rule e js h ev.
  unfold xstep. destruct (xslot rule ev) as [k|] eqn:K; cbn [snd]; [|reflexivity].
  rewrite (xexec_filter rule e ev k h K js js eq_refl). reflexivity.
Qed.
Print Assumptions C06_exchange_depends_on_its_own_client_object_only.

(* the code: an exchange without a session object of the user (loads included; on the ASGI transport every exchange)
   delivers the request of that exchange ALONE, after every history, whatever the applications answered before and
   whatever the session objects of the user hold *)
Theorem C06_exchange_without_session_is_the_case_alone : forall e js h ev,
  no_session ev = true \/ xtransport ev = TAsgi ->
  snd (xstep fresh_clients e (xexec fresh_clients e js h) ev) = xalone e ev.
Proof.
  intros e js h ev.
  intros H. unfold xstep. rewrite (fresh_no_slot ev H). reflexivity.
Qed.
Print Assumptions C06_exchange_without_session_is_the_case_alone.

Theorem C06_exchange_history_without_sessions_is_pointwise : forall e h js,
  forallb no_session h = true -> xrun fresh_clients e js h = map (xalone e) h.
Proof.
  intros e h.
  induction h as [|ev h IH]; intros js H; [reflexivity|]. cbn [forallb] in H. apply andb_true_iff in H. destruct H as [H1 H2].
  cbn [xrun map]. unfold xstep. rewrite (fresh_no_slot ev (or_introl H1)). cbn [fst snd]. rewrite (IH js H2). reflexivity.
Qed.
Print Assumptions C06_exchange_history_without_sessions_is_pointwise.

(* independence, as the property reads: two histories, two sets of answers - the same exchange afterwards delivers the same request *)
Theorem C06_exchange_independent_of_earlier_exchanges : forall e js1 js2 h1 h2 ev,
  no_session ev = true \/ xtransport ev = TAsgi ->
  snd (xstep fresh_clients e (xexec fresh_clients e js1 h1) ev) = snd (xstep fresh_clients e (xexec fresh_clients e js2 h2) ev).
Proof.
  intros e js1 js2 h1 h2 ev.
  intros H. rewrite !C06_exchange_without_session_is_the_case_alone by exact H. reflexivity.
Qed.
Print Assumptions C06_exchange_independent_of_earlier_exchanges.

(* what that request carries, all three transports, after ANY history: the Cookie header is made of exactly the cookies
   of the case and of the call; every header is Host, a default header of the client (requests / ASGI), an entry of
   prepare_headers (case, call, User-Agent, test-case id: C06_headers_only_expected) or that Cookie header.
   Region: the case has no Cookie header of its own; its cookies are a dict (every name once) *)
Theorem C06_exchange_carries_the_case_partial : forall e js h t c r,
  no_cookie_header e c = true -> std_has_no_cookie e = true -> dict_ok (xc_cookies c) = true ->
  let got := snd (xstep fresh_clients e (xexec fresh_clients e js h) (XSend t None c r)) in
  ci_get s_cookie got = cookie_header_of (xown c)
  /\ forall x, In x got ->
       x = (s_host, xe_host e t false) \/ (t <> TWsgi /\ In x (xe_std e)) \/ In x (xprep e c) \/ x = (s_cookie, render_cookies (xown c)).
Proof.
  intros e js h t c r.
  intros H1 H2 H3. cbv zeta. rewrite C06_exchange_without_session_is_the_case_alone by (left; reflexivity). unfold xalone, xreq.
  unfold no_cookie_header in H1. unfold std_has_no_cookie in H2.
  destruct (ci_get s_cookie (xprep e c)) eqn:E1; [discriminate|]. destruct (ci_get s_cookie (xe_std e)) eqn:E2; [discriminate|].
  split.
  - rewrite (wire_cookie_lookup e t _ _ _ _ E1 E2), (wire_cookies_alone t c H3). reflexivity.
  - intros x Hx. apply wire_only_expected in Hx. rewrite (wire_cookies_alone t c H3) in Hx. exact Hx.
Qed.
Print Assumptions C06_exchange_carries_the_case_partial.

(* finding C06-F13 (outside the region): a Cookie header of the case is not delivered by the WSGI transport; with the
   requests and ASGI transports it is delivered and the cookies of the case are not *)
Theorem C06_exchange_cookie_header_refuted :
  let c1 := xcase_cookie (Some [(s_cookie, x_h1)]) None in
  let c2 := xcase_cookie (Some [(s_cookie, x_h1)]) (Some [(x_token, x_t)]) in
  no_cookie_header xenv0 c1 = false /\ ci_get s_cookie (xprep xenv0 c1) = Some x_h1
  /\ ci_get s_cookie (xalone xenv0 (XSend TWsgi None c1 xquiet)) = None
  /\ cookie_header_of (xown c2) = Some x_token_t
  /\ ci_get s_cookie (xalone xenv0 (XSend TRequests None c2 xquiet)) = Some x_h1
  /\ ci_get s_cookie (xalone xenv0 (XSend TAsgi None c2 xquiet)) = Some x_h1
  /\ ci_get s_cookie (xalone xenv0 (XSend TWsgi None c2 xquiet)) = Some x_token_t.
Proof.
  repeat split.
Qed.
Print Assumptions C06_exchange_cookie_header_refuted.

(* every client rule, sessions of the user included, histories from clients that have seen nothing: a cookie that an
   exchange sends is a cookie of its own case, or was put into the client object by an EARLIER exchange through that same
   object - a Set-Cookie of its answer or (werkzeug) a cookie of its case *)
Theorem C06_exchange_cookie_provenance : forall rule e h ev p,
  In p (xcookies_sent rule ev (xexec rule e [] h)) ->
  In p (xown_of ev) \/ exists ev', In ev' h /\ same_slot rule ev ev' = true /\ (In p (xr_set (xresp_of ev')) \/ In p (xown_of ev')).
Proof.
  intros rule e h ev p.
  intros H.
  assert (B : In p (xown_of ev) \/ exists k, xslot rule ev = Some k /\ In p (jar_get k (xexec rule e [] h))).
  { destruct ev as [t r | t s c r]; cbn [xcookies_sent xown_of] in *; apply wire_cookies_In in H; destruct H as [H | H]; try tauto;
      (destruct (xslot rule _) as [k|] eqn:E; [right; exists k; split; [reflexivity | exact H] | destruct H]). }
  destruct B as [B | [k [K B]]]; [tauto|]. right. destruct (jar_provenance rule e k p h [] B) as [[] | [ev' [A1 [A2 A3]]]].
  exists ev'. split; [exact A1|]. split; [|exact A3]. unfold same_slot. rewrite K, A2. apply slot_eqb_refl.
Qed.
Print Assumptions C06_exchange_cookie_provenance.

(* sentinel for the seeded regression C06_d: with one werkzeug client per application the cookie set by an earlier answer
   (to a send or to the schema load) is sent with a case that has none; under the rule of the code it is not *)
Theorem C06_exchange_shared_client_sentinel_refuted :
  let send1 := XSend TWsgi None xcase0 xsets in
  let send2 := XSend TWsgi None xcase0 xquiet in
  map (ci_get s_cookie) (xrun shared_wsgi_client xenv0 [] [send1; send2]) = [None; Some x_sess_S1]
  /\ map (ci_get s_cookie) (xrun shared_wsgi_client xenv0 [] [XLoad TWsgi xsets; send2]) = [None; Some x_sess_S1]
  /\ xrun shared_wsgi_client xenv0 [] [send1; send2] <> map (xalone xenv0) [send1; send2]
  /\ xrun fresh_clients xenv0 [] [send1; send2] = map (xalone xenv0) [send1; send2]
  /\ map (ci_get s_cookie) (xrun fresh_clients xenv0 [] [XLoad TWsgi xsets; send2]) = [None; None]
  /\ no_cookie_header xenv0 xcase0 = true /\ cookie_header_of (xown xcase0) = None.
Proof.
  repeat split. vm_compute. discriminate.
Qed.
Print Assumptions C06_exchange_shared_client_sentinel_refuted.

(* urllib.parse.urlencode / werkzeug _urlencode read back by the standard form decoder (split at the ampersand, then at the first
   equals sign, percent-decode with plus = space), for ALL lists of (name, text) pairs over all code-point strings and for the
   safe sets of all three transports *)
Theorem C06_form_urlencode_roundtrip : forall t ps w,
  urlencode (form_safe t) ps = Some w -> decode_form w = Some ps.
Proof. intros t ps w. exact (urlencode_roundtrip (form_safe t) ps w (form_safe_ok t)). Qed.
Print Assumptions C06_form_urlencode_roundtrip.

(* every form value of the modelled fragment (object of scalars, array of such objects; any strings), every transport: what the
   application receives for the case body (= the value prepared ONCE by the generation / examples / coverage phase, handed to the
   client library as it is) decodes to the pairs the value stands for.  Region: werkzeug does not take a non-empty list *)
Theorem C06_form_body_roundtrip_partial : forall t v w,
  form_shape v = true -> wsgi_array_form t v = false ->
  form_path ser_as_is t v = WBody w -> decode_form w = pairs_of v.
Proof.
  intros t v w.
  intros Hs Hw. destruct (form_wire_prepared t v Hs Hw) as (ps & Ep & Ew).
  rewrite Ew, Ep.
  destruct (urlencode (form_safe t) ps) as [s|] eqn:E; [|discriminate]. intros H; injection H as <-.
  exact (urlencode_roundtrip _ _ _ (form_safe_ok t) E).
Qed.
Print Assumptions C06_form_body_roundtrip_partial.

(* ... and a body IS sent whenever every text can be encoded (no lone surrogate) *)
Theorem C06_form_body_sent_partial : forall t v,
  form_shape v = true -> wsgi_array_form t v = false -> form_encodable v = true ->
  exists ps w, pairs_of v = Some ps /\ form_path ser_as_is t v = WBody w /\ decode_form w = Some ps.
Proof.
  intros t v.
  intros Hs Hw He. destruct (form_wire_prepared t v Hs Hw) as (ps & Ep & Ew).
  destruct (urlencode_defined (form_safe t) ps (form_encodable_pairs v ps He Ep)) as [w E].
  exists ps, w. split; [exact Ep|]. split.
  - rewrite Ew, E. reflexivity.
  - exact (urlencode_roundtrip _ _ _ (form_safe_ok t) E).
Qed.
Print Assumptions C06_form_body_sent_partial.

(* finding F14: an array-typed form body cannot be sent through the WSGI transport at all (AttributeError in werkzeug) *)
Theorem C06_form_body_wsgi_array_refuted :
  form_shape f_tag0 = true /\ form_encodable f_tag0 = true /\ wsgi_array_form TWsgi f_tag0 = true
  /\ form_path ser_as_is TWsgi f_tag0 = WRaises
  /\ form_path ser_as_is TRequests f_tag0 = WBody f_tag0_wire /\ form_path ser_as_is TAsgi f_tag0 = WBody f_tag0_wire.
Proof.
  repeat split.
Qed.
Print Assumptions C06_form_body_wsgi_array_refuted.

(* on the path generation -> wire prepare_urlencoded is applied exactly once (the serializer adds none); object-typed forms are
   fixed points, so they cannot tell the two rules apart *)
Theorem C06_form_prepared_exactly_once : forall t v,
  form_path ser_as_is t v = form_wire t (prepare_urlencoded v)
  /\ (forall d, form_path ser_prepares_again t (FDict d) = form_path ser_as_is t (FDict d)).
Proof.
  intros t v.
  split; [reflexivity | intros d; reflexivity].
Qed.
Print Assumptions C06_form_prepared_exactly_once.

(* sentinel for the seeded regression C06_e: prepare_urlencoded is not idempotent; a serializer that prepares the case body once
   more sends the array form [{tag: 0}] as %28%27tag%27%2C+%270%27%29=arbitrary-value, which does not decode to [(tag, 0)];
   the rule of the code sends tag=0 *)
Theorem C06_form_prepared_twice_sentinel_refuted :
  form_shape f_tag0 = true /\ pairs_of f_tag0 = Some [(f_tag, f_zero)]
  /\ prepare_urlencoded (prepare_urlencoded f_tag0) <> prepare_urlencoded f_tag0
  /\ form_path ser_prepares_again TRequests f_tag0 = WBody f_tag0_twice
  /\ form_path ser_prepares_again TAsgi f_tag0 = WBody f_tag0_twice
  /\ decode_form f_tag0_twice <> pairs_of f_tag0
  /\ form_path ser_as_is TRequests f_tag0 = WBody f_tag0_wire
  /\ decode_form f_tag0_wire = pairs_of f_tag0.
Proof.
  repeat split; vm_compute; discriminate.
Qed.
Print Assumptions C06_form_prepared_twice_sentinel_refuted.

(* the examples and coverage phases have no validity filter (Model_C06 section 16) *)
(* a matrix-style primitive path parameter: EVERY non-null value - 0, False and the empty string included - is written
   ;name=<str(value)> by all three phases, and the segment of every phase is read back by the matrix decoder *)
Theorem C06_matrix_primitive_all_phases_partial : forall name e p, p <> PNone ->
  let d := def_path_prim name StMatrix e in
  let it := [(name, VPrim p)] in
  let s := 59 :: name ++ [61] ++ py_str p in
  (path_text name (phase_path PhExamples [d] it) = Some s /\ dec_value FMatrixPrim name s = Some (CPrim (py_str p)) /\ is_nil s = false)
  /\ (forall seg, path_text name (phase_path PhCoverage [d] it) = Some seg -> read_segment (Some FMatrixPrim) name seg = Some (CPrim (py_str p)))
  /\ (forall seg, path_text name (phase_path PhFuzz [d] it) = Some seg -> read_segment (Some FMatrixPrim) name seg = Some (CPrim (py_str p))).
Proof.
  intros name e p Hp d it s.
  assert (Hdec : dec_value FMatrixPrim name s = Some (CPrim (py_str p))).
  { unfold s. cbn [dec_value app]. rewrite strip_matrix_prefix. reflexivity. }
  assert (Hread : forall q, quote_value s = Some q -> read_segment (Some FMatrixPrim) name q = Some (CPrim (py_str p))).
  { intros q Hq. unfold read_segment. rewrite (proj1 (quote_value_spec _ _ Hq)). exact Hdec. }
  pose proof (matrix_ser name e p Hp) as Hser. fold d it s in Hser.
  split; [|split].
  - unfold phase_path. rewrite Hser, path_text_single. split; [reflexivity|]. split; [exact Hdec | reflexivity].
  - intros seg H. destruct (phase_path_single _ _ _ _ _ _ Hser H) as [[E _] | Hq]; [discriminate E | exact (Hread seg Hq)].
  - intros seg H. destruct (phase_path_single _ _ _ _ _ _ Hser H) as [[E _] | Hq]; [discriminate E | exact (Hread seg Hq)].
Qed.
Print Assumptions C06_matrix_primitive_all_phases_partial.

(* finding C06-F4: the empty text of a falsy label primitive is dropped by the fuzzing phase only *)
Theorem C06_label_falsy_reaches_the_wire_refuted :
  let d := def_path_prim s_id StLabel None in
  (forall p, In p [PInt 0; PBool false; PStr []] ->
     phase_path PhFuzz [d] (it_of p) = GFiltered
     /\ phase_path PhExamples [d] (it_of p) = GOk [(s_id, sval [])]
     /\ phase_path PhCoverage [d] (it_of p) = GOk [(s_id, sval [])])
  /\ read_segment (Some FLabelPrim) s_id [] = None
  /\ phase_path PhCoverage [d] (it_of (PInt 7)) = GOk [(s_id, sval [46;55])].
Proof.
  split; [|split; reflexivity].
  intros p [<-|[<-|[<-|[]]]]; repeat split.
Qed.
Print Assumptions C06_label_falsy_reaches_the_wire_refuted.

(* sentinel for seed C06_g: under the truth test a falsy matrix primitive becomes the empty text, which no matrix decoder reads,
   which is_valid_path drops (fuzzing phase) and which quote_all / _stringify_value pass on (coverage phase); truthy values
   cannot tell the two rules apart *)
Theorem C06_matrix_truthiness_sentinel_refuted :
  (forall name v, truthy v = true -> matrix_prim_truthy name v = new_value FMatrixPrim name v)
  /\ (forall p, In p [PInt 0; PBool false; PStr []] ->
       matrix_prim_truthy s_id (VPrim p) = Some []
       /\ new_value FMatrixPrim s_id (VPrim p) = Some (59 :: s_id ++ [61] ++ py_str p))
  /\ dec_value FMatrixPrim s_id [] = None
  /\ is_valid_path [(s_id, sval [])] = false
  /\ omap stringify_item (quote_all [(s_id, sval [])]) = Some [(s_id, sval [])].
Proof.
  split; [|split; [|repeat split]].
  - intros name v H. unfold matrix_prim_truthy. rewrite H. destruct v as [p| |]; try reflexivity.
    destruct p; try reflexivity. discriminate H.
  - intros p [<-|[<-|[<-|[]]]]; vm_compute; split; reflexivity.
Qed.
Print Assumptions C06_matrix_truthiness_sentinel_refuted.

(* finding C06-F15: the empty string of a path parameter without a style serializer is sent as an EMPTY segment by the examples and
   coverage phases (the fuzzing phase drops it); 0 is sent as "0" *)
Theorem C06_empty_path_value_refuted :
  forall st, In st [StNone; StSimple] ->
    let d := def_path_prim s_id st None in
    phase_path PhFuzz [d] (it_of (PStr [])) = GFiltered
    /\ path_text s_id (phase_path PhExamples [d] (it_of (PStr []))) = Some []
    /\ path_text s_id (phase_path PhCoverage [d] (it_of (PStr []))) = Some []
    /\ path_text s_id (phase_path PhCoverage [d] (it_of (PInt 0))) = Some [48].
Proof.
  intros st [<-|[<-|[]]]; repeat split.
Qed.
Print Assumptions C06_empty_path_value_refuted.
