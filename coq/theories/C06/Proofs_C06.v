(* C06 proofs: characterisations of the model's definitions and the general theorems behind the properties.
   Insertion-ordered dicts; percent-encoding and UTF-8; the style serializers and their decoders; the header dict;
   the empty-object rule; the coverage template; configuration histories; exchanges; form bodies. *)
From Coq Require Import List NArith ZArith Bool Lia ZifyBool FinFun.
From Verif Require Import Common.Str Common.Lists C06.Model_C06.
Import ListNotations.
Open Scope N_scope.

Lemma d_get_single {A} name (v : A) : d_get name [(name, v)] = Some v.
Proof. cbn [d_get]. rewrite str_eqb_refl. reflexivity. Qed.
Lemma d_set_single {A} name (x v : A) : d_set name x [(name, v)] = [(name, x)].
Proof. cbn [d_set]. rewrite str_eqb_refl. reflexivity. Qed.
Lemma d_pop_single {A} name (v : A) : d_pop name [(name, v)] = [].
Proof. cbn [d_pop]. rewrite str_eqb_refl. reflexivity. Qed.

Lemma d_get_map_snd {A B} (g : A -> B) k (q : list (str * A)) :
  d_get k (map (fun kv => (fst kv, g (snd kv))) q) = omap g (d_get k q).
Proof.
  induction q as [|[k' v] q IH]; [reflexivity|]. cbn [map d_get fst snd]. destruct (str_eqb k k'); [reflexivity | exact IH].
Qed.

Lemma d_update_cons {A} (d : list (str * A)) k v new : d_update d ((k, v) :: new) = d_update (d_set k v d) new.
Proof. reflexivity. Qed.

Lemma d_set_In {A} (x : str * A) k v d : In x (d_set k v d) -> x = (k, v) \/ In x d.
Proof.
  induction d as [|[k0 v0] d IH]; cbn [d_set In].
  - intros [H | []]. left. symmetry. exact H.
  - destruct (str_eqb k k0) eqn:E; cbn [In].
    + apply str_eqb_spec in E. subst k0. intros [H | H]; [left; symmetry; exact H | tauto].
    + intros [H | H]; [tauto|]. destruct (IH H); tauto.
Qed.
Lemma d_update_In {A} (x : str * A) new : forall d, In x (d_update d new) -> In x new \/ In x d.
Proof.
  induction new as [|[k v] new IH]; intros d H; [tauto|]. rewrite d_update_cons in H.
  destruct (IH _ H) as [B | B]; [left; right; exact B|]. destruct (d_set_In _ _ _ _ B) as [C | C]; [left; left; symmetry; exact C | tauto].
Qed.
Lemma d_pop_In {A} (x : str * A) k d : In x (d_pop k d) -> In x d.
Proof.
  induction d as [|[k0 v0] d IH]; cbn [d_pop In]; [tauto|]. destruct (str_eqb k k0); cbn [In]; [tauto|]. intros [H | H]; [tauto | right; apply IH; exact H].
Qed.
Lemma d_remove_keys_In {A} (x : str * A) ks : forall d, In x (d_remove_keys ks d) -> In x d.
Proof. induction ks as [|k ks IH]; intros d H; [exact H|]. cbn [d_remove_keys] in H. apply IH in H. apply d_pop_In in H. exact H. Qed.

Lemma nodup_strs_spec l : nodup_strs l = true -> NoDup l.
Proof.
  induction l as [|x l IH]; [constructor|]. cbn [nodup_strs]. rewrite andb_true_iff, negb_true_iff. intros [H1 H2].
  constructor; [|apply IH; exact H2]. intros Hin. pose proof (existsb_false_In _ _ x H1 Hin) as E.
  rewrite str_eqb_refl in E. discriminate.
Qed.

Lemma d_set_keys_nodup {A} k (v : A) d : NoDup (map fst d) -> NoDup (map fst (d_set k v d)).
Proof.
  induction d as [|[k0 v0] d IH]; cbn [d_set map fst]; intros H.
  - constructor; [intros [] | constructor].
  - destruct (str_eqb k k0) eqn:E; cbn [map fst]; [exact H|]. inversion H as [|? ? H1 H2]. subst.
    constructor; [|apply IH; exact H2]. intros Hin. apply in_map_iff in Hin. destruct Hin as [p [<- Hp]].
    destruct (d_set_In _ _ _ _ Hp) as [-> | Hp']; [|exact (H1 (in_map fst _ _ Hp'))].
    rewrite str_eqb_refl in E. discriminate.
Qed.
Lemma d_update_keys_nodup {A} (new : list (str * A)) : forall d, NoDup (map fst d) -> NoDup (map fst (d_update d new)).
Proof.
  induction new as [|[k v] new IH]; intros d H; [exact H|]. rewrite d_update_cons. apply IH. apply d_set_keys_nodup. exact H.
Qed.

Lemma d_set_fresh {A} k (v : A) d : ~ In k (map fst d) -> d_set k v d = d ++ [(k, v)].
Proof.
  induction d as [|[k' v'] d IH]; intros H; [reflexivity|]. cbn [d_set app].
  destruct (str_eqb k k') eqn:E.
  - apply str_eqb_spec in E. subst. exfalso. apply H. left. reflexivity.
  - rewrite IH; [reflexivity|]. intros Hin. apply H. right. exact Hin.
Qed.
Lemma d_update_nodup {A} (new : list (str * A)) : forall d, NoDup (map fst d ++ map fst new) -> d_update d new = d ++ new.
Proof.
  induction new as [|[k v] new IH]; intros d H; [rewrite app_nil_r; reflexivity|].
  rewrite d_update_cons. cbn [map fst] in H. rewrite d_set_fresh.
  - rewrite IH; [rewrite <- app_assoc; reflexivity|].
    rewrite map_app. cbn [map fst]. rewrite <- app_assoc. exact H.
  - apply NoDup_remove_2 in H. intros Hin. apply H. apply in_or_app. left. exact Hin.
Qed.

Lemma d_update_nil {A} (l : list (str * A)) : NoDup (map fst l) -> d_update [] l = l.
Proof. intros H. apply (d_update_nodup l []). exact H. Qed.

(* quotient and remainder handed over as variables: lia knows nothing of / and mod without ZifyN *)
Lemma div_mod_ex c d : d <> 0 -> exists q r, c / d = q /\ c mod d = r /\ c = q * d + r /\ r < d.
Proof.
  intros H. exists (c / d), (c mod d). repeat split; [rewrite N.mul_comm; apply N.div_mod' | apply N.mod_lt; exact H].
Qed.

Lemma unhex_hexd n : n < 16 -> unhex (hexd n) = Some n.
Proof.
  intros H. unfold unhex, hexd, is_digit. destruct (n <? 10) eqn:E.
  - replace ((48 <=? 48 + n) && (48 + n <=? 57)) with true by lia. f_equal. lia.
  - replace ((48 <=? 55 + n) && (55 + n <=? 57)) with false by lia.
    replace ((65 <=? 55 + n) && (55 + n <=? 70)) with true by lia. f_equal. lia.
Qed.

(* a hex digit is never a space, a plus, an ampersand or an equals sign *)
Lemma hexd_plain n : 48 <= hexd n /\ hexd n <> 61.
Proof. unfold hexd. destruct (n <? 10) eqn:E; lia. Qed.

Lemma always_safe_props b : always_safe b = true -> b < 128 /\ b <> 37 /\ b <> 43 /\ b <> 32 /\ b <> 38 /\ b <> 61.
Proof. unfold always_safe, is_upper, is_lower, is_digit, mem, existsb. lia. Qed.

Lemma pct_bytes_pct_byte plus b r :
  b < 256 -> pct_bytes plus (pct_byte b ++ r) = omap (cons b) (pct_bytes plus r).
Proof.
  intros Hb. unfold pct_byte. destruct (div_mod_ex b 16) as (h & l & -> & -> & ? & ?); [discriminate|].
  cbn [app pct_bytes]. cbn [N.eqb Pos.eqb].
  rewrite !unhex_hexd by lia.
  destruct (pct_bytes plus r); cbn [omap]; [|reflexivity].
  f_equal. f_equal. lia.
Qed.

Lemma pct_bytes_plain plus c r :
  c < 128 -> c <> 37 ->
  pct_bytes plus (c :: r) = omap (cons (if plus && (c =? 43) then 32 else c)) (pct_bytes plus r).
Proof.
  intros H1 H2. cbn [pct_bytes]. destruct (c =? 37) eqn:E1; [lia|]. destruct (128 <=? c) eqn:E2; [lia|].
  destruct (pct_bytes plus r); reflexivity.
Qed.

Lemma pct_bytes_quote safe bs :
  (forall b, safe b = true -> b < 128 /\ b <> 37) ->
  Forall (fun b => b < 256) bs -> pct_bytes false (flat_map (quote_byte safe) bs) = Some bs.
Proof.
  intros Hs. induction 1 as [|b bs Hb _ IH]; [reflexivity|].
  cbn [flat_map]. unfold quote_byte at 1. destruct (always_safe b || safe b) eqn:Ea.
  - assert (b < 128 /\ b <> 37) as [H1 H2].
    { apply orb_true_iff in Ea. destruct Ea as [Ea | Ea]; [apply always_safe_props in Ea; lia | apply Hs; exact Ea]. }
    cbn [app]. rewrite pct_bytes_plain, IH by assumption. reflexivity.
  - rewrite pct_bytes_pct_byte, IH by exact Hb. reflexivity.
Qed.

(* quote_plus(s, safe) = quote(s, safe + space).replace(space, plus), byte by byte *)
Definition qpb (sf : N -> bool) (b : N) : str := sp_to_plus (quote_byte sf b).

(* the extra safe bytes: the space, or plain ASCII other than the percent sign, the plus and the two separators of a form *)
Definition safe_ok (sf : N -> bool) : Prop :=
  forall b, sf b = true -> b = 32 \/ (b < 128 /\ b <> 37 /\ b <> 43 /\ b <> 38 /\ b <> 61).

Lemma is_sp_ok : safe_ok is_sp.
Proof. intros b H. unfold is_sp in H. lia. Qed.

Lemma qpb_cases sf b :
  safe_ok sf ->
  (b = 32 /\ qpb sf b = [43])
  \/ (b < 128 /\ b <> 37 /\ b <> 43 /\ b <> 38 /\ b <> 61 /\ qpb sf b = [b])
  \/ qpb sf b = pct_byte b.
Proof.
  intros Hs. unfold qpb, quote_byte.
  assert (Hplain : b <> 32 -> sp_to_plus [b] = [b]) by (intros; cbn; replace (b =? 32) with false by lia; reflexivity).
  destruct (always_safe b) eqn:Ea; cbn [orb].
  - right; left. apply always_safe_props in Ea. rewrite Hplain by lia. tauto.
  - destruct (sf b) eqn:Es.
    + destruct (N.eq_dec b 32) as [-> | Hne]; [left; split; reflexivity | right; left].
      destruct (Hs b Es) as [? | H]; [contradiction|]. rewrite Hplain by exact Hne. tauto.
    + right; right. unfold pct_byte. pose proof (hexd_plain (b / 16)). pose proof (hexd_plain (b mod 16)).
      cbn [sp_to_plus map]. replace (hexd (b / 16) =? 32) with false by lia. replace (hexd (b mod 16) =? 32) with false by lia.
      reflexivity.
Qed.

(* read back by either decoder; the one that takes the plus literally needs the byte not to be a space *)
Lemma qpb_decodes plus sf b r :
  safe_ok sf -> b < 256 -> plus = true \/ b <> 32 ->
  pct_bytes plus (qpb sf b ++ r) = omap (cons b) (pct_bytes plus r).
Proof.
  intros Hs Hb Hp. destruct (qpb_cases sf b Hs) as [[-> ->] | [(H1 & H2 & H3 & _ & _ & ->) | ->]].
  - destruct Hp as [-> | Hp]; [|congruence]. cbn [app]. rewrite pct_bytes_plain by lia. reflexivity.
  - cbn [app]. rewrite pct_bytes_plain by assumption. replace (b =? 43) with false by lia. rewrite andb_false_r. reflexivity.
  - apply pct_bytes_pct_byte. exact Hb.
Qed.

Lemma qpb_free sf b c : safe_ok sf -> c = 38 \/ c = 61 -> ~ In c (qpb sf b).
Proof.
  intros Hs Hc. destruct (qpb_cases sf b Hs) as [[-> ->] | [(H1 & H2 & H3 & H5 & H6 & ->) | ->]].
  - intros [H | []]; lia.
  - intros [H | []]; lia.
  - pose proof (hexd_plain (b / 16)). pose proof (hexd_plain (b mod 16)). intros [Hi | [Hi | [Hi | []]]]; lia.
Qed.

Lemma qpb_flat sf bs : sp_to_plus (flat_map (quote_byte sf) bs) = flat_map (qpb sf) bs.
Proof.
  unfold qpb, sp_to_plus. induction bs as [|b bs IH]; [reflexivity|]. cbn [flat_map]. rewrite map_app, IH. reflexivity.
Qed.

Lemma qpb_flat_decodes plus sf bs :
  safe_ok sf -> Forall (fun b => b < 256) bs -> plus = true \/ ~ In 32 bs ->
  pct_bytes plus (flat_map (qpb sf) bs) = Some bs.
Proof.
  intros Hs HF Hp. induction HF as [|b bs Hb _ IH]; [reflexivity|].
  cbn [flat_map]. rewrite qpb_decodes, IH; [reflexivity | | exact Hs | exact Hb |].
  - destruct Hp as [Hp | Hp]; [left; exact Hp | right; intros Hin; apply Hp; right; exact Hin].
  - destruct Hp as [Hp | Hp]; [left; exact Hp | right; intros ->; apply Hp; left; reflexivity].
Qed.

Lemma qpb_flat_free sf bs c : safe_ok sf -> c = 38 \/ c = 61 -> ~ In c (flat_map (qpb sf) bs).
Proof.
  intros Hs Hc Hin. apply in_flat_map in Hin. destruct Hin as [b [_ Hin]]. exact (qpb_free sf b c Hs Hc Hin).
Qed.

(* the four length classes, the code point written in base-64 digits; division is looked at here and nowhere else *)
Lemma utf8_cp_cases c :
  (c < 128 /\ utf8_cp c = [c])
  \/ (exists h l, utf8_cp c = [192 + h; 128 + l] /\ c = h * 64 + l /\ 2 <= h < 32 /\ l < 64)
  \/ (exists h m l, utf8_cp c = [224 + h; 128 + m; 128 + l]
        /\ c = h * 4096 + m * 64 + l /\ 2048 <= c /\ h < 16 /\ m < 64 /\ l < 64)
  \/ (exists g h m l, utf8_cp c = [240 + g; 128 + h; 128 + m; 128 + l]
        /\ c = g * 262144 + h * 4096 + m * 64 + l /\ 65536 <= c /\ h < 64 /\ m < 64 /\ l < 64).
Proof.
  unfold utf8_cp.
  replace (c / 4096) with (c / 64 / 64) by (rewrite N.div_div by discriminate; reflexivity).
  replace (c / 262144) with (c / 64 / 64 / 64) by (rewrite !N.div_div by discriminate; reflexivity).
  destruct (c <? 128) eqn:E1; [left; split; [lia | reflexivity] | right].
  destruct (div_mod_ex c 64) as (q1 & l & E & El & ? & ?); [discriminate|]. rewrite E, El.
  destruct (c <? 2048) eqn:E2; [left; eexists _, _; split; [reflexivity | lia] | right].
  destruct (div_mod_ex q1 64) as (q2 & m & E' & Em & ? & ?); [discriminate|]. rewrite E', Em.
  destruct (c <? 65536) eqn:E3; [left; eexists _, _, _; split; [reflexivity | lia] | right].
  destruct (div_mod_ex q2 64) as (q3 & h & E'' & Eh & ? & ?); [discriminate|]. rewrite E'', Eh.
  eexists _, _, _, _; split; [reflexivity | lia].
Qed.

Lemma utf8_cp_bytes c : c < 1114112 -> Forall (fun b => b < 256) (utf8_cp c).
Proof.
  intros H. destruct (utf8_cp_cases c) as [[? ->] | [(h & l & -> & ?) | [(h & m & l & -> & ?) | (g & h & m & l & -> & ?)]]];
    repeat constructor; lia.
Qed.

Lemma utf8_cp_no_sp c : c <> 32 -> ~ In 32 (utf8_cp c).
Proof.
  intros Hc. destruct (utf8_cp_cases c) as [[? ->] | [(h & l & -> & ?) | [(h & m & l & -> & ?) | (g & h & m & l & -> & ?)]]];
    cbn [In]; lia.
Qed.

Lemma add_sub_l a b : a + b - a = b.
Proof. rewrite N.add_comm. apply N.add_sub. Qed.

Lemma is_cont_low l : l < 64 -> is_cont (128 + l) = true.
Proof. unfold is_cont. lia. Qed.

(* what the decoder does with a well-formed sequence of each length; the tail is kept folded while the tests on the lead byte
   are settled, since unfolding the decoder on it as well squares the goal *)
Lemma utf8_decode_2 h l r :
  2 <= h < 32 -> l < 64 -> utf8_decode (192 + h :: 128 + l :: r) = omap (cons (h * 64 + l)) (utf8_decode r).
Proof.
  intros Hh Hl. set (t := 128 + l :: r). cbn [utf8_decode].
  replace (192 + h <? 128) with false by lia. replace (192 + h <? 194) with false by lia.
  replace (192 + h <? 224) with true by lia.
  subst t. cbv beta iota. rewrite !add_sub_l, is_cont_low by exact Hl. reflexivity.
Qed.

Lemma utf8_decode_3 h m l r :
  h < 16 -> m < 64 -> l < 64 -> 2048 <= h * 4096 + m * 64 + l -> is_surrogate (h * 4096 + m * 64 + l) = false ->
  utf8_decode (224 + h :: 128 + m :: 128 + l :: r) = omap (cons (h * 4096 + m * 64 + l)) (utf8_decode r).
Proof.
  intros Hh Hm Hl Hlow Hsur. set (t := 128 + m :: 128 + l :: r). cbn [utf8_decode].
  replace (224 + h <? 128) with false by lia. replace (224 + h <? 194) with false by lia.
  replace (224 + h <? 224) with false by lia. replace (224 + h <? 240) with true by lia.
  subst t. cbv beta iota zeta. rewrite !add_sub_l, !is_cont_low, Hsur by assumption.
  apply N.leb_le in Hlow. rewrite Hlow. reflexivity.
Qed.

Lemma utf8_decode_4 g h m l r :
  h < 64 -> m < 64 -> l < 64 ->
  65536 <= g * 262144 + h * 4096 + m * 64 + l -> g * 262144 + h * 4096 + m * 64 + l < 1114112 ->
  utf8_decode (240 + g :: 128 + h :: 128 + m :: 128 + l :: r)
  = omap (cons (g * 262144 + h * 4096 + m * 64 + l)) (utf8_decode r).
Proof.
  intros Hh Hm Hl Hlow Hmax. assert (Hg : g < 5) by lia. set (t := 128 + h :: 128 + m :: 128 + l :: r). cbn [utf8_decode].
  replace (240 + g <? 128) with false by lia. replace (240 + g <? 194) with false by lia.
  replace (240 + g <? 224) with false by lia. replace (240 + g <? 240) with false by lia.
  replace (240 + g <? 245) with true by lia.
  subst t. cbv beta iota zeta. rewrite !add_sub_l, !is_cont_low by assumption.
  apply N.leb_le in Hlow. apply N.ltb_lt in Hmax. rewrite Hlow, Hmax. reflexivity.
Qed.

Lemma is_scalar_props c : is_scalar c = true -> c < 1114112 /\ is_surrogate c = false.
Proof. unfold is_scalar. lia. Qed.

Lemma utf8_decode_cp c r : is_scalar c = true -> utf8_decode (utf8_cp c ++ r) = omap (cons c) (utf8_decode r).
Proof.
  intros Hs. apply is_scalar_props in Hs. destruct Hs as [Hmax Hsur].
  destruct (utf8_cp_cases c) as [[H ->] | [(h & l & -> & Hc & Hh & Hl) | [(h & m & l & -> & Hc & H & Hh & Hm & Hl)
                                                                         | (g & h & m & l & -> & Hc & H & Hh & Hm & Hl)]]];
    cbn [app].
  - cbn [utf8_decode]. replace (c <? 128) with true by lia. reflexivity.
  - subst c. apply utf8_decode_2; assumption.
  - subst c. apply utf8_decode_3; assumption.
  - subst c. apply utf8_decode_4; assumption.
Qed.

Lemma utf8_roundtrip s bs : utf8_encode s = Some bs -> utf8_decode bs = Some s /\ Forall (fun b => b < 256) bs.
Proof.
  unfold utf8_encode. destruct (forallb is_scalar s) eqn:E; [|discriminate].
  intros H; injection H as <-. rewrite forallb_forall in E.
  induction s as [|c s IH]; [split; [reflexivity | constructor]|].
  cbn [flat_map]. assert (Hc : is_scalar c = true) by (apply E; left; reflexivity).
  destruct IH as [IH1 IH2]; [intros x Hx; apply E; right; exact Hx|].
  split.
  - rewrite utf8_decode_cp, IH1 by exact Hc. reflexivity.
  - apply Forall_app; split; [apply utf8_cp_bytes; apply is_scalar_props in Hc; lia | exact IH2].
Qed.

Lemma utf8_encode_no_sp s bs : utf8_encode s = Some bs -> no_space s = true -> ~ In 32 bs.
Proof.
  unfold utf8_encode, no_space. destruct (forallb is_scalar s); [|discriminate]. intros H; injection H as <-.
  rewrite negb_true_iff. intros Hsp Hin. apply in_flat_map in Hin. destruct Hin as [c [Hc Hin]].
  destruct (N.eq_dec c 32) as [-> | Hne]; [apply mem_spec in Hc; congruence | exact (utf8_cp_no_sp c Hne Hin)].
Qed.

(* quote_plus with any extra safe bytes: the form decoder (plus = space) gives the text back, so does the RFC 3986 decoder
   (plus literal) when the text has no space; neither separator of a form occurs in the result *)
Theorem quote_plus_spec sf s q :
  safe_ok sf -> omap sp_to_plus (quote_with sf s) = Some q ->
  pct_decode_form q = Some s /\ (no_space s = true -> pct_decode q = Some s) /\ ~ In 38 q /\ ~ In 61 q.
Proof.
  intros Hs. unfold quote_with. destruct (utf8_encode s) as [bs|] eqn:E; [|discriminate].
  cbn [omap]. intros H; injection H as <-. rewrite qpb_flat.
  destruct (utf8_roundtrip s bs E) as [E1 E2].
  split; [|split; [|split; apply qpb_flat_free; auto]].
  - unfold pct_decode_form. rewrite qpb_flat_decodes by auto. exact E1.
  - intros Hsp. unfold pct_decode. rewrite qpb_flat_decodes; [exact E1 | exact Hs | exact E2 |].
    right. exact (utf8_encode_no_sp s bs E Hsp).
Qed.

Lemma quote_with_roundtrip safe s q :
  (forall b, safe b = true -> b < 128 /\ b <> 37) ->
  quote_with safe s = Some q -> pct_decode q = Some s.
Proof.
  intros Hs. unfold quote_with. destruct (utf8_encode s) as [bs|] eqn:E; [|discriminate].
  cbn [omap]. intros H; injection H as <-. apply utf8_roundtrip in E. destruct E as [E1 E2].
  unfold pct_decode. rewrite pct_bytes_quote by assumption. cbn [obind]. exact E1.
Qed.

Lemma is_slash_plain b : is_slash b = true -> b < 128 /\ b <> 37.
Proof. unfold is_slash. lia. Qed.

Example quote_plus_nonvacuous :
  quote_plus [97; 32; 233; 47; 128512; 37] = Some [97;43;37;67;51;37;65;57;37;50;70;37;70;48;37;57;70;37;57;56;37;56;48;37;50;53].
Proof. vm_compute. reflexivity. Qed.

(* quote_all on one value: the two dot segments are escaped by hand, everything else is quote_plus *)
Lemma quote_value_spec s q :
  quote_value s = Some q -> pct_decode_form q = Some s /\ (no_space s = true -> pct_decode q = Some s).
Proof.
  unfold quote_value.
  destruct (str_eqb s [46]) eqn:E1;
    [apply str_eqb_spec in E1; subst; intros H; injection H as <-; split; [|intros _]; reflexivity|].
  destruct (str_eqb s [46; 46]) eqn:E2;
    [apply str_eqb_spec in E2; subst; intros H; injection H as <-; split; [|intros _]; reflexivity|].
  intros H. destruct (quote_plus_spec is_sp s q is_sp_ok H) as (A & B & _). split; assumption.
Qed.

(* a container that holds one text under one name, as the path container of one serialized parameter does *)
Lemma quote_all_single k s : quote_all [(k, sval s)] = omap (fun q => [(k, sval q)]) (quote_value s).
Proof. cbn [quote_all sval]. destruct (quote_value s); reflexivity. Qed.
Lemma stringify_item_single k q : stringify_item [(k, sval q)] = [(k, sval q)].
Proof. reflexivity. Qed.
Lemma jsonify_single k q : jsonify [(k, sval q)] = [(k, sval q)].
Proof. reflexivity. Qed.
Lemma path_text_single k q : path_text k (GOk [(k, sval q)]) = Some q.
Proof. unfold path_text. rewrite d_get_single. reflexivity. Qed.

(* the text a phase puts into the path for it: the serialized text itself (examples), or that text through quote_all
   (coverage, and fuzzing when the filter lets it pass) *)
Lemma phase_path_single ph defs it k s seg :
  serialize3 defs it = Some [(k, sval s)] -> path_text k (phase_path ph defs it) = Some seg ->
  (ph = PhExamples /\ seg = s) \/ quote_value s = Some seg.
Proof.
  intros Hser. destruct ph; unfold phase_path, generated_path; rewrite Hser.
  - (* fuzzing *) destruct (is_valid_path _); [|discriminate]. rewrite quote_all_single.
    destruct (quote_value s) as [q|]; [|discriminate]. cbn [omap]. rewrite jsonify_single, path_text_single.
    intros H; injection H as <-. right. reflexivity.
  - (* examples *) rewrite path_text_single. intros H; injection H as <-. left. split; reflexivity.
  - (* coverage *) rewrite quote_all_single. destruct (quote_value s) as [q|]; [|discriminate]. cbn [omap].
    rewrite stringify_item_single, path_text_single. intros H; injection H as <-. right. reflexivity.
Qed.

Lemma split_join d l : l <> [] -> Forall (fun x => ~ In d x) l -> split_on d (join [d] l) = l.
Proof.
  induction l as [|x l IH]; [congruence|]. intros _ HF. inversion HF as [|? ? Hx HF']; subst.
  destruct l as [|y l].
  - apply split_on_nosep. exact Hx.
  - change (join [d] (x :: y :: l)) with (x ++ d :: join [d] (y :: l)).
    rewrite split_on_app, split_on_nosep by exact Hx. cbn [app]. f_equal. apply IH; [discriminate | exact HF'].
Qed.

Lemma is_nil_app_cons {A} (x : list A) c r : is_nil (x ++ c :: r) = false.
Proof. destruct x; reflexivity. Qed.

Lemma split_list_join d l : l <> [[]] -> Forall (fun x => ~ In d x) l -> split_list d (join [d] l) = l.
Proof.
  intros Hne HF. unfold split_list. destruct l as [|x l]; [reflexivity|].
  destruct l as [|y l].
  - cbn [join]. destruct x as [|c x]; [congruence|]. cbn [is_nil].
    change (c :: x) with (join [d] [c :: x]). apply split_join; [discriminate | exact HF].
  - change (join [d] (x :: y :: l)) with (x ++ d :: join [d] (y :: l)). rewrite is_nil_app_cons.
    change (x ++ d :: join [d] (y :: l)) with (join [d] (x :: y :: l)). apply split_join; [discriminate | exact HF].
Qed.

Lemma free_of_spec cs s : free_of cs s = true -> forall c, In c cs -> ~ In c s.
Proof.
  unfold free_of. intros H c Hc Hin. apply negb_true_iff in H. pose proof (existsb_false_In _ _ c H Hin) as E.
  cbv beta in E. apply mem_spec in Hc. congruence.
Qed.

Lemma forallb_free cs l d : In d cs -> forallb (free_of cs) l = true -> Forall (fun x => ~ In d x) l.
Proof.
  intros Hd H. apply Forall_forall. intros x Hx. rewrite forallb_forall in H.
  exact (free_of_spec cs x (H x Hx) d Hd).
Qed.

Lemma pair_up_flat {A} (g : A -> str) (l : list (str * A)) :
  pair_up (flat_map (fun kv => [fst kv; g (snd kv)]) l) = Some (map (fun kv => (fst kv, g (snd kv))) l).
Proof. induction l as [|kv l IH]; [reflexivity|]. cbn [flat_map app pair_up map]. rewrite IH. reflexivity. Qed.

Lemma split_first_spec c k v acc : ~ In c k -> split_first c (k ++ c :: v) acc = Some (rev acc ++ k, v).
Proof.
  revert acc; induction k as [|x k IH]; intros acc H; cbn [app split_first].
  - rewrite N.eqb_refl, app_nil_r. reflexivity.
  - destruct (x =? c) eqn:E; [apply N.eqb_eq in E; subst; exfalso; apply H; left; reflexivity|].
    rewrite IH by (intros Hin; apply H; right; exact Hin). cbn [rev]. rewrite <- app_assoc. reflexivity.
Qed.

Lemma all_some_map {A B} (f : A -> option B) (g : A -> B) l :
  (forall x, In x l -> f x = Some (g x)) -> all_some (map f l) = Some (map g l).
Proof.
  induction l as [|x l IH]; intros H; [reflexivity|]. cbn [map all_some].
  rewrite (H x) by (left; reflexivity). rewrite IH by (intros y Hy; apply H; right; exact Hy). reflexivity.
Qed.

Lemma all_some_inv {A B} (f : A -> option B) l r :
  all_some (map f l) = Some r -> Forall2 (fun x y => f x = Some y) l r.
Proof.
  revert r; induction l as [|x l IH]; intros r H; cbn [map all_some] in H.
  - injection H as <-. constructor.
  - destruct (f x) as [y|] eqn:E; [|discriminate]. destruct (all_some (map f l)) as [r'|]; [|discriminate].
    cbn [omap] in H. injection H as <-. constructor; [exact E | apply IH; reflexivity].
Qed.

Lemma strip_prefix_app p s : strip_prefix p (p ++ s) = Some s.
Proof. induction p as [|x p IH]; [destruct s; reflexivity|]. cbn [app strip_prefix]. rewrite N.eqb_refl. exact IH. Qed.

Lemma kv_eq_nonempty kv : kv_eq kv <> [].
Proof. unfold kv_eq. destruct (fst kv); discriminate. Qed.

Lemma dec_pairs_make d l :
  d <> 61 ->
  Forall (fun kv => ~ In d (fst kv) /\ ~ In d (py_str (snd kv)) /\ ~ In 61 (fst kv)) l ->
  dec_pairs d (make_delimited l d) = Some (map (fun kv => (fst kv, py_str (snd kv))) l).
Proof.
  intros Hd HF. unfold dec_pairs, make_delimited.
  rewrite split_list_join.
  - rewrite map_map. apply all_some_map. intros kv Hkv. rewrite Forall_forall in HF.
    destruct (HF kv Hkv) as [_ [_ Hk]]. unfold kv_eq. cbn [app].
    rewrite split_first_spec by exact Hk. reflexivity.
  - destruct l as [|kv [|kv2 l]]; cbn [map]; try discriminate.
    intros H; injection H as H. exact (kv_eq_nonempty kv H).
  - apply Forall_forall. intros x Hx. apply in_map_iff in Hx. destruct Hx as [kv [<- Hkv]].
    rewrite Forall_forall in HF. destruct (HF kv Hkv) as [H1 [H2 _]]. unfold kv_eq.
    intros Hin. apply in_app_or in Hin. destruct Hin as [Hin | Hin]; [exact (H1 Hin)|].
    cbn [app] in Hin. destruct Hin as [Hin | Hin]; [congruence | exact (H2 Hin)].
Qed.

Lemma obj_pairs_ok cs d (l : list (str * pyv)) :
  In d cs -> forallb (free_of cs) (flat_map (fun kv => [fst kv; py_str (snd kv)]) l) = true ->
  forallb (free_of [61]) (map fst l) = true ->
  Forall (fun kv => ~ In d (fst kv) /\ ~ In d (py_str (snd kv)) /\ ~ In 61 (fst kv)) l.
Proof.
  intros Hd H1 H2. apply Forall_forall. intros kv Hkv. rewrite forallb_forall in H1, H2. repeat split.
  - apply (free_of_spec cs (fst kv)); [apply H1, in_flat_map; exists kv; split; [exact Hkv | left; reflexivity] | exact Hd].
  - apply (free_of_spec cs (py_str (snd kv))); [apply H1, in_flat_map; exists kv; split; [exact Hkv | right; left; reflexivity] | exact Hd].
  - apply (free_of_spec [61] (fst kv)); [apply H2, in_map; exact Hkv | left; reflexivity].
Qed.

Lemma not_single_empty_arr l : not_single_empty (VArr l) = true -> map py_str l <> [[]].
Proof.
  destruct l as [|p [|q l]]; cbn [not_single_empty map]; try discriminate.
  intros H E. injection E as E. rewrite E in H. discriminate.
Qed.

Lemma or_iter_arr l : or_iter (VArr l) = Some l.
Proof. unfold or_iter. destruct l; reflexivity. Qed.
Lemma or_dict_obj l : or_dict (VObj l) = Some l.
Proof. unfold or_dict. destruct l; reflexivity. Qed.

(* the serializers that store ONE text under the name (all but deepObject, extracted_object, nothing and to_json):
   apply_sfun takes its last branch, decode reads that one entry *)
Definition stores_one_text (f : sfun) : bool :=
  match f with FDeepObject | FExtracted | FNothing | FToJson => false | _ => true end.

Lemma apply_sfun_one_text f name it :
  stores_one_text f = true ->
  apply_sfun f name it
  = match d_get name it with
    | None => Some it
    | Some v => omap (fun s => d_set name (sval s) it) (new_value f name v)
    end.
Proof. intros Hf. destruct f; try discriminate Hf; reflexivity. Qed.

Lemma decode_one_text f name it :
  stores_one_text f = true -> decode f name it = obind (d_get name it) (fun v => obind (as_str v) (dec_value f name)).
Proof. intros Hf. destruct f; try discriminate Hf; reflexivity. Qed.

Lemma one_text_reduce f name v it :
  stores_one_text f = true -> apply_sfun f name [(name, v)] = Some it ->
  exists s, new_value f name v = Some s /\ decode f name it = dec_value f name s.
Proof.
  intros Hf. rewrite apply_sfun_one_text, d_get_single by exact Hf.
  destruct (new_value f name v) as [s|]; [|discriminate]. cbn [omap]. rewrite d_set_single.
  intros H; injection H as <-. exists s. split; [reflexivity|].
  rewrite decode_one_text, d_get_single by exact Hf. reflexivity.
Qed.

(* the label and matrix decoders on a text written with prefix_if_nonempty: the prefix goes, the empty text is the empty container *)
Lemma dec_label_arr e name w :
  dec_value (FLabelArr e) name (prefix_if_nonempty 46 w) = Some (CArr (split_list (if e then 46 else 44) w)).
Proof. destruct w; reflexivity. Qed.
Lemma dec_label_obj e name w :
  dec_value (FLabelObj e) name (prefix_if_nonempty 46 w) = omap CObj (if e then dec_pairs 46 w else pair_up (split_list 44 w)).
Proof. destruct w, e; reflexivity. Qed.
Lemma dec_matrix_arr name w :
  dec_value (FMatrixArr true) name (prefix_if_nonempty 59 w)
  = omap CArr (all_some (map (strip_prefix (name ++ [61])) (split_list 59 w))).
Proof. destruct w; reflexivity. Qed.
Lemma dec_matrix_obj name w :
  dec_value (FMatrixObj true) name (prefix_if_nonempty 59 w) = omap CObj (dec_pairs 59 w).
Proof. destruct w; reflexivity. Qed.

Lemma strip_matrix_prefix name x : strip_prefix (59 :: name ++ [61]) (59 :: name ++ 61 :: x) = Some x.
Proof.
  replace (59 :: name ++ 61 :: x) with ((59 :: name ++ [61]) ++ x) by (cbn [app]; rewrite <- app_assoc; reflexivity).
  apply strip_prefix_app.
Qed.

Lemma comma_flat_pairs (l : list (str * pyv)) :
  forallb (free_of [44]) (flat_map (fun kv => [fst kv; py_str (snd kv)]) l) = true ->
  pair_up (split_list 44 (comma_flat l)) = Some (map (fun kv => (fst kv, py_str (snd kv))) l).
Proof.
  intros H. unfold comma_flat. rewrite split_list_join; [apply pair_up_flat | destruct l; cbn; discriminate |].
  apply (forallb_free [44]); [left; reflexivity | exact H].
Qed.

Lemma matrix_items_roundtrip name (l : list pyv) :
  free_of [59] name = true -> forallb (free_of [59]) (map py_str l) = true ->
  all_some (map (strip_prefix (name ++ [61])) (split_list 59 (join [59] (map (fun p => name ++ [61] ++ py_str p) l))))
  = Some (map py_str l).
Proof.
  intros Hname Hfree.
  pose proof (free_of_spec [59] name Hname 59 (or_introl eq_refl)) as Hn.
  pose proof (forallb_free [59] _ 59 (or_introl eq_refl) Hfree) as HF. rewrite Forall_forall in HF.
  rewrite split_list_join.
  - rewrite map_map. apply all_some_map. intros p _. rewrite app_assoc. apply strip_prefix_app.
  - destruct l as [|p [|q l]]; cbn [map]; try discriminate. destruct name; discriminate.
  - apply Forall_forall. intros x Hx. apply in_map_iff in Hx. destruct Hx as [p [<- Hp]].
    intros Hin. apply in_app_or in Hin. destruct Hin as [Hin | [Hin | Hin]]; [exact (Hn Hin) | discriminate Hin |].
    apply (HF (py_str p)); [apply in_map; exact Hp | exact Hin].
Qed.

Theorem new_value_roundtrip f name v s :
  style_region f name v = true -> new_value f name v = Some s -> dec_value f name s = Some (coerce v).
Proof.
  unfold style_region, delimiter_free. rewrite !andb_true_iff. intros [[[[Hshape [Hfree Hkeys]] Hne] Hstd] Hname].
  destruct f; try discriminate Hshape; destruct v as [p | l | l]; try discriminate Hshape;
    cbn [new_value]; rewrite ?or_iter_arr, ?or_dict_obj;
    cbn [omap coerce coerce_with items_of keys_of keys_ok nonempty_ok delims_of name_ok] in *.
  - (* delimited *) intros [= <-]. cbn [dec_value]. rewrite split_list_join; [reflexivity | apply not_single_empty_arr; exact Hne |].
    apply (forallb_free [delim]); [left; reflexivity | exact Hfree].
  - (* deepObject stores several entries *) discriminate.
  - (* comma_delimited_object *) intros [= <-]. cbn [dec_value]. rewrite comma_flat_pairs by exact Hfree. reflexivity.
  - (* delimited_object *) intros [= <-]. cbn [dec_value]. rewrite dec_pairs_make; [reflexivity | discriminate |].
    apply (obj_pairs_ok [44]); [left; reflexivity | exact Hfree | exact Hkeys].
  - (* extracted_object stores several entries *) discriminate.
  - (* label_primitive: the region is the truthy values *) rewrite Hne. intros [= <-]. cbn. destruct (py_str p); reflexivity.
  - (* label_array *) intros [= <-]. rewrite dec_label_arr, split_list_join; [reflexivity | apply not_single_empty_arr; exact Hne |].
    apply (forallb_free [if e then 46 else 44]); [left; reflexivity | exact Hfree].
  - (* label_object *) intros [= <-]. rewrite dec_label_obj. destruct e.
    + rewrite dec_pairs_make; [reflexivity | discriminate |].
      apply (obj_pairs_ok [46]); [left; reflexivity | exact Hfree | exact Hkeys].
    + rewrite comma_flat_pairs by exact Hfree. reflexivity.
  - (* matrix_primitive *) destruct p; try discriminate Hne; intros [= <-]; cbn [dec_value]; rewrite strip_matrix_prefix; reflexivity.
  - (* matrix_array *) destruct e; [|discriminate Hstd]. intros [= <-].
    rewrite dec_matrix_arr, matrix_items_roundtrip by assumption. reflexivity.
  - (* matrix_object *) destruct e; [|discriminate Hstd]. intros [= <-]. rewrite dec_matrix_obj, dec_pairs_make; [reflexivity | discriminate |].
    apply (obj_pairs_ok [59]); [left; reflexivity | exact Hfree | exact Hkeys].
  - (* to_string *) intros [= <-]. reflexivity.
Qed.

(* deepObject and extracted_object spread the object over the container: the entries are new and distinct, so they are appended *)
Lemma deep_key_spec name k : deep_key name (name ++ 91 :: k ++ [93]) = Some k.
Proof.
  unfold deep_key. change (name ++ 91 :: k ++ [93]) with (name ++ [91] ++ (k ++ [93])). rewrite app_assoc, strip_prefix_app. cbn [obind].
  rewrite rev_app_distr. cbn [rev app]. rewrite rev_involutive. reflexivity.
Qed.

Lemma dec_deep_spec name (l : list (str * pyv)) :
  dec_deep name (map (fun kv : str * value => (name ++ 91 :: fst kv ++ [93], snd kv))
                     (map (fun kv : str * pyv => (fst kv, VPrim (snd kv))) l))
  = Some (map (fun kv => (fst kv, py_str (snd kv))) l).
Proof.
  rewrite map_map. cbn [fst snd].
  induction l as [|kv l IH]; [reflexivity|]. cbn [map dec_deep]. rewrite deep_key_spec. cbn [entry_str].
  rewrite IH. reflexivity.
Qed.

Lemma region_dict f name l :
  (f = FDeepObject \/ f = FExtracted) -> style_region f name (VObj l) = true -> NoDup (map fst l) /\ is_nil l = false.
Proof.
  unfold style_region. rewrite !andb_true_iff. intros Hf [[[[Hshape _] Hne] _] _].
  destruct Hf as [-> | ->]; cbn in Hshape, Hne; apply negb_true_iff in Hne; (split; [apply nodup_strs_spec; exact Hshape | exact Hne]).
Qed.

Lemma rt_deep name l it :
  style_region FDeepObject name (VObj l) = true -> apply_sfun FDeepObject name [(name, VObj l)] = Some it ->
  decode FDeepObject name it = Some (coerce (VObj l)).
Proof.
  intros HR. destruct (region_dict _ name l (or_introl eq_refl) HR) as [Hnd Hne].
  unfold apply_sfun. rewrite d_get_single, d_pop_single. cbn [truthy]. rewrite Hne.
  intros H; injection H as <-. unfold decode. rewrite d_update_nil.
  - cbn [force_dict_v]. rewrite dec_deep_spec. reflexivity.
  - cbn [force_dict_v]. rewrite !map_map. cbn [fst]. rewrite <- (map_map fst (fun k => name ++ 91 :: k ++ [93])).
    apply Injective_map_NoDup; [|exact Hnd].
    intros x y E. apply app_inv_head in E. injection E as E. apply app_inv_tail in E. exact E.
Qed.

Lemma rt_extracted name l it :
  style_region FExtracted name (VObj l) = true -> apply_sfun FExtracted name [(name, VObj l)] = Some it ->
  decode FExtracted name it = Some (coerce (VObj l)).
Proof.
  intros HR. destruct (region_dict _ name l (or_intror eq_refl) HR) as [Hnd Hne].
  unfold apply_sfun. rewrite d_get_single, d_pop_single.
  destruct l as [|e l]; [discriminate Hne|].
  intros H; injection H as <-. unfold decode.
  change (d_update [(fst e, VPrim (snd e))] ?r) with (d_update [] (force_dict_v (VObj (e :: l)))). rewrite d_update_nil.
  - cbn [force_dict_v]. unfold dec_extracted. rewrite map_map.
    rewrite (all_some_map _ (fun kv : str * pyv => (fst kv, py_str (snd kv)))); [reflexivity|].
    intros kv _. reflexivity.
  - cbn [force_dict_v]. rewrite map_map. exact Hnd.
Qed.

Example style_roundtrip_nonvacuous :
  style_region (FLabelObj true) [105;100] (VObj [([114], PStr [97;32;98]); ([107], PBool true)]) = true
  /\ style_region FDeepObject [111] (VObj [([107], PInt 5); ([], PStr [])]) = true
  /\ style_region (FMatrixArr true) [105;100] (VArr [PStr [51]; PInt (-4)%Z; PNone]) = true
  /\ style_region (FDelimited 124) [113] (VArr [PStr [97;44;98]; PStr []]) = true.
Proof. repeat split. Qed.

Definition enc (f : sfun) (name : str) (v : value) : option item := apply_sfun f name [(name, v)].

(* two different generated values with the same wire form: no decoder whatsoever can recover both *)
Definition collision (f : sfun) (name : str) (v1 v2 : value) : Prop :=
  enc f name v1 = enc f name v2 /\ enc f name v1 <> None /\ coerce v1 <> coerce v2.

Definition cookie_explode_arr : definition :=
  {| d_name := [99]; d_in := LCookie; d_style := StForm; d_explode := Some true; d_type := TArray; d_content := CtNone |}.

(* jsonify_python_specific_types respells a boolean directly under the container and inside an object, not inside an array *)
Lemma jsonify_skips_arrays :
  jsonify [([113], VPrim (PBool true)); ([97], VArr [PBool true]); ([111], VObj [([107], PBool true)])]
  = [([113], VPrim (PStr s_true)); ([97], VArr [PBool true]); ([111], VObj [([107], PStr s_true)])].
Proof. reflexivity. Qed.

(* the style of a path parameter defaults to simple and explode of a form query parameter to true (OpenAPI 3):
   the dispatch looks at the literal keywords only, so nothing is serialized when they are left out *)
Lemma default_style_not_applied :
  ser3_one {| d_name := [105;100]; d_in := LPath; d_style := StNone; d_explode := None; d_type := TArray; d_content := CtNone |} = []
  /\ ser3_one {| d_name := [105;100]; d_in := LPath; d_style := StSimple; d_explode := None; d_type := TObject; d_content := CtNone |} = []
  /\ ser3_one {| d_name := [113]; d_in := LQuery; d_style := StNone; d_explode := None; d_type := TObject; d_content := CtNone |} = []
  /\ ser3_one {| d_name := [99]; d_in := LCookie; d_style := StNone; d_explode := None; d_type := TArray; d_content := CtNone |} = [FToString].
Proof. repeat split. Qed.

Lemma ci_eqb_refl a : ci_eqb a a = true.
Proof. apply str_eqb_refl. Qed.
(* a key counts through its lower-case form only *)
Lemma ci_eqb_cong a b c : ci_eqb a b = true -> ci_eqb a c = ci_eqb b c /\ ci_eqb c a = ci_eqb c b.
Proof. unfold ci_eqb. intros H. apply str_eqb_spec in H. rewrite H. split; reflexivity. Qed.

Lemma ci_get_cong k k' h : ci_eqb k k' = true -> ci_get k h = ci_get k' h.
Proof.
  intros H. induction h as [|[k0 v0] h IH]; [reflexivity|]. cbn [ci_get].
  rewrite (proj1 (ci_eqb_cong k k' k0 H)), IH. reflexivity.
Qed.

Lemma ci_get_set k k' v h : ci_get k (ci_set k' v h) = if ci_eqb k k' then Some v else ci_get k h.
Proof.
  induction h as [|[k0 v0] h IH]; cbn [ci_set ci_get]; [reflexivity|].
  destruct (ci_eqb k' k0) eqn:E0; cbn [ci_get].
  - rewrite <- (proj2 (ci_eqb_cong k' k0 k E0)). destruct (ci_eqb k k'); reflexivity.
  - rewrite IH. destruct (ci_eqb k k') eqn:E1; [|reflexivity].
    rewrite (proj1 (ci_eqb_cong k k' k0 E1)), E0. reflexivity.
Qed.

Lemma ci_get_app k a b : ci_get k (a ++ b) = match ci_get k a with Some x => Some x | None => ci_get k b end.
Proof. induction a as [|[k0 v0] a IH]; [reflexivity|]. cbn [app ci_get]. destruct (ci_eqb k k0); [reflexivity | exact IH]. Qed.

(* dict.update: the LAST entry of the explicit headers that matches wins, then the case headers *)
Lemma ci_update_cons h k v new : ci_update h ((k, v) :: new) = ci_update (ci_set k v h) new.
Proof. reflexivity. Qed.

Lemma ci_get_update k new h :
  ci_get k (ci_update h new) = match ci_get k (rev new) with Some x => Some x | None => ci_get k h end.
Proof.
  revert h. induction new as [|[k' v'] new IH]; intros h; [reflexivity|].
  rewrite ci_update_cons, IH, ci_get_set. cbn [rev]. rewrite ci_get_app. cbn [ci_get].
  destruct (ci_get k (rev new)); [reflexivity|]. destruct (ci_eqb k k'); reflexivity.
Qed.

Lemma ci_get_setdefault k k' v h :
  ci_get k (ci_setdefault k' v h) = match ci_get k h with Some x => Some x | None => if ci_eqb k k' then Some v else None end.
Proof.
  unfold ci_setdefault. destruct (ci_get k' h) as [x|] eqn:E.
  - destruct (ci_get k h) eqn:E2; [reflexivity|]. destruct (ci_eqb k k') eqn:E3; [|reflexivity].
    rewrite (ci_get_cong k k' h E3) in E2. congruence.
  - rewrite ci_get_set. destruct (ci_eqb k k') eqn:E3.
    + rewrite (ci_get_cong k k' h E3), E. reflexivity.
    + destruct (ci_get k h); reflexivity.
Qed.

Definition explicit_get (k : str) (explicit : option (list (str * str))) : option str :=
  match explicit with Some e => ci_get k (rev e) | None => None end.
Definition case_get (k : str) (case_h : option headers) : option str :=
  match case_h with Some h => ci_get k h | None => None end.

Lemma ci_get_remove_same c h : ci_get c (ci_remove c h) = None.
Proof.
  induction h as [|[k0 v0] h IH]; [reflexivity|]. unfold ci_remove. cbn [filter fst].
  destruct (ci_eqb c k0) eqn:E; cbn [negb]; [exact IH|]. cbn [ci_get]. rewrite E. exact IH.
Qed.
Lemma ci_get_rev_none k h : ci_get k h = None -> ci_get k (rev h) = None.
Proof.
  induction h as [|[k0 v0] h IH]; [reflexivity|]. cbn [ci_get rev]. destruct (ci_eqb k k0) eqn:E; [discriminate|].
  intros H. rewrite ci_get_app, (IH H). cbn [ci_get]. rewrite E. reflexivity.
Qed.
(* the headers of the case updated with those of the call, before the two defaults *)
Lemma ci_get_case_and_call k case_h explicit :
  ci_get k (match explicit with
            | Some e => ci_update (match case_h with Some h => h | None => [] end) e
            | None => match case_h with Some h => h | None => [] end
            end)
  = match explicit_get k explicit with Some v => Some v | None => case_get k case_h end.
Proof. destruct explicit as [e|]; cbn [explicit_get]; [rewrite ci_get_update|]; destruct case_h; reflexivity. Qed.

Lemma ci_set_In x k v h : In x (ci_set k v h) -> x = (k, v) \/ In x h.
Proof.
  induction h as [|[k0 v0] h IH]; cbn [ci_set].
  - intros [H | []]; left; congruence.
  - destruct (ci_eqb k k0).
    + intros [H | H]; [left; congruence | right; right; exact H].
    + intros [H | H]; [right; left; exact H|]. destruct (IH H) as [A | A]; [left; exact A | right; right; exact A].
Qed.
Lemma ci_update_In x new h : In x (ci_update h new) -> In x new \/ In x h.
Proof.
  revert h. induction new as [|[k v] new IH]; intros h; [right; assumption|].
  rewrite ci_update_cons. intros H. destruct (IH _ H) as [A | A]; [left; right; exact A|].
  destruct (ci_set_In _ _ _ _ A) as [B | B]; [left; left; congruence | right; exact B].
Qed.
Lemma ci_setdefault_In x k v h : In x (ci_setdefault k v h) -> x = (k, v) \/ In x h.
Proof. unfold ci_setdefault. destruct (ci_get k h); [right; assumption | apply ci_set_In]. Qed.

Lemma prepare_headers_In case_h explicit ua id x :
  In x (prepare_headers case_h explicit ua id) ->
  In x (match case_h with Some h => h | None => [] end)
  \/ In x (match explicit with Some e => e | None => [] end)
  \/ x = (h_user_agent, ua) \/ x = (h_test_case_id, id).
Proof.
  unfold prepare_headers. intros H.
  destruct (ci_setdefault_In _ _ _ _ H) as [A | A]; [right; right; right; exact A|].
  destruct (ci_setdefault_In _ _ _ _ A) as [B | B]; [right; right; left; exact B|].
  destruct explicit as [e|]; [|left; exact B].
  destruct (ci_update_In _ _ _ B) as [C | C]; [right; left; exact C | left; exact C].
Qed.

Example headers_nonvacuous :
  prepare_headers (Some [([88;45;65], [49]); ([117;115;101;114;45;97;103;101;110;116], [109;101])])
                  (Some [([120;45;97], [50])]) [115] [105]
  = [([120;45;97], [50]); ([117;115;101;114;45;97;103;101;110;116], [109;101]); (h_test_case_id, [105])].
Proof. vm_compute. reflexivity. Qed.

Example dispatch_nonvacuous :
  let d := {| d_name := [113]; d_in := LQuery; d_style := StDeep; d_explode := None; d_type := TObject; d_content := CtNone |} in
  defaults_explicit d = true /\ std_sfuns d = Some [FDeepObject].
Proof. split; reflexivity. Qed.

Lemma requests_params_pointwise q : requests_params q = map blank_empty_obj q.
Proof.
  unfold requests_params. destruct (existsb (fun kv => is_empty_obj (snd kv)) q) eqn:E.
  - apply map_ext. intros [k v]. unfold blank_empty_obj. cbn [fst snd]. destruct (is_empty_obj v); reflexivity.
  - (* no entry is the empty object: blank_empty_obj changes none *)
    symmetry. rewrite <- (map_id q) at 2. apply map_ext_in. intros [k v] Hin. unfold blank_empty_obj.
    rewrite (existsb_false_In _ _ (k, v) E Hin). reflexivity.
Qed.

Lemma requests_params_keys q : map fst (requests_params q) = map fst q.
Proof. rewrite requests_params_pointwise, map_map. reflexivity. Qed.

Example requests_params_nonvacuous :
  requests_params [([111], VObj []); ([112], VPrim (PInt 0)); ([98], VPrim (PBool false)); ([105], VArr []); ([115], VPrim (PStr []))]
  = [([111], sval []); ([112], VPrim (PInt 0)); ([98], VPrim (PBool false)); ([105], VArr []); ([115], VPrim (PStr []))].
Proof. reflexivity. Qed.

Lemma safe_flat_utf8 s : (forall c, In c s -> always_safe c = true) -> flat_map utf8_cp s = s.
Proof.
  induction s as [|c s IH]; intros H; [reflexivity|]. cbn [flat_map].
  rewrite IH by (intros x Hx; apply H; right; exact Hx).
  unfold utf8_cp. pose proof (always_safe_props c (H c (or_introl eq_refl))).
  replace (c <? 128) with true by lia. reflexivity.
Qed.

Lemma safe_utf8 s : forallb always_safe s = true -> utf8_encode s = Some s.
Proof.
  intros H. unfold utf8_encode. rewrite forallb_forall in H.
  assert (E : forallb is_scalar s = true).
  { apply forallb_forall. intros c Hc. apply H, always_safe_props in Hc. unfold is_scalar, is_surrogate. lia. }
  rewrite E, safe_flat_utf8 by exact H. reflexivity.
Qed.

Lemma safe_quote_plus s : forallb always_safe s = true -> quote_plus s = Some s.
Proof.
  intros H. unfold quote_plus, quote_with. rewrite safe_utf8 by exact H. cbn [omap]. f_equal.
  rewrite forallb_forall in H. induction s as [|c s IH]; [reflexivity|].
  cbn [flat_map]. unfold quote_byte at 1. rewrite (H c) by (left; reflexivity). cbn [orb app sp_to_plus map].
  pose proof (always_safe_props c (H c (or_introl eq_refl))) as P.
  replace (c =? 32) with false by lia. f_equal. apply IH. intros x Hx. apply H. right. exact Hx.
Qed.

Lemma stable_quote_value s : quote_stable s = true -> quote_value s = Some s.
Proof.
  unfold quote_stable, quote_value. rewrite !andb_true_iff, !negb_true_iff. intros [[H1 H2] H3].
  rewrite H2, H3. apply safe_quote_plus. exact H1.
Qed.

Lemma iter_cases_output (f : item -> option item) n tmpl :
  iter_cases (fun t => omap (fun out => (t, out)) (f t)) n tmpl = f tmpl.
Proof. induction n as [|n IH]; cbn [iter_cases]; destruct (f tmpl) eqn:E; cbn [omap]; try reflexivity. exact IH. Qed.

(* the parameter definitions of the two witnesses for finding C06-F10 (the style serializer re-applied to the template):
   a path label array and a query form object without explode *)
Definition label_arr_def : definition :=
  {| d_name := [105;100]; d_in := LPath; d_style := StLabel; d_explode := Some false; d_type := TArray; d_content := CtNone |}.
Definition form_obj_def : definition :=
  {| d_name := [111]; d_in := LQuery; d_style := StForm; d_explode := Some false; d_type := TObject; d_content := CtNone |}.

Example coverage_nonvacuous :
  template_nth [label_arr_def] 3 [([105;100], VArr [PStr [97;32;98]; PInt 5]); ([107], VPrim (PInt 5))]
  = Some [([105;100], sval [46;97;43;98;37;50;67;53]); ([107], sval [53])].
Proof. vm_compute. reflexivity. Qed.

Lemma resolve_dots_no_dotdot l : forall acc,
  (forall x, In x l -> is_dotdot x = false) ->
  resolve_dots l acc = rev acc ++ filter (fun s => negb (is_dot s)) l.
Proof.
  induction l as [|s l IH]; intros acc H; cbn [resolve_dots filter].
  - rewrite app_nil_r; reflexivity.
  - rewrite (H s (or_introl eq_refl)).
    assert (H' : forall x, In x l -> is_dotdot x = false) by (intros x Hx; apply H; right; exact Hx).
    destruct (is_dot s); cbn [negb].
    + apply IH; exact H'.
    + rewrite IH by exact H'. cbn [rev]. rewrite <- app_assoc. reflexivity.
Qed.

Lemma In_drop_last {A} (l : list A) x : In x (drop_last l) -> In x l.
Proof.
  induction l as [|a l IH]; cbn [drop_last]; [tauto|].
  destruct l as [|b l]; [cbn; tauto|]. intros [H|H]; [left; exact H|right; apply IH; exact H].
Qed.
Lemma In_last_nonempty {A} (l : list A) d : l <> [] -> In (last l d) l.
Proof.
  induction l as [|a l IH]; [congruence|]. intros _. destruct l as [|b l]; [left; reflexivity|].
  right. apply IH. discriminate.
Qed.
Lemma In_filter_middle l x : In x (filter_middle l) -> In x l.
Proof.
  destruct l as [|a [|b r]]; cbn [filter_middle]; try tauto.
  intros [H|H]; [left; exact H|]. right. apply in_app_or in H. destruct H as [H|H].
  - apply filter_In in H. apply In_drop_last. apply H.
  - destruct H as [H|[]]. subst x. apply In_last_nonempty. discriminate.
Qed.
Lemma filter_middle_head a l : exists t, filter_middle (a :: l) = a :: t.
Proof. destruct l as [|b r]; cbn [filter_middle]; eauto. Qed.

Lemma no_dotdot_In s : no_dotdot s = true -> forall x, In x (split_on 47 s) -> is_dotdot x = false.
Proof.
  unfold no_dotdot. intros H x Hx. apply negb_true_iff in H. exact (existsb_false_In _ _ x H Hx).
Qed.

Lemma join_nil_head (t : list str) : join [47] ([] :: t) = [] \/ exists r, join [47] ([] :: t) = 47 :: r.
Proof. destruct t as [|b t]; [left; reflexivity|right]. cbn [join app]. eauto. Qed.

Lemma urljoin_segments X g :
  starts_with [47] X = true -> no_dotdot X = true -> no_dotdot g = true ->
  (exists t, filter_middle (split_on 47 X ++ split_on 47 g) = [] :: t)
  /\ (forall x, In x (filter_middle (split_on 47 X ++ split_on 47 g)) -> is_dotdot x = false).
Proof.
  intros HX HdX Hdg. split.
  - destruct X as [|c X']; [discriminate|]. cbn [starts_with] in HX.
    destruct (N.eqb 47 c) eqn:Ec; [|discriminate]. apply N.eqb_eq in Ec. subst c.
    unfold split_on at 1. cbn [split_on_aux]. rewrite N.eqb_refl. cbn [rev app].
    apply filter_middle_head.
  - intros x Hx. apply In_filter_middle in Hx. apply in_app_or in Hx.
    destruct Hx as [Hx|Hx]; [exact (no_dotdot_In _ HdX x Hx)|exact (no_dotdot_In _ Hdg x Hx)].
Qed.

(* the last step of urljoin_path: a joined text that is empty or starts with a slash is returned as it is, netloc or not *)
Lemma netloc_branch_unreached (p : str) : p = [] \/ (exists r, p = 47 :: r) ->
  (match p with [] => [47] | 47 :: _ => p | _ => 47 :: p end) = (match p with [] => [47] | 47 :: _ => p | _ => p end).
Proof. intros [->|[r ->]]; reflexivity. Qed.

(* The base path starts with a slash, so its first segment is empty.  filter_middle keeps the first segment and, with no dot-dot
   segment anywhere, resolve_dots only drops dot segments: the resolved list still starts with the empty segment, the joined text
   is empty or starts with a slash, and the branch of urljoin_path that looks at the netloc is never reached. *)
Lemma urljoin_agree X g :
  starts_with [47] X = true -> no_dotdot X = true -> no_dotdot g = true ->
  urljoin_path true X g = urljoin_path false X g.
Proof.
  intros HX HdX Hdg. unfold urljoin_path. destruct (is_nil g); [reflexivity|].
  destruct (urljoin_segments X g HX HdX Hdg) as [[t Ht] Hseg]. rewrite Ht in *.
  rewrite resolve_dots_no_dotdot by exact Hseg.
  change (filter (fun s => negb (is_dot s)) ([] :: t)) with ([] :: filter (fun s => negb (is_dot s)) t). cbn [rev app].
  apply netloc_branch_unreached. destruct (is_dot _ || is_dotdot _).
  - (* the last segment is a dot segment: an empty one is appended *)
    apply (join_nil_head (filter (fun s => negb (is_dot s)) t ++ [[]])).
  - apply join_nil_head.
Qed.

Lemma lstrip_head q c r : lstrip_slash q = c :: r -> (c =? 47) = false.
Proof.
  induction q as [|a q IH]; cbn [lstrip_slash]; [discriminate|].
  destruct (a =? 47) eqn:E; [exact IH|]. intros H; injection H as <- _. exact E.
Qed.
Lemma lstrip_suffix q : exists k, q = k ++ lstrip_slash q.
Proof.
  induction q as [|a q [k IH]]; cbn [lstrip_slash]; [exists []; reflexivity|].
  destruct (a =? 47); [exists (a :: k); cbn [app]; rewrite <- IH; reflexivity|exists []; reflexivity].
Qed.

Lemma ends_with_slash_rstrip p : ends_with_slash (rstrip_slash p) = false.
Proof.
  unfold ends_with_slash, rstrip_slash. rewrite rev_involutive.
  destruct (lstrip_slash (rev p)) as [|c r] eqn:E; [reflexivity|]. eapply lstrip_head; eauto.
Qed.

Lemma rstrip_add_slash_rev q : starts_with [47;47] q = false ->
  rev (lstrip_slash q) ++ [47] = if (match q with c :: _ => c =? 47 | [] => false end) then rev q else rev q ++ [47].
Proof.
  intros H. destruct q as [|c q]; [reflexivity|].
  cbn [lstrip_slash]. destruct (c =? 47) eqn:Ec; [|reflexivity].
  apply N.eqb_eq in Ec. subst c. destruct q as [|d q]; [reflexivity|].
  cbn [lstrip_slash]. destruct (d =? 47) eqn:Ed.
  - apply N.eqb_eq in Ed. subst d. cbn in H. discriminate.
  - cbn [rev]. reflexivity.
Qed.
Lemma rstrip_add_slash p : starts_with [47;47] (rev p) = false -> rstrip_slash p ++ [47] = add_slash p.
Proof.
  intros H. unfold rstrip_slash, add_slash, ends_with_slash.
  rewrite (rstrip_add_slash_rev (rev p) H), rev_involutive. reflexivity.
Qed.

Lemma rstrip_prefix p : exists k, p = rstrip_slash p ++ k.
Proof.
  unfold rstrip_slash. destruct (lstrip_suffix (rev p)) as [k Hk].
  exists (rev k). rewrite <- rev_app_distr, <- Hk, rev_involutive. reflexivity.
Qed.
Lemma rstrip_abs p : is_nil p || starts_with [47] p = true ->
  is_nil (rstrip_slash p) || starts_with [47] (rstrip_slash p) = true.
Proof.
  intros H. destruct (rstrip_prefix p) as [k Hk]. destruct (rstrip_slash p) as [|c r] eqn:E; [reflexivity|].
  rewrite Hk in H. cbn [app is_nil orb starts_with] in H. cbn [is_nil orb starts_with]. exact H.
Qed.

Lemma ends_with_slash_app a b : b <> [] -> ends_with_slash (a ++ b) = ends_with_slash b.
Proof.
  intros Hb. unfold ends_with_slash. rewrite rev_app_distr.
  destruct (rev b) as [|c t] eqn:E; [|reflexivity].
  exfalso. apply Hb. rewrite <- (rev_involutive b), E. reflexivity.
Qed.

Lemma hstep_cfg rd s e : hs_cfg (fst (hstep_with rd s e)) = cfg_update (hs_cfg s) e.
Proof.
  destruct e; cbn [hstep_with fst set_cfg hs_cfg cfg_update]; try reflexivity.
  destruct (prepare_path tmpl params); try reflexivity.
  destruct (transport_eqb _ _ && reads_base_path _); reflexivity.
Qed.

Lemma exec_cfg rd h : forall s, hs_cfg (exec_with rd s h) = final_cfg (hs_cfg s) h.
Proof.
  induction h as [|e h IH]; intros s; cbn [exec_with final_cfg fold_left]; [reflexivity|].
  rewrite IH, hstep_cfg. reflexivity.
Qed.

Lemma final_cfg_last_write h : forall c,
  final_cfg c h = {| cf_base := last_write pick_base h (cf_base c); cf_loc := last_write pick_loc h (cf_loc c);
                     cf_spec := last_write pick_spec h (cf_spec c); cf_app := last_write pick_app h (cf_app c) |}.
Proof.
  unfold final_cfg, last_write.
  induction h as [|e h IH]; intros c; cbn [fold_left].
  - destruct c; reflexivity.
  - rewrite IH. destruct e; reflexivity.
Qed.

Lemma run_app rd h : forall s e,
  run_with rd s (h ++ [e]) = run_with rd s h ++ [snd (hstep_with rd (exec_with rd s h) e)].
Proof.
  induction h as [|e0 h IH]; intros s e; cbn [app run_with exec_with].
  - destruct (hstep_with rd s e); reflexivity.
  - destruct (hstep_with rd s e0) as [s' o] eqn:E. cbn [fst]. rewrite IH. reflexivity.
Qed.

(* what a send shows: the configuration and the operation object in hand; read_live leaves the memo out of it *)
Lemma hstep_send s hw tmpl params :
  snd (hstep s (EvSend hw tmpl params)) =
  match prepare_path tmpl params with
  | FOk f => send_obs (cfg_base_path (hs_cfg s)) (hs_cfg s) (op_used s hw tmpl) f
  | FInvalidSchema => ORaises
  | FUnmodelled => OUnmodelled
  end.
Proof.
  unfold hstep. cbn [hstep_with snd]. destruct (prepare_path tmpl params); try reflexivity.
  destruct (transport_eqb _ _ && reads_base_path _); reflexivity.
Qed.

Lemma exec_history_cfg c0 h : hs_cfg (exec_history (init_state c0) h) = final_cfg c0 h.
Proof. apply exec_cfg. Qed.

Lemma hstep_obs_cfg s1 s2 e : hs_cfg s1 = hs_cfg s2 -> uses_cache e = false ->
  snd (hstep s1 e) = snd (hstep s2 e).
Proof.
  intros Hc Hu. destruct e; try reflexivity.
  - destruct h; [|discriminate]. rewrite !hstep_send. cbn [op_used]. rewrite Hc. reflexivity.
  - unfold hstep. cbn [hstep_with snd read_live fst]. rewrite Hc. reflexivity.
  - unfold hstep. cbn [hstep_with snd read_live fst]. rewrite Hc. reflexivity.
Qed.

Lemma wsgi_send_state s hw tmpl params w r :
  cf_app (hs_cfg s) = TWsgi -> snd (hstep s (EvSend hw tmpl params)) = OSent w r ->
  exists f, prepare_path tmpl params = FOk f /\ w = expected_path (hs_cfg s) f.
Proof.
  intros Happ. rewrite hstep_send. destruct (prepare_path tmpl params) as [f| |]; try discriminate.
  unfold send_obs. rewrite Happ. destruct (negb _); [discriminate|].
  intros H; injection H as <- _. exists f. split; reflexivity.
Qed.

(* the path prepare_url_path joins the template to *)
Definition slashed (u : burl) : str := if ends_with_slash (burl_text u) then bu_path u else bu_path u ++ [47].

Lemma slashed_rstrip prefix p :
  ends_with_slash prefix = false -> starts_with [47;47] (rev p) = false ->
  slashed {| bu_prefix := prefix; bu_path := rstrip_slash p |} = add_slash p.
Proof.
  intros Hp Hd. unfold slashed, burl_text. cbn [bu_prefix bu_path].
  assert (E : ends_with_slash (prefix ++ rstrip_slash p) = false).
  { destruct (rstrip_slash p) as [|c r] eqn:Er.
    - rewrite app_nil_r. exact Hp.
    - rewrite ends_with_slash_app by discriminate. rewrite <- Er. apply ends_with_slash_rstrip. }
  rewrite E. apply rstrip_add_slash. exact Hd.
Qed.

Lemma slashed_plain prefix p : p <> [] -> slashed {| bu_prefix := prefix; bu_path := p |} = add_slash p.
Proof.
  intros Hp. unfold slashed, burl_text, add_slash. cbn [bu_prefix bu_path].
  rewrite ends_with_slash_app by exact Hp. reflexivity.
Qed.

Lemma unsplit_abs prefix p : is_nil p || starts_with [47] p = true -> unsplit prefix p = {| bu_prefix := prefix; bu_path := p |}.
Proof.
  intros H. unfold unsplit. f_equal.
  destruct (is_nil p) eqn:E1; cbn [negb andb orb] in *.
  - rewrite andb_false_r. reflexivity.
  - rewrite H. cbn [negb]. rewrite andb_false_r. reflexivity.
Qed.

Lemma cfg_ok_parts c : cfg_ok c = true ->
  match cf_base c with
  | Some u => is_nil (burl_text u) = false /\ ends_with_slash (bu_prefix u) = false
  | None => ends_with_slash (cf_loc c) = false /\ starts_with [47] (cfg_path c) = true
  end
  /\ (is_nil (cfg_path c) || starts_with [47] (cfg_path c) = true)
  /\ starts_with [47;47] (rev (cfg_path c)) = false
  /\ no_dotdot (cfg_base_path c) = true.
Proof.
  unfold cfg_ok. intros H. repeat rewrite andb_true_iff in H. destruct H as [[[H0 H1] H2] H3].
  apply negb_true_iff in H2. repeat split; try assumption.
  revert H0. destruct (cf_base c); rewrite andb_true_iff, ?negb_true_iff; intros H0; exact H0.
Qed.

Lemma add_slash_abs p : is_nil p || starts_with [47] p = true -> starts_with [47] (add_slash p) = true.
Proof.
  unfold add_slash. destruct p as [|c r]; [reflexivity|]. cbn [is_nil orb]. intros H.
  destruct (ends_with_slash (c :: r)); [exact H|]. cbn [app starts_with] in *. exact H.
Qed.

(* the base the requests/ASGI transports join with is the base path the WSGI transport joins with *)
Lemma slashed_cfg c : cfg_ok c = true ->
  slashed (cfg_base_url c) = cfg_base_path c /\ slashed (normalize_base (cfg_base_url c)) = cfg_base_path c
  /\ starts_with [47] (cfg_base_path c) = true.
Proof.
  intros Hok. destruct (cfg_ok_parts c Hok) as (Hfirst & Habs & Hdd & _).
  unfold cfg_base_url, cfg_base_path, cfg_path in *. destruct (cf_base c) as [u|].
  - (* a base URL is configured: its path, stripped of slashes / with one slash added *)
    destruct Hfirst as [Hne Hpre]. rewrite Hne.
    split; [apply slashed_rstrip; assumption|]. split; [|apply add_slash_abs; exact Habs].
    unfold normalize_base. cbn [bu_prefix bu_path]. destruct (is_nil (bu_prefix u)).
    + rewrite unsplit_abs by (apply rstrip_abs; exact Habs). apply slashed_rstrip; [reflexivity|exact Hdd].
    + apply slashed_rstrip; assumption.
  - (* none: location prefix and the base path of the specification *)
    destruct Hfirst as [Hloc Hsp]. set (sp := spec_base_path (cf_spec c)) in *.
    assert (Hne : sp <> []) by (destruct sp; [discriminate|discriminate]).
    assert (Habs' : is_nil sp || starts_with [47] sp = true) by (rewrite Hsp; apply orb_true_r).
    rewrite unsplit_abs by exact Habs'.
    split; [apply slashed_plain; exact Hne|]. split; [|apply add_slash_abs; exact Habs'].
    unfold normalize_base. cbn [bu_prefix bu_path]. destruct (is_nil (cf_loc c)).
    + rewrite unsplit_abs by exact Habs'. apply slashed_plain; exact Hne.
    + apply slashed_plain; exact Hne.
Qed.

(* prepare_url (the definition tied to transport/prepare.py) is the prefix followed by prepare_url_path *)
Lemma prepare_url_path_spec prefix bpath f :
  prepare_url prefix bpath f = prefix ++ prepare_url_path {| bu_prefix := prefix; bu_path := bpath |} f.
Proof.
  unfold prepare_url, prepare_url_path, urljoin_path, burl_text. cbn [bu_prefix bu_path].
  destruct (ends_with_slash (prefix ++ bpath)); destruct (is_nil (lstrip_slash f)); reflexivity.
Qed.

Lemma prepare_url_path_region c f : cfg_ok c = true -> no_dotdot (lstrip_slash f) = true ->
  prepare_url_path (cfg_base_url c) f = expected_path c f
  /\ prepare_url_path (normalize_base (cfg_base_url c)) f = expected_path c f.
Proof.
  intros Hok Hf. destruct (slashed_cfg c Hok) as (H1 & H2 & Habs).
  destruct (cfg_ok_parts c Hok) as (_ & _ & _ & Hdd).
  unfold prepare_url_path, expected_path, get_full_path. fold (slashed (cfg_base_url c)). fold (slashed (normalize_base (cfg_base_url c))).
  rewrite H1, H2. split; apply urljoin_agree; assumption.
Qed.

Lemma burl_eqb_eq a b : burl_eqb a b = true -> a = b.
Proof.
  unfold burl_eqb. rewrite andb_true_iff, !str_eqb_spec. destruct a, b; cbn. intros [-> ->]; reflexivity.
Qed.
Lemma transport_eqb_eq a b : transport_eqb a b = true -> a = b.
Proof. destruct a, b; cbn; congruence. Qed.
Lemma transport_eqb_refl a : transport_eqb a a = true.
Proof. destruct a; reflexivity. Qed.

Lemma fresh_is_current c : op_current c (make_op c) = true.
Proof.
  unfold op_current, make_op, burl_eqb. cbn [os_base os_app]. rewrite !str_eqb_refl, transport_eqb_refl. reflexivity.
Qed.

Lemma send_region c o f : cfg_ok c = true -> op_current c o = true -> no_dotdot (lstrip_slash f) = true ->
  send_obs (cfg_base_path c) c o f =
  if cannot_send c then ORaises else OSent (expected_path c f) (reported_prefix c ++ expected_path c f).
Proof.
  intros Hok Hcur Hf. unfold op_current in Hcur. apply andb_true_iff in Hcur. destruct Hcur as [Hb Ha].
  apply burl_eqb_eq in Hb. destruct (prepare_url_path_region c f Hok Hf) as [P1 P2].
  unfold send_obs, cannot_send, reported_prefix, url_of. rewrite Ha, Hb. cbn [negb].
  destruct (cf_app c).
  - destruct (is_nil (bu_prefix (cfg_base_url c))); [reflexivity|]. rewrite P1. reflexivity.
  - rewrite P2. reflexivity.
  - rewrite P2. reflexivity.
Qed.

Lemma send_region_state s hw tmpl params f :
  cfg_ok (hs_cfg s) = true -> op_current (hs_cfg s) (op_used s hw tmpl) = true ->
  prepare_path tmpl params = FOk f -> no_dotdot (lstrip_slash f) = true ->
  snd (hstep s (EvSend hw tmpl params)) =
  if cannot_send (hs_cfg s) then ORaises
  else OSent (expected_path (hs_cfg s) f) (reported_prefix (hs_cfg s) ++ expected_path (hs_cfg s) f).
Proof. intros Hok Hcur Hp Hf. rewrite hstep_send, Hp. apply send_region; assumption. Qed.

Definition s_loop : str := [104;116;116;112;58;47;47;104].            (* http://h *)
Definition s_items : str := [47;105;116;101;109;115].                 (* /items *)
Definition s_api : str := [47;97;112;105].                            (* /api *)
Definition s_v2 : str := [47;118;50].                                 (* /v2 *)
Definition s_srv : str := [47;115;114;118].                           (* /srv *)
Definition cfg0 (t : transport) : config :=
  {| cf_base := None; cf_loc := []; cf_spec := SpV3 [ {| bu_prefix := s_loop; bu_path := s_srv |} ]; cf_app := t |}.
Definition base_of (p : str) : option burl := Some {| bu_prefix := s_loop; bu_path := p |}.

Example history_nonvacuous :
  let h := [EvApp TAsgi; EvBase (base_of (s_api ++ [47])); EvSend Cached s_items []; EvSpec (SpV2 None); EvFullPath s_items] in
  let c := final_cfg (cfg0 TRequests) h in
  cfg_ok c = true /\ op_current c (op_used (exec_history (init_state (cfg0 TRequests)) h) Cached s_items) = true
  /\ cannot_send c = false /\ no_dotdot (lstrip_slash s_items) = true
  /\ expected_path c s_items = s_api ++ s_items.
Proof. repeat split. Qed.

Lemma slot_eqb_eq a b : slot_eqb a b = true <-> a = b.
Proof.
  destruct a as [ta sa], b as [tb sb]. unfold slot_eqb. cbn [fst snd]. split.
  - intros H. apply andb_true_iff in H. destruct H as [H1 H2]. apply transport_eqb_eq in H1. subst tb.
    destruct sa as [x|], sb as [y|]; try discriminate; [|reflexivity]. apply N.eqb_eq in H2. subst y. reflexivity.
  - intros H. injection H as -> ->. rewrite transport_eqb_refl. destruct sb; [apply N.eqb_refl | reflexivity].
Qed.
Lemma slot_eqb_refl a : slot_eqb a a = true.
Proof. apply slot_eqb_eq. reflexivity. Qed.
Lemma jar_get_put k k' j js : jar_get k (jar_put k' j js) = if slot_eqb k k' then j else jar_get k js.
Proof.
  induction js as [|[k0 j0] js IH]; cbn [jar_put jar_get].
  - destruct (slot_eqb k k'); reflexivity.
  - destruct (slot_eqb k' k0) eqn:E0; cbn [jar_get].
    + apply slot_eqb_eq in E0. subst k0. destruct (slot_eqb k k'); reflexivity.
    + rewrite IH. destruct (slot_eqb k k0) eqn:E1; [|reflexivity].
      apply slot_eqb_eq in E1. subst k0. destruct (slot_eqb k k') eqn:E2; [|reflexivity].
      apply slot_eqb_eq in E2. subst k'. rewrite slot_eqb_refl in E0. discriminate.
Qed.

Lemma xstep_other rule e js ev k : xslot rule ev <> Some k -> jar_get k (fst (xstep rule e js ev)) = jar_get k js.
Proof.
  intros H. unfold xstep. destruct (xslot rule ev) as [k'|]; cbn [fst]; [|reflexivity].
  rewrite jar_get_put. destruct (slot_eqb k k') eqn:E; [|reflexivity]. apply slot_eqb_eq in E. subst k'. destruct H. reflexivity.
Qed.
Lemma xstep_same rule e js1 js2 ev k : xslot rule ev = Some k -> jar_get k js1 = jar_get k js2 ->
  jar_get k (fst (xstep rule e js1 ev)) = jar_get k (fst (xstep rule e js2 ev)).
Proof.
  intros H A. unfold xstep. rewrite H. cbn [fst]. rewrite !jar_get_put, slot_eqb_refl, A. reflexivity.
Qed.

Lemma xexec_filter rule e ev k h : xslot rule ev = Some k -> forall js1 js2, jar_get k js1 = jar_get k js2 ->
  jar_get k (xexec rule e js1 h) = jar_get k (xexec rule e js2 (filter (same_slot rule ev) h)).
Proof.
  intros K. induction h as [|ev' h IH]; intros js1 js2 A; cbn [xexec filter]; [exact A|].
  unfold same_slot at 1. rewrite K. destruct (xslot rule ev') as [k'|] eqn:E'.
  - destruct (slot_eqb k k') eqn:E.
    + apply slot_eqb_eq in E. subst k'. cbn [xexec]. apply IH. apply (xstep_same rule e js1 js2 ev' k E' A).
    + apply IH. rewrite xstep_other; [exact A|]. rewrite E'. intros H. injection H as ->. rewrite slot_eqb_refl in E. discriminate.
  - apply IH. rewrite xstep_other; [exact A|]. rewrite E'. discriminate.
Qed.

Lemma fresh_no_slot ev : no_session ev = true \/ xtransport ev = TAsgi -> xslot fresh_clients ev = None.
Proof.
  destruct ev as [t r | t [i|] c r].
  - (* a load *) intros _. reflexivity.
  - (* a send with a session of the user: only ASGI is left, which drops the session *)
    intros [H | H]; [discriminate H|]. cbn [xtransport] in H. subst t. reflexivity.
  - (* a send without one *) intros _. destruct t; reflexivity.
Qed.

Lemma wire_cookies_alone t c : dict_ok (xc_cookies c) = true -> wire_cookies t (xown c) [] = xown c.
Proof. intros H. destruct t; cbn [wire_cookies app]; try reflexivity. apply d_update_nil, d_update_keys_nodup, nodup_strs_spec, H. Qed.

(* both kinds of client append the Cookie header made of the cookies they send, when there are any *)
Lemma cookie_appended_get h cs :
  ci_get s_cookie h = None ->
  ci_get s_cookie (if is_nil cs then h else h ++ [(s_cookie, render_cookies cs)]) = cookie_header_of cs.
Proof.
  intros H. unfold cookie_header_of. destruct (is_nil cs); [exact H|].
  rewrite ci_get_app, H. cbn [ci_get]. rewrite ci_eqb_refl. reflexivity.
Qed.
Lemma cookie_appended_In x h cs :
  In x (if is_nil cs then h else h ++ [(s_cookie, render_cookies cs)]) -> In x h \/ x = (s_cookie, render_cookies cs).
Proof.
  destruct (is_nil cs); [left; assumption|]. intros H. apply in_app_or in H.
  destruct H as [H | [H | []]]; [left; exact H | right; symmetry; exact H].
Qed.

(* requests and ASGI run the same client code *)
Lemma wire_not_wsgi e t host prep own jar :
  t <> TWsgi ->
  wire e t host prep own jar
  = ci_setdefault s_host host
      (match ci_get s_cookie (ci_update (xe_std e) prep) with
       | Some _ => ci_update (xe_std e) prep
       | None => if is_nil (wire_cookies t own jar) then ci_update (xe_std e) prep
                 else ci_update (xe_std e) prep ++ [(s_cookie, render_cookies (wire_cookies t own jar))]
       end).
Proof. intros Ht. destruct t; [reflexivity | congruence | reflexivity]. Qed.

Lemma wire_cookie_lookup e t host prep own jar :
  ci_get s_cookie prep = None -> ci_get s_cookie (xe_std e) = None ->
  ci_get s_cookie (wire e t host prep own jar) = cookie_header_of (wire_cookies t own jar).
Proof.
  intros Hp Hs.
  assert (Hreq : ci_get s_cookie (ci_update (xe_std e) prep) = None).
  { rewrite ci_get_update, (ci_get_rev_none _ _ Hp). exact Hs. }
  assert (Hother : t <> TWsgi -> ci_get s_cookie (wire e t host prep own jar) = cookie_header_of (wire_cookies t own jar)).
  { (* Host is added last and is not Cookie *)
    intros Ht. rewrite wire_not_wsgi, Hreq, ci_get_setdefault, (cookie_appended_get _ _ Hreq) by exact Ht.
    destruct (cookie_header_of _); reflexivity. }
  destruct t.
  - (* requests *) apply Hother. discriminate.
  - (* WSGI: the Cookie header of the case is removed, the one made of the jar appended *)
    apply cookie_appended_get, ci_get_remove_same.
  - (* ASGI *) apply Hother. discriminate.
Qed.

Lemma wire_only_expected e t host prep own jar x : In x (wire e t host prep own jar) ->
  x = (s_host, host) \/ (t <> TWsgi /\ In x (xe_std e)) \/ In x prep \/ x = (s_cookie, render_cookies (wire_cookies t own jar)).
Proof.
  assert (Hother : t <> TWsgi -> In x (wire e t host prep own jar) ->
            x = (s_host, host) \/ (t <> TWsgi /\ In x (xe_std e)) \/ In x prep \/ x = (s_cookie, render_cookies (wire_cookies t own jar))).
  { intros Ht H. rewrite wire_not_wsgi in H by exact Ht.
    apply ci_setdefault_In in H. destruct H as [H | H]; [left; exact H|].
    assert (B : In x (ci_update (xe_std e) prep) \/ x = (s_cookie, render_cookies (wire_cookies t own jar)))
      by (destruct (ci_get s_cookie _); [left; exact H | apply cookie_appended_In; exact H]).
    destruct B as [B | B]; [|right; right; right; exact B].
    destruct (ci_update_In _ _ _ B) as [C | C]; [right; right; left; exact C | right; left; split; [exact Ht | exact C]]. }
  destruct t.
  - (* requests *) apply Hother. discriminate.
  - (* WSGI: Host first, then the given headers without Cookie, then the Cookie header of the jar *)
    intros H. apply cookie_appended_In in H. destruct H as [H | H]; [|right; right; right; exact H]. apply filter_In in H as [H _].
    destruct (ci_update_In _ _ _ H) as [C | [C | []]]; [right; right; left; exact C | left; symmetry; exact C].
  - (* ASGI *) apply Hother. discriminate.
Qed.

Lemma wire_cookies_In t own jar p : In p (wire_cookies t own jar) -> In p own \/ In p jar.
Proof. destruct t; cbn [wire_cookies]; intros H; try (apply in_app_or in H; tauto). apply d_update_In in H. tauto. Qed.
Lemma jar_after_In t jar own set p : In p (jar_after t jar own set) -> In p jar \/ In p own \/ In p set.
Proof.
  destruct t; cbn [jar_after]; intros H; try (apply d_update_In in H; tauto).
  apply d_remove_keys_In in H. apply d_update_In in H. destruct H as [H | H]; [tauto|]. apply d_update_In in H. tauto.
Qed.
Lemma jar_provenance rule e k p h : forall js, In p (jar_get k (xexec rule e js h)) ->
  In p (jar_get k js) \/ exists ev', In ev' h /\ xslot rule ev' = Some k /\ (In p (xr_set (xresp_of ev')) \/ In p (xown_of ev')).
Proof.
  induction h as [|ev h IH]; intros js H; [left; exact H|]. cbn [xexec] in H. destruct (IH _ H) as [A | [ev' [A1 A2]]].
  - unfold xstep in A. destruct (xslot rule ev) as [k'|] eqn:E; cbn [fst] in A; [|tauto].
    rewrite jar_get_put in A. destruct (slot_eqb k k') eqn:E2; [|tauto]. apply slot_eqb_eq in E2. subst k'.
    assert (B : In p (jar_get k js) \/ In p (xown_of ev) \/ In p (xr_set (xresp_of ev))).
    { destruct ev as [t r | t s c r]; cbn [xjar_after xown_of xresp_of] in *; apply jar_after_In in A; cbn [In] in A; tauto. }
    destruct B as [B | B]; [tauto|]. right. exists ev. split; [left; reflexivity|]. split; [exact E | tauto].
  - right. exists ev'. split; [right; exact A1 | exact A2].
Qed.

Definition x_localhost : str := [108;111;99;97;108;104;111;115;116].
Definition x_sess : str := [115;101;115;115].
Definition x_S1 : str := [83;49].
Definition x_token : str := [116;111;107;101;110].
Definition x_t : str := [116].
Definition x_h1 : str := [104;61;49].                         (* h=1 *)
Definition x_sess_S1 : str := x_sess ++ [61] ++ x_S1.           (* sess=S1 *)
Definition x_token_t : str := x_token ++ [61] ++ x_t.           (* token=t *)
Definition xenv0 : xenv :=
  {| xe_std := [([65;99;99;101;112;116], [42;47;42])]; xe_ua := [115;116]; xe_host := fun _ _ => x_localhost |}.
Definition xcase0 : xcase := {| xc_headers := None; xc_cookies := None; xc_call_headers := None; xc_call_cookies := None; xc_id := [73;68] |}.
Definition xcase_cookie (h : option headers) (cs : option cookies) : xcase :=
  {| xc_headers := h; xc_cookies := cs; xc_call_headers := None; xc_call_cookies := None; xc_id := [73;68] |}.
Definition xquiet : xresp := {| xr_set := []; xr_redirect := false; xr_close := false |}.
Definition xsets : xresp := {| xr_set := [(x_sess, x_S1)]; xr_redirect := true; xr_close := true |}.

(* non-vacuity: a case with a cookie inside the region, after a history whose answers set cookies; a session object
   of the user DOES carry the cookie to the next exchange through it, and only through it *)
Example exchange_nonvacuous :
  let c := xcase_cookie (Some [([88;45;65], [49])]) (Some [(x_token, x_t)]) in
  no_cookie_header xenv0 c = true /\ std_has_no_cookie xenv0 = true /\ dict_ok (xc_cookies c) = true
  /\ map (ci_get s_cookie) (xrun fresh_clients xenv0 [] [XSend TWsgi None xcase0 xsets; XLoad TWsgi xsets; XSend TWsgi None c xquiet])
     = [None; None; Some x_token_t]
  /\ map (ci_get s_cookie) (xrun fresh_clients xenv0 []
       [XSend TWsgi (Some 0) xcase0 xsets; XSend TWsgi None xcase0 xquiet; XSend TWsgi (Some 1) xcase0 xquiet; XSend TRequests (Some 0) xcase0 xquiet;
        XSend TAsgi (Some 0) xcase0 xquiet; XSend TWsgi (Some 0) c xquiet])
     = [None; None; None; None; None; Some (x_sess_S1 ++ [59;32] ++ x_token_t)]
  /\ filter (same_slot fresh_clients (XSend TWsgi (Some 0) c xquiet))
       [XSend TWsgi (Some 0) xcase0 xsets; XSend TWsgi None xcase0 xquiet; XSend TWsgi (Some 1) xcase0 xquiet; XSend TRequests (Some 0) xcase0 xquiet]
     = [XSend TWsgi (Some 0) xcase0 xsets].
Proof. repeat split. Qed.

Lemma form_safe_ok t : safe_ok (fun b => is_sp b || form_safe t b).
Proof.
  intros b H. apply orb_true_iff in H. destruct H as [H | H]; [left; unfold is_sp in H; lia | right].
  destruct t; cbn [form_safe] in H; try discriminate H.
  unfold werkzeug_safe in H. apply mem_spec in H. cbn [In] in H. lia.
Qed.

Lemma fq_defined safe s : forallb is_scalar s = true -> exists q, fq safe s = Some q.
Proof. intros H. unfold fq, quote_with, utf8_encode. rewrite H. cbn [omap]. eexists; reflexivity. Qed.

Lemma decode_field_enc safe kv e :
  safe_ok (fun b => is_sp b || safe b) -> enc_pair safe kv = Some e -> decode_field e = Some kv /\ ~ In 38 e.
Proof.
  intros Hs. unfold enc_pair. destruct kv as [k v]. cbn [fst snd].
  destruct (fq safe k) as [k'|] eqn:Ek; [|discriminate]. destruct (fq safe v) as [v'|] eqn:Ev; [|discriminate].
  intros H; injection H as <-.
  destruct (quote_plus_spec _ k k' Hs Ek) as (Dk & _ & Ak & Qk). destruct (quote_plus_spec _ v v' Hs Ev) as (Dv & _ & Av & Qv).
  split.
  - unfold decode_field. rewrite split_first_spec by exact Qk. cbn [rev app]. rewrite Dk. cbn [obind]. rewrite Dv. reflexivity.
  - intros Hin. apply in_app_or in Hin. destruct Hin as [Hin | [Hin | Hin]]; [exact (Ak Hin) | lia | exact (Av Hin)].
Qed.

Lemma enc_pair_nonempty safe kv e : enc_pair safe kv = Some e -> e <> [].
Proof.
  unfold enc_pair. destruct (fq safe (fst kv)) as [k|]; [|discriminate]. destruct (fq safe (snd kv)) as [v|]; [|discriminate].
  intros H; injection H as <-. destruct k; discriminate.
Qed.

Lemma urlencode_roundtrip safe ps w :
  safe_ok (fun b => is_sp b || safe b) -> urlencode safe ps = Some w -> decode_form w = Some ps.
Proof.
  intros Hs. unfold urlencode. destruct (all_some (map (enc_pair safe) ps)) as [es|] eqn:E; [|discriminate].
  cbn [omap]. intros H; injection H as <-. apply all_some_inv in E. rename E into HF.
  pose proof (Forall2_weaken _ _ _ _ (fun kv e => decode_field_enc safe kv e Hs) HF) as Hd.
  assert (Hne : es <> [[]]).
  { intros ->. inversion HF as [|kv e ps' es' H1 H2]; subst. exact (enc_pair_nonempty safe kv [] H1 eq_refl). }
  unfold decode_form. rewrite split_list_join.
  - clear Hne HF. induction Hd as [|kv e ps es [H1 _] _ IH]; [reflexivity|].
    cbn [map all_some]. rewrite H1, IH. reflexivity.
  - exact Hne.
  - clear Hne HF. induction Hd as [|kv e ps es [_ H2] _ IH]; constructor; assumption.
Qed.

Lemma urlencode_defined safe ps :
  forallb (fun kv => forallb is_scalar (fst kv) && forallb is_scalar (snd kv)) ps = true -> exists w, urlencode safe ps = Some w.
Proof.
  intros H. unfold urlencode.
  assert (E : exists es, all_some (map (enc_pair safe) ps) = Some es).
  { induction ps as [|[k v] ps IH]; [eexists; reflexivity|]. cbn [forallb fst snd] in H. apply andb_true_iff in H. destruct H as [H1 H2].
    apply andb_true_iff in H1. destruct H1 as [Hk Hv]. destruct (IH H2) as [es Ees].
    destruct (fq_defined safe _ Hk) as [k' Ek]. destruct (fq_defined safe _ Hv) as [v' Ev].
    assert (Ee : enc_pair safe (k, v) = Some (k' ++ 61 :: v')) by (unfold enc_pair; cbn [fst snd]; rewrite Ek, Ev; reflexivity).
    cbn [map all_some]. rewrite Ee, Ees. eexists; reflexivity. }
  destruct E as [es ->]. eexists; reflexivity.
Qed.

Definition dict_items (d : list (str * pyv)) : list (fval * fval) := map (fun kv => (FLeaf (PStr (fst kv)), FLeaf (snd kv))) d.
Definition dict_tuples (d : list (str * pyv)) : list fval := map (fun kv => FTuple (FLeaf (PStr (fst kv))) (FLeaf (snd kv))) d.

Lemma texts_of_dict d : texts_of (dict_items d) = Some (pairs_of_dict d).
Proof.
  unfold texts_of, dict_items. rewrite map_map.
  rewrite (all_some_map _ (fun kv : str * pyv => leaf_pair (fst kv) (snd kv))).
  - cbn [omap]. unfold pairs_of_dict. rewrite flat_map_concat_map. reflexivity.
  - intros [k p] _. cbn [fst snd]. unfold pair_text, key_text. cbn [py_str]. destruct p; reflexivity.
Qed.

Lemma dicts_of_spec l ds : dicts_of l = Some ds -> l = map FDict ds.
Proof.
  unfold dicts_of. revert ds; induction l as [|x l IH]; intros ds H; cbn [map all_some] in H.
  - injection H as <-. reflexivity.
  - destruct x as [p|d|a b|l']; try discriminate. destruct (all_some _) as [r|]; [|discriminate].
    cbn [omap] in H. injection H as <-. cbn [map]. f_equal. apply IH. reflexivity.
Qed.

Lemma prepare_dicts ds : flat_map prep_item (map FDict ds) = dict_tuples (concat ds).
Proof.
  induction ds as [|d ds IH]; [reflexivity|]. cbn [map flat_map concat]. rewrite IH.
  unfold dict_tuples. rewrite map_app. reflexivity.
Qed.

Lemma items_of_tuples d : kv_items_of (FList (dict_tuples d)) = Some (dict_items d).
Proof.
  cbn [kv_items_of]. unfold dict_tuples, dict_items. rewrite map_map. apply all_some_map. intros kv _. reflexivity.
Qed.

Lemma pairs_scalar d :
  dict_scalar d = true ->
  forallb (fun kv : str * str => forallb is_scalar (fst kv) && forallb is_scalar (snd kv)) (pairs_of_dict d) = true.
Proof.
  unfold dict_scalar, pairs_of_dict. induction d as [|[k p] d IH]; [reflexivity|]. cbn [forallb flat_map fst snd].
  intros H. apply andb_true_iff in H. destruct H as [H1 H2]. apply andb_true_iff in H1. destruct H1 as [Hk Hp].
  rewrite forallb_app, (IH H2), andb_true_r. unfold pyv_scalar in Hp.
  destruct p as [|b|z|s]; cbn [leaf_pair forallb fst snd]; try reflexivity; rewrite Hk, Hp; reflexivity.
Qed.

(* form_wire outside its two rows for a list given to werkzeug *)
Lemma form_wire_dict t d : form_wire t (FDict d) = encode_items (form_safe t) (dict_items d).
Proof. destruct t; reflexivity. Qed.
Lemma form_wire_tuples t d : t <> TWsgi -> form_wire t (FList (dict_tuples d)) = encode_items (form_safe t) (dict_items d).
Proof.
  intros Ht.
  transitivity (match kv_items_of (FList (dict_tuples d)) with
                | Some items => encode_items (form_safe t) items | None => WUnmodelled end).
  - destruct t; [reflexivity | congruence | reflexivity].
  - rewrite items_of_tuples. reflexivity.
Qed.

Lemma form_wire_prepared t v :
  form_shape v = true -> wsgi_array_form t v = false ->
  exists ps, pairs_of v = Some ps
    /\ form_path ser_as_is t v = match urlencode (form_safe t) ps with Some s => WBody s | None => WEncodeError end.
Proof.
  unfold form_shape, form_path, ser_as_is. destruct v as [p|d|a b|l]; cbn [pairs_of]; try discriminate.
  - intros _ _. exists (pairs_of_dict d). split; [reflexivity|]. cbn [prepare_urlencoded].
    rewrite form_wire_dict. unfold encode_items. rewrite texts_of_dict. reflexivity.
  - destruct (dicts_of l) as [ds|] eqn:Ed; [|discriminate]. cbn [omap]. intros _ Hw.
    exists (pairs_of_dict (concat ds)). split; [reflexivity|].
    apply dicts_of_spec in Ed. subst l. cbn [prepare_urlencoded]. rewrite prepare_dicts.
    assert (E : t <> TWsgi \/ ds = []).
    { destruct t; try (left; discriminate). right. destruct ds; [reflexivity | discriminate]. }
    destruct E as [E | ->]; [|destruct t; reflexivity].
    rewrite form_wire_tuples by exact E. unfold encode_items. rewrite texts_of_dict. reflexivity.
Qed.

Lemma form_encodable_pairs v ps :
  form_encodable v = true -> pairs_of v = Some ps ->
  forallb (fun kv : str * str => forallb is_scalar (fst kv) && forallb is_scalar (snd kv)) ps = true.
Proof.
  destruct v as [p|d|a b|l]; cbn [form_encodable pairs_of]; try discriminate.
  - intros H E; injection E as <-. apply pairs_scalar; exact H.
  - destruct (dicts_of l) as [ds|]; [|discriminate]. cbn [omap]. intros H E; injection E as <-. apply pairs_scalar; exact H.
Qed.

Definition f_tag : str := [116;97;103].
Definition f_zero : str := [48].
Definition f_tag0 : fval := FList [FDict [(f_tag, PStr f_zero)]].      (* [{tag: 0}] with the text 0 *)
Definition f_tag0_wire : str := f_tag ++ [61] ++ f_zero.              (* tag=0 *)
(* %28%27tag%27%2C+%270%27%29=arbitrary-value *)
Definition f_tag0_twice : str :=
  [37;50;56;37;50;55] ++ f_tag ++ [37;50;55;37;50;67;43;37;50;55;48;37;50;55;37;50;57;61] ++ s_arbitrary.

Example form_nonvacuous :
  let v := FList [FDict [([97;32;38], PStr [61;233;43]); ([110], PInt 5)]; FDict []; FDict [([97;32;38], PBool true); ([122], PNone)]] in
  form_shape v = true /\ form_encodable v = true /\ wsgi_array_form TAsgi v = false
  /\ pairs_of v = Some [([97;32;38], [61;233;43]); ([110], [53]); ([97;32;38], s_True)]
  /\ form_path ser_as_is TAsgi v = WBody ([97;43;37;50;54;61;37;51;68;37;67;51;37;65;57;37;50;66;38;110;61;53;38;97;43;37;50;54;61] ++ s_True)
  /\ form_path ser_as_is TWsgi (FDict [([97], PStr [33;47;32])]) = WBody [97;61;33;47;43].
Proof. repeat split. Qed.

Definition s_id : str := [105;100].
Definition it_of (p : pyv) : item := [(s_id, VPrim p)].

Lemma matrix_ser name e p : p <> PNone ->
  serialize3 [def_path_prim name StMatrix e] [(name, VPrim p)] = Some [(name, sval (59 :: name ++ [61] ++ py_str p))].
Proof.
  intros Hp. unfold serialize3, ser3, def_path_prim. cbn [flat_map d_name ser3_one d_content d_in d_type d_style d_explode ser3_path map app composed fold_right fst snd].
  unfold apply_sfun. rewrite d_get_single. cbn [new_value]. destruct p; try congruence; cbn [omap]; rewrite d_set_single; reflexivity.
Qed.

Example unfiltered_phases_nonvacuous :
  let d := def_path_prim s_id StMatrix (Some false) in
  phase_path PhExamples [d] (it_of (PInt 0)) = GOk [(s_id, sval [59;105;100;61;48])]
  /\ phase_path PhCoverage [d] (it_of (PInt 0)) = GOk [(s_id, sval [37;51;66;105;100;37;51;68;48])]
  /\ phase_path PhFuzz [d] (it_of (PBool false)) = GOk [(s_id, sval ([37;51;66;105;100;37;51;68] ++ s_False))]
  /\ phase_path PhCoverage [d] (it_of (PStr [])) = GOk [(s_id, sval [37;51;66;105;100;37;51;68])]
  /\ read_segment (Some FMatrixPrim) s_id [37;51;66;105;100;37;51;68] = Some (CPrim []).
Proof. repeat split. Qed.

