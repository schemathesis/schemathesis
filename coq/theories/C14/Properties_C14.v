(* C14 property theorems, each followed by Print Assumptions, in the order of Model_C14.v: precedence of
   the user's values (Part A), CachingAuthProvider.get (Part B), EngineContext.session (Part C).  The dict
   algebra, the pipeline lemmas, the invariants of the two transition systems and the witness
   configurations are in Proofs_C14.  Strings are lists of character codes: [115;116] is "st" (the
   User-Agent), [49] is "1" (the case id), [] the session's default headers. *)
From Coq Require Import List NArith Bool.
From Verif Require Import Common.Str Common.Json C14.Model_C14 C14.Proofs_C14.
Import ListNotations.
Open Scope N_scope.

(* Overrides (--set-query/-header/-cookie/-path) apply by EXACT declared name: the value
   handed to an operation is the configured one iff the operation declares that name. *)
Theorem C14_override_applies_by_exact_name : forall c o l n v,
  assoc_get n (entry c o l) = Some v <-> (In n (declared o l) /\ assoc_get n (ov_of c l) = Some v).
Proof. exact entry_exact. Qed.
Print Assumptions C14_override_applies_by_exact_name.

(* query / cookies / path parameters, every phase pipeline: the override is what the request
   carries, provided the generator honoured exclude= (fuzzing, examples) and outside the
   in-place sanitization region F2 (not needed for the stateful pipeline). *)
Theorem C14_user_value_wins_partial : forall ph c o l ex gen n v,
  l <> LHeaders -> has_override c = true -> assoc_get n (entry c o l) = Some v ->
  ((ph = Fuzzing \/ ph = Examples) -> excl_ok (Some (entry c o l)) gen = true) ->
  (ph = Stateful \/ outside_F2 c l n = true) ->
  oget n (final_container ph c o l ex gen) = Some v.
Proof.
  intros ph c o l ex gen n v Hl Hov Hg Hex HF2.
  pose proof (strategy_kwarg_entry c o l Hl Hov (get_nonempty _ _ _ Hg)) as Hkw.
  (* Stateful: the override is applied after the hash, so F2 does not reach it *)
  destruct HF2 as [->|HF2]; [apply sf_apply_wins; assumption|].
  destruct ph; cbn [final_container].
  - (* Examples *) rewrite Hkw, pre_send_keeps by exact HF2. cbn [example_explicit]. apply gen_value_keeps; auto.
  - (* Coverage *) rewrite Hkw, pre_send_keeps by exact HF2. apply cov_apply_wins. exact Hg.
  - (* Fuzzing *) rewrite Hkw, pre_send_keeps by exact HF2. apply gen_value_keeps; auto.
  - (* Stateful *) apply sf_apply_wins; assumption.
Qed.
Print Assumptions C14_user_value_wins_partial.

(* F2: the unrestricted statement is false: with unique_inputs and sanitization a
   sensitive-named query / cookie override is sent as the sanitization marker *)
Theorem C14_user_value_wins_refuted_sanitized : exists ph c o l ex gen n v,
  l <> LHeaders /\ has_override c = true /\ assoc_get n (entry c o l) = Some v /\
  excl_ok (Some (entry c o l)) gen = true /\
  oget n (final_container ph c o l ex gen) = Some FILTERED /\ FILTERED <> v.
Proof.
  exists Fuzzing, c_F2, o_F2, LQuery, None, (Some []), s_api_key, [83].
  destruct F2_witness as (He & Hf & _).
  repeat split; try assumption; try reflexivity; discriminate.
Qed.
Print Assumptions C14_user_value_wins_refuted_sanitized.

(* network headers (--header), every phase pipeline, CASE-INSENSITIVELY on the wire:
   the transport merge is the last writer.  Where Case.headers can be a plain dict (coverage,
   stateful) two more hypotheses are needed: region F3 (names equal to User-Agent or the
   test-case-id header modulo case), and that no header override of the operation names n. *)
Theorem C14_header_wins_partial : forall ph c o ex gen ua cid defaults n v,
  ci_user n (net c) = Some v ->
  (auth c = None \/ leq n AUTHORIZATION = false) ->
  ((ph = Coverage \/ ph = Stateful) -> outside_F3 n = true) ->
  ((ph = Coverage \/ ph = Stateful) -> no_ci_key n (Some (entry c o LHeaders)) = true) ->
  ci_get n (wire ph c o ex gen ua cid defaults) = Some v.
Proof.
  intros ph c o ex gen ua cid defaults n v Hu Ha HF Hs. unfold wire, final_headers. apply wire_net_wins; [|exact Hu | exact Ha].
  apply case_headers_ok; assumption.
Qed.
Print Assumptions C14_header_wins_partial.

(* the merge in prepare_headers + requests, on any well-formed CaseInsensitiveDict or None: none of the
   finding regions F2-F4 is needed, only that --auth does not own the name *)
Theorem C14_transport_merge_user_header_wins : forall d netd ua cid defaults a n v,
  ci_wf d -> ci_user n netd = Some v -> (a = None \/ leq n AUTHORIZATION = false) ->
  ci_get n (wire_headers defaults netd (prepare_headers (HCI d) netd ua cid) a) = Some v /\
  ci_get n (wire_headers defaults netd (prepare_headers HNone netd ua cid) a) = Some v.
Proof. intros d netd ua cid defaults a n v Hw Hu Ha. split; apply wire_net_wins; cbn; auto. Qed.
Print Assumptions C14_transport_merge_user_header_wins.

(* F3: --header user-agent: mine.  The coverage phase (Case.headers a plain dict) sends the default
   User-Agent ua, the fuzzing phase sends the user's value *)
Theorem C14_header_wins_refuted_user_agent : exists c o ua cid defaults n v,
  ci_user n (net c) = Some v /\ auth c = None /\
  ci_get n (wire Coverage c o None None ua cid defaults) = Some ua /\ ua <> v /\
  ci_get n (wire Fuzzing c o None None ua cid defaults) = Some v.
Proof.
  exists c_F3, o_none, [115;116], [49], [], user_agent_lower, [109;105;110;101].
  destruct F3_witness as (Hu & Hc & Hf).
  repeat split; try assumption; discriminate.
Qed.
Print Assumptions C14_header_wins_refuted_user_agent.

(* header overrides (--set-header): exact declared name, read case-insensitively on the wire,
   in ALL FOUR phases also when --header is configured (the rule since repo commit 9a3b607c).
   Regions: F4 (--header names the same header modulo case), F3 where Case.headers can be a
   plain dict, and the generator's exclude= contract. *)
Theorem C14_override_header_wins_partial : forall ph c o ex gen ua cid defaults n v,
  has_override c = true ->
  ci_user n (entry c o LHeaders) = Some v ->
  outside_F4 c n = true ->
  ((ph = Fuzzing \/ ph = Examples) -> no_ci_key n gen = true) ->
  ((ph = Coverage \/ ph = Stateful) -> outside_F3 n = true) ->
  (auth c = None \/ leq n AUTHORIZATION = false) ->
  ci_get n (wire ph c o ex gen ua cid defaults) = Some v.
Proof.
  intros ph c o ex gen ua cid defaults n v Hov Hu H4 Hg HF Ha. unfold wire, final_headers. apply wire_case_kept; [| | exact Ha].
  - apply override_header_case; assumption.
  - apply nokey_nomatch. exact H4.
Qed.
Print Assumptions C14_override_header_wins_partial.

(* F4: the same header name configured by --header and --set-header: the transport merge is
   the last writer and the --header value is sent in every phase, not the override *)
Theorem C14_override_header_wins_refuted_same_name : exists c o gen ua cid defaults n v w,
  has_override c = true /\ ci_user n (entry c o LHeaders) = Some v /\
  outside_F3 n = true /\ auth c = None /\ no_ci_key n gen = true /\ w <> v /\
  ci_get n (wire Examples c o None gen ua cid defaults) = Some w /\
  ci_get n (wire Coverage c o None gen ua cid defaults) = Some w /\
  ci_get n (wire Fuzzing c o None gen ua cid defaults) = Some w /\
  ci_get n (wire Stateful c o None gen ua cid defaults) = Some w.
Proof.
  exists c_F4, o_F1, (Some [(s_xg, [71])]), [115;116], [49], [], s_xover, [79;86], [78;69;84].
  repeat split; try (vm_compute; reflexivity); discriminate.
Qed.
Print Assumptions C14_override_header_wins_refuted_same_name.

(* F1, regression witness.  On get_strategy_kwargs_prefix - the rule before repo commit 9a3b607c, where
   the network headers overwrite the header overrides; kept as a sentinel, not the code - the unit
   phases send the generated value; on strategy_kwarg all four phases send the override *)
Theorem C14_override_header_wins_refuted_prefix : exists c o ua cid defaults n v g,
  has_override c = true /\ ci_user n (entry c o LHeaders) = Some v /\
  outside_F4 c n = true /\ outside_F3 n = true /\ auth c = None /\
  ci_get n (wire_prefix Fuzzing c o None (Some [(n, g)]) ua cid defaults) = Some g /\
  ci_get n (wire_prefix Coverage c o None (Some [(n, g)]) ua cid defaults) = Some g /\ g <> v /\
  ci_get n (wire Fuzzing c o None (Some [(s_xg, g)]) ua cid defaults) = Some v /\
  ci_get n (wire Examples c o (Some [(n, g)]) (Some [(s_xg, g)]) ua cid defaults) = Some v /\
  ci_get n (wire Coverage c o None (Some [(n, g)]) ua cid defaults) = Some v /\
  ci_get n (wire Stateful c o None (Some [(n, g)]) ua cid defaults) = Some v.
Proof. 
  exists c_F1, o_F1, [115;116], [49], [], s_xover, [79;86], [71].
  repeat split; try (vm_compute; reflexivity); discriminate.
Qed.
Print Assumptions C14_override_header_wins_refuted_prefix.

(* the ignored_auth probe: removes exactly the security parameters (exact name in plain
   dicts, case-insensitive in a CaseInsensitiveDict) and nothing else *)
Theorem C14_only_probe_strips : forall names x h n,
  oget n (probe_dict names x) = (if existsb (str_eqb n) names then None else oget n x) /\
  hget n (probe_headers names h) =
    match h with
    | HCI _ => if existsb (leq n) names then None else hget n h
    | _ => if existsb (str_eqb n) names then None else hget n h
    end.
Proof. intros names x h n. split; [exact (probe_dict_spec names x n) | exact (probe_headers_spec names h n)]. Qed.
Print Assumptions C14_only_probe_strips.

(* AuthStorage.set applies the first provider whose filters match and that has data;
   set_on_case consults exactly one scope: test, else schema if defined, else global *)
Theorem C14_auth_first_matching_provider : forall ps i d,
  storage_set ps = Some (i, d) <->
  exists pre p post, ps = pre ++ p :: post /\ Forall (fun q => sel_get q = None) pre /\ sel_get p = Some d /\ p_id p = i.
Proof. exact storage_set_spec. Qed.
Print Assumptions C14_auth_first_matching_provider.

Theorem C14_auth_scope_order : forall test schema global,
  (forall ps, test = Some ps -> set_on_case test schema global = storage_res ps) /\
  (test = None -> schema <> [] -> set_on_case test schema global = storage_res schema) /\
  (test = None -> schema = [] -> global <> [] -> set_on_case test schema global = storage_res global) /\
  (test = None -> schema = [] -> global = [] -> set_on_case test schema global = AuthNone).
Proof.
  intros test schema global. repeat split.
  - intros ps ->. reflexivity.
  - intros -> H. destruct schema; [contradiction | reflexivity].
  - intros -> -> H. destruct global; [contradiction | reflexivity].
  - intros -> -> ->. reflexivity.
Qed.
Print Assumptions C14_auth_scope_order.

(* the hypotheses of C14_user_value_wins_partial (query override q, fuzzing) and of
   C14_header_wins_partial (header x-c, coverage) are met by c_ok / o_ok, and the conclusions evaluate *)
Theorem C14_hypotheses_satisfiable :
  assoc_get [113] (entry c_ok o_ok LQuery) = Some [81;86] /\
  excl_ok (Some (entry c_ok o_ok LQuery)) (Some [([114], [51])]) = true /\ outside_F2 c_ok LQuery [113] = true /\
  final_container Fuzzing c_ok o_ok LQuery None (Some [([114], [51])]) = Some [([113], [81;86]); ([114], [51])] /\
  ci_user [120;45;99] (net c_ok) = Some [49] /\ outside_F3 [120;45;99] = true /\
  ci_get [120;45;99] (wire Coverage c_ok o_ok None (Some [([88;45;71], [103]); ([88;45;67], [103])]) [115;116] [49] []) = Some [49].
Proof. repeat split; vm_compute; reflexivity. Qed.
Print Assumptions C14_hypotheses_satisfiable.

(* for every refresh interval, every number n of callers, every schedule (interleaving of
   thread steps, new calls with any key, and clock advances of any size): two provider
   fetches for one key are at least one refresh interval apart *)
Theorem C14_fetch_at_most_once_per_interval : forall iv n sched k t1 t2 d1 d2 l1 l2 l3,
  fetch_log (run true iv sched (init n)) = l1 ++ (k, t1, d1) :: l2 ++ (k, t2, d2) :: l3 -> t1 + iv <= t2.
Proof.
  intros iv n sched k t1 t2 d1 d2 l1 l2 l3 H.
  exact (Sep_chrono iv _ _ _ _ _ _ (I_sep _ _ (reachable_inv iv n sched)) H eq_refl).
Qed.
Print Assumptions C14_fetch_at_most_once_per_interval.

(* the pre-lock fast path never returns an expired entry, and the token was fetched for that key *)
Theorem C14_fast_path_never_expired : forall iv n sched t k d e now,
  In (t, k, d, RFast e now) (rets (run true iv sched (init n))) ->
  now < e /\ exists tm, In (k, tm, d) (fetches (run true iv sched (init n))).
Proof.
  intros iv n sched t k d e now H. destruct (returns_justified iv n sched _ H) as [Hf Hlt]. split; [exact Hlt | exact Hf].
Qed.
Print Assumptions C14_fast_path_never_expired.

Theorem C14_every_returned_token_was_fetched_for_its_key : forall iv n sched t k d how,
  In (t, k, d, how) (rets (run true iv sched (init n))) ->
  exists tm, In (k, tm, d) (fetches (run true iv sched (init n))).
Proof. intros iv n sched t k d how H. exact (proj1 (returns_justified iv n sched _ H)). Qed.
Print Assumptions C14_every_returned_token_was_fetched_for_its_key.

Theorem C14_refresh_is_mutually_exclusive : forall iv n sched t1 t2 p1 p2,
  nth_error (pcs (run true iv sched (init n))) t1 = Some p1 -> critical p1 = true ->
  nth_error (pcs (run true iv sched (init n))) t2 = Some p2 -> critical p2 = true -> t1 = t2.
Proof.
  intros iv n sched t1 t2 p1 p2 H1 C1 H2 C2.
  pose proof (critical_holds_lock _ _ _ _ (reachable_inv iv n sched) H1 C1) as L1.
  pose proof (critical_holds_lock _ _ _ _ (reachable_inv iv n sched) H2 C2) as L2.
  congruence.
Qed.
Print Assumptions C14_refresh_is_mutually_exclusive.

(* regression witness: the variant WITHOUT the re-check under the lock fetches twice at the same instant *)
Theorem C14_fetch_at_most_once_per_interval_refuted_without_recheck : exists iv n sched k t1 t2 d1 d2 l1 l2 l3,
  fetch_log (run false iv sched (init n)) = l1 ++ (k, t1, d1) :: l2 ++ (k, t2, d2) :: l3 /\ ~ (t1 + iv <= t2).
Proof.
  exists 300, 2%nat, sched_race, 7, 0, 0, 1, 2, [], [], []. split; [vm_compute; reflexivity | apply N.lt_nge; reflexivity].
Qed.
Print Assumptions C14_fetch_at_most_once_per_interval_refuted_without_recheck.

(* non-vacuity: a schedule with a refresh after the interval, a fast-path hit and two keys *)
Theorem C14_schedule_example :
  fetch_log (run true 300 sched_demo (init 2)) = [(1, 0, 1); (2, 10, 2); (1, 300, 3)] /\
  map ret_obs (rev (rets (run true 300 sched_demo (init 2)))) =
    [(0%nat, 1, 1, 2); (1%nat, 1, 1, 0); (0%nat, 2, 2, 2); (1%nat, 1, 3, 2)] /\
  sep_ok 300 (fetches (run true 300 sched_demo (init 2))) = true /\
  sep_ok 300 (fetches (run false 300 sched_race (init 2))) = false.
Proof. repeat split; vm_compute; reflexivity. Qed.
Print Assumptions C14_schedule_example.

(* for every network configuration, every number n of readers (worker threads asking for
   ctx.session / ctx.transport_kwargs) and EVERY schedule of their steps (test of the cache,
   construction, each attribute assignment, publication), with no session passed explicitly:
   every session a reader is handed, and every session a request is later sent through, carries
   the configured verify / auth / headers / cert / proxies *)
Theorem C14_shared_session_is_configured_for_every_reader : forall c dflt n sched t o x,
  In (t, o, x) (gots (s_run true c dflt sched (s_init n None))) \/
  In (t, o, x) (sends (s_run true c dflt sched (s_init n None))) ->
  s_verify x = n_verify c /\ s_auth x = n_auth c /\ s_headers x = session_headers dflt (n_headers c) /\
  s_cert x = n_cert c /\ s_proxies x = match n_proxy c with Some p => [(K_ALL, p)] | None => [] end.
Proof.
  intros c dflt n sched t o x H. apply session_is_fin in H. subst x.
  cbn [fin]. rewrite configured_spec. cbn. repeat split.
Qed.
Print Assumptions C14_shared_session_is_configured_for_every_reader.

(* hence every request prepared through such a session is the one Part A reasons about
   (wire_headers) and carries the configured Authorization *)
Theorem C14_shared_session_requests_carry_auth : forall c dflt n sched t o x a final,
  In (t, o, x) (gots (s_run true c dflt sched (s_init n None))) \/
  In (t, o, x) (sends (s_run true c dflt sched (s_init n None))) ->
  n_auth c = Some a ->
  request_headers x final = wire_headers dflt (n_headers c) final (Some a) /\
  ci_get AUTHORIZATION (request_headers x final) = Some a.
Proof.
  intros c dflt n sched t o x a final H Ha. apply session_is_fin in H. subst x.
  cbn [fin]. rewrite configured_spec. unfold request_headers, wire_headers. cbn [s_auth s_headers]. rewrite Ha.
  split; [reflexivity|]. cbn [apply_auth]. rewrite ci_get_ci_set, leq_refl. reflexivity.
Qed.
Print Assumptions C14_shared_session_requests_carry_auth.

(* the published object is complete at every moment of every schedule *)
Theorem C14_published_session_is_complete : forall c dflt n sched o,
  cached (s_run true c dflt sched (s_init n None)) = Some o ->
  nth_error (heap (s_run true c dflt sched (s_init n None))) o = Some (configured c dflt).
Proof.
  intros c dflt n sched o H. exact (proj1 (SI_cached _ _ _ _ (s_reachable_inv c dflt None n sched) _ H)).
Qed.
Print Assumptions C14_published_session_is_complete.

(* a session passed to EngineContext(session=...) is handed out as it is, never reconfigured *)
Theorem C14_explicit_session_is_handed_out_unchanged : forall c dflt n x0 sched t o x,
  In (t, o, x) (gots (s_run true c dflt sched (s_init n (Some x0)))) \/
  In (t, o, x) (sends (s_run true c dflt sched (s_init n (Some x0)))) -> x = x0.
Proof. intros c dflt n x0 sched. exact (session_is_fin c dflt (Some x0) n sched). Qed.
Print Assumptions C14_explicit_session_is_handed_out_unchanged.

(* regression witness: in the sentinel order (assign the new object to ctx._session first,
   configure it in place) a second reader obtains the bare object and sends a request without
   the configured Authorization *)
Theorem C14_shared_session_is_configured_refuted_publish_first : exists c dflt n sched t o x a,
  In (t, o, x) (sends (s_run false c dflt sched (s_init n None))) /\
  n_auth c = Some a /\ s_auth x = None /\ ci_get AUTHORIZATION (request_headers x HNone) = None.
Proof.
  exists c_sess, d_sess, 2%nat, sched_publish_first, 1%nat, 0%nat, (bare d_sess), [66;97;115;105;99;32;100;88;65;61].
  vm_compute. repeat split; auto.
Qed.
Print Assumptions C14_shared_session_is_configured_refuted_publish_first.

(* non-vacuity: two readers both miss the cache and both build a session, the later publication
   wins, a third read returns the published object; requests go through all of them *)
Theorem C14_session_schedule_example :
  map (fun e => (fst (fst e), snd (fst e))) (rev (gots (s_run true c_sess d_sess sched_two_builders (s_init 2 None))))
    = [(0, 0); (1, 1); (0, 1)]%nat /\
  map (fun e => (fst (fst e), snd (fst e))) (rev (sends (s_run true c_sess d_sess sched_two_builders (s_init 2 None))))
    = [(0, 0); (0, 1); (1, 1)]%nat /\
  cached (s_run true c_sess d_sess sched_two_builders (s_init 2 None)) = Some 1%nat /\
  forallb (auth_ok c_sess) (sends (s_run true c_sess d_sess sched_two_builders (s_init 2 None))) = true /\
  forallb (auth_ok c_sess) (sends (s_run true c_sess d_sess sched_publish_first (s_init 2 None))) = true /\
  forallb (auth_ok c_sess) (sends (s_run false c_sess d_sess sched_publish_first (s_init 2 None))) = false.
Proof. vm_compute. repeat split. Qed.
Print Assumptions C14_session_schedule_example.
