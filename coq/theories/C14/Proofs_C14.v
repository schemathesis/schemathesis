(* C14 proofs.  After a few facts about upd and nth_error (used by B and C), three parts that do not
   depend on one another, in the order of Model_C14.v:
   A, precedence as map algebra: one equation per dict operation; the last accepted write (lastf)
      decides a lookup after updates; "d says v" is what survives the updates of a plain dict;
      the override entry (entry_exact, entry_says); h_ok / h_has follow Case.headers through each
      pipeline function to the wire (wire_net_wins, wire_case_kept); query / cookies / path; the
      probe; AuthStorage.set; the witness configurations of Part A.
   B, CachingAuthProvider.get: the invariant Inv of the transition system is kept by each kind
      of transition (inv_tick ... inv_store), hence by every run (reachable_inv); witness schedules.
   C, EngineContext.session: the invariant SInv; the predicate frames says what a step leaves
      alone, pub_frame / core_frame / sinv_frame carry it through the invariant; three kinds of
      transitions (sinv_move, sinv_alloc, sinv_conf); every run (s_reachable_inv); witnesses.
   Strings are lists of character codes: [115;116] is "st" (a User-Agent), [49] is "1" (a case id). *)
From Coq Require Import List NArith Bool Arith Lia.
From Verif Require Import Common.Str Common.Json Common.Lists C14.Model_C14.
Import ListNotations.
Open Scope N_scope.

Lemma nth_upd_eq A (l : list A) i j x :
  nth_error (upd i x l) j = if Nat.eqb j i then option_map (fun _ => x) (nth_error l j) else nth_error l j.
Proof.
  revert i j; induction l as [|y l IH]; intros [|i] [|j]; cbn; try reflexivity.
  - destruct (Nat.eqb j i); reflexivity.
  - apply IH.
Qed.
Lemma nth_upd_same A (l : list A) i x q : nth_error l i = Some q -> nth_error (upd i x l) i = Some x.
Proof. intros H. rewrite nth_upd_eq, Nat.eqb_refl, H. reflexivity. Qed.
Lemma nth_upd A (l : list A) i j x p :
  nth_error (upd i x l) j = Some p -> (j = i /\ p = x) \/ (j <> i /\ nth_error l j = Some p).
Proof.
  rewrite nth_upd_eq. destruct (Nat.eqb_spec j i) as [->|Hne]; [|auto].
  destruct (nth_error l i); cbn; intros [= <-]. auto.
Qed.

Lemma nth_upd_other A (l : list A) i j x : j <> i -> nth_error (upd i x l) j = nth_error l j.
Proof. intros H. rewrite nth_upd_eq. destruct (Nat.eqb_spec j i); [contradiction | reflexivity]. Qed.

(* thread t moves to p': what holds of every thread still does if it holds of t at p' and the
   others keep it *)
Lemma upd_all A (Q Q' : nat -> A -> Prop) ps t p' :
  (forall j q, nth_error ps j = Some q -> Q j q) -> Q' t p' -> (forall j q, j <> t -> Q j q -> Q' j q) ->
  forall j q, nth_error (upd t p' ps) j = Some q -> Q' j q.
Proof.
  intros Hps Hme Hothers j q Hq. apply nth_upd in Hq.
  destruct Hq as [[-> ->] | [Hne Hq]]; [exact Hme | exact (Hothers j q Hne (Hps j q Hq))].
Qed.

Lemma nth_some_lt A (l : list A) i x : nth_error l i = Some x -> (i < length l)%nat.
Proof. intros H. apply nth_error_Some. congruence. Qed.

Lemma nth_app_new A (l : list A) y : nth_error (l ++ [y]) (length l) = Some y.
Proof. rewrite nth_error_app2 by lia. rewrite Nat.sub_diag. reflexivity. Qed.

(* ==== Part A: precedence as map algebra ==== *)

Lemma leq_iff a b : leq a b = true <-> lower_ascii a = lower_ascii b.
Proof. unfold leq. apply str_eqb_spec. Qed.
Lemma leq_refl a : leq a a = true.
Proof. apply leq_iff; reflexivity. Qed.
Lemma leq_l n k k' : leq n k = true -> leq n k' = leq k k'.
Proof. unfold leq. intros H. apply str_eqb_spec in H. rewrite H. reflexivity. Qed.
Lemma leq_r n k k' : leq k k' = true -> leq n k = leq n k'.
Proof. unfold leq. intros H. apply str_eqb_spec in H. rewrite H. reflexivity. Qed.

Lemma ci_get_ci_set k n v d : ci_get n (ci_set k v d) = if leq n k then Some v else ci_get n d.
Proof.
  induction d as [|[k' v'] r IH]; cbn; [reflexivity|].
  destruct (leq k k') eqn:E; cbn.
  - rewrite <- (leq_r n _ _ E). destruct (leq n k); reflexivity.
  - rewrite IH. destruct (leq n k) eqn:E1; [|reflexivity]. rewrite (leq_l _ _ k' E1), E. reflexivity.
Qed.

Lemma ci_get_leq n k d : leq n k = true -> ci_get n d = ci_get k d.
Proof.
  intros H. induction d as [|[k' v'] r IH]; cbn; [reflexivity|]. rewrite (leq_l _ _ k' H), IH. reflexivity.
Qed.

Lemma ci_get_setdefault n k x d :
  ci_get n (ci_setdefault k x d) = match ci_get n d with Some v => Some v | None => if leq n k then Some x else None end.
Proof.
  unfold ci_setdefault. destruct (ci_get k d) eqn:G.
  - destruct (ci_get n d) eqn:Gn; [reflexivity|]. destruct (leq n k) eqn:E; [|reflexivity].
    rewrite (ci_get_leq _ _ _ E) in Gn. congruence.
  - rewrite ci_get_ci_set. destruct (leq n k) eqn:E; [|destruct (ci_get n d); reflexivity].
    rewrite (ci_get_leq _ _ _ E), G. reflexivity.
Qed.

Lemma assoc_get_remove n k (d : dict) : assoc_get n (assoc_remove k d) = if str_eqb n k then None else assoc_get n d.
Proof.
  induction d as [|[k' x] r IH]; cbn; [destruct (str_eqb n k); reflexivity|].
  destruct (str_eqb k k') eqn:E; cbn; rewrite IH.
  - apply str_eqb_spec in E; subst k'. destruct (str_eqb n k); reflexivity.
  - destruct (str_eqb n k) eqn:E1; [|reflexivity]. apply str_eqb_spec in E1; subst n. rewrite E. reflexivity.
Qed.
Lemma ci_get_remove n k d : ci_get n (ci_remove k d) = if leq n k then None else ci_get n d.
Proof.
  induction d as [|[k' x] r IH]; cbn; [destruct (leq n k); reflexivity|].
  destruct (leq k k') eqn:E; cbn; rewrite IH.
  - rewrite <- (leq_r n _ _ E). destruct (leq n k); reflexivity.
  - destruct (leq n k) eqn:E1; [|reflexivity]. rewrite (leq_l _ _ k' E1), E. reflexivity.
Qed.

Lemma fold_remove_get (get : str -> dict -> option str) (rm : str -> dict -> dict) (eqv : str -> str -> bool) n :
  (forall k d, get n (rm k d) = if eqv n k then None else get n d) ->
  forall names d, get n (fold_left (fun acc a => rm a acc) names d) = if existsb (eqv n) names then None else get n d.
Proof.
  intros H names. induction names as [|a r IH]; intros d; cbn [fold_left existsb]; [reflexivity|].
  rewrite IH, H. destruct (eqv n a); cbn [orb]; [destruct (existsb (eqv n) r)|]; reflexivity.
Qed.
Lemma pop_all_get n names d : assoc_get n (pop_all names d) = if existsb (str_eqb n) names then None else assoc_get n d.
Proof. exact (fold_remove_get assoc_get _ str_eqb n (assoc_get_remove n) names d). Qed.
Lemma ci_pop_all_get n names d : ci_get n (ci_pop_all names d) = if existsb (leq n) names then None else ci_get n d.
Proof. exact (fold_remove_get ci_get _ leq n (ci_get_remove n) names d). Qed.

(* What a sequence of writes leaves under the keys that m accepts: the value of the last such
   write, else acc.  m is [leq n] for a CaseInsensitiveDict and [str_eqb n] for a plain dict. *)
Definition lastf (m : str -> bool) (items : dict) (acc : option str) : option str :=
  fold_left (fun acc kv => if m (fst kv) then Some (snd kv) else acc) items acc.

Lemma ci_get_ci_update n items : forall base,
  ci_get n (ci_update base items) = lastf (leq n) items (ci_get n base).
Proof.
  unfold ci_update, lastf. induction items as [|[k v] r IH]; intros base; cbn; [reflexivity|].
  rewrite IH, ci_get_ci_set. reflexivity.
Qed.
Lemma assoc_get_update n u : forall d : dict,
  assoc_get n (assoc_update d u) = lastf (str_eqb n) u (assoc_get n d).
Proof.
  unfold assoc_update, lastf. induction u as [|[k v] r IH]; intros d; cbn; [reflexivity|].
  rewrite IH, assoc_get_assoc_set. reflexivity.
Qed.

(* d says v (under m): some key of d is accepted by m, and every such key carries v.  Unlike "the
   last accepted entry carries v" this survives the in-place updates of a plain dict, and it
   decides the last write. *)
Definition allv (m : str -> bool) (v : str) (d : dict) : Prop := forall k x, In (k, x) d -> m k = true -> x = v.
Definition says (m : str -> bool) (v : str) (d : dict) : Prop :=
  allv m v d /\ exists k, In k (map fst d) /\ m k = true.
Definition nomatch (m : str -> bool) (d : dict) : Prop := forall k x, In (k, x) d -> m k = false.

Lemma lastf_says m v items acc : says m v items -> lastf m items acc = Some v.
Proof.
  unfold lastf. induction items as [|[k x] r IH] using rev_ind; intros [Ha [k' [Hin Hm]]]; [destruct Hin|].
  rewrite fold_left_app. cbn. destruct (m k) eqn:E.
  - f_equal. apply (Ha k x); [apply in_or_app; right; left; reflexivity | exact E].
  - apply IH. split; [intros k0 x0 H0; apply Ha, in_or_app; left; exact H0|].
    rewrite map_app in Hin. apply in_app_or in Hin. destruct Hin as [Hin|[Heq|[]]]; [exists k'; auto | cbn in Heq; congruence].
Qed.

Lemma lastf_nomatch m items : forall acc, nomatch m items -> lastf m items acc = acc.
Proof.
  unfold lastf. induction items as [|[k x] r IH]; intros acc Hn; cbn; [reflexivity|].
  rewrite (Hn k x (or_introl eq_refl)). apply IH. intros k' x' Hin. apply (Hn k' x'). right. exact Hin.
Qed.

Lemma allv_nomatch m v d : nomatch m d -> allv m v d.
Proof. intros H k x Hin Hm. rewrite (H k x Hin) in Hm. discriminate. Qed.

Lemma says_nonempty m v d : says m v d -> is_empty d = false.
Proof. intros [_ [k [Hin _]]]. destruct d; [contradiction | reflexivity]. Qed.

Lemma in_assoc_set A k (v : A) d e : In e (assoc_set k v d) -> e = (k, v) \/ In e d.
Proof.
  induction d as [|[k' v'] r IH]; cbn; [intros [<-|[]]; left; reflexivity|].
  destruct (str_eqb k k'); cbn.
  - intros [<-|H]; [left; reflexivity | right; right; exact H].
  - intros [<-|H]; [right; left; reflexivity|]. destruct (IH H) as [->|H']; [left; reflexivity | right; right; exact H'].
Qed.
Lemma in_assoc_update A (u : list (str * A)) : forall d e, In e (assoc_update d u) -> In e d \/ In e u.
Proof.
  unfold assoc_update. induction u as [|[k v] r IH]; intros d e H; cbn in *; [left; exact H|].
  destruct (IH _ _ H) as [H1|H1]; [|right; right; exact H1].
  apply in_assoc_set in H1. destruct H1 as [->|H1]; [right; left; reflexivity | left; exact H1].
Qed.
Lemma keys_assoc_set A k (v : A) d k0 : In k0 (map fst (assoc_set k v d)) <-> k = k0 \/ In k0 (map fst d).
Proof.
  induction d as [|[k' v'] r IH]; cbn; [reflexivity|].
  destruct (str_eqb k k') eqn:E; cbn.
  - apply str_eqb_spec in E; subst k'. tauto.
  - rewrite IH. tauto.
Qed.
Lemma keys_assoc_update A (u : list (str * A)) k0 : forall d,
  In k0 (map fst (assoc_update d u)) <-> In k0 (map fst d) \/ In k0 (map fst u).
Proof.
  unfold assoc_update. induction u as [|[k v] r IH]; intros d; cbn; [tauto|].
  rewrite IH, keys_assoc_set. tauto.
Qed.

Lemma allv_update m v d u : allv m v d -> allv m v u -> allv m v (assoc_update d u).
Proof. intros Hd Hu k x Hin. destruct (in_assoc_update _ _ _ _ Hin); eauto. Qed.
Lemma says_update_r m v d u : allv m v d -> says m v u -> says m v (assoc_update d u).
Proof.
  intros Hd [Hu [k [Hin Hm]]]. split; [apply allv_update; assumption|].
  exists k. split; [apply keys_assoc_update; right; exact Hin | exact Hm].
Qed.
Lemma says_update_l m v d u : says m v d -> allv m v u -> says m v (assoc_update d u).
Proof.
  intros [Hd [k [Hin Hm]]] Hu. split; [apply allv_update; assumption|].
  exists k. split; [apply keys_assoc_update; left; exact Hin | exact Hm].
Qed.
Lemma says_p_setdefault m v k x d : says m v d -> m k = false -> says m v (p_setdefault k x d).
Proof.
  unfold p_setdefault. destruct (assoc_get k d); [auto|]. intros [Ha [k' [Hin Hm]]] Hk. split.
  - intros k0 x0 H0 Hm0. apply in_assoc_set in H0. destruct H0 as [Heq|H0]; [congruence | exact (Ha _ _ H0 Hm0)].
  - exists k'. split; [apply keys_assoc_set; right; exact Hin | exact Hm].
Qed.

Lemma ci_get_none_nomatch n d : ci_get n d = None -> nomatch (leq n) d.
Proof.
  induction d as [|[k v] r IH]; cbn; intros H k' x' Hin; [contradiction|].
  destruct (leq n k) eqn:E; [discriminate|].
  destruct Hin as [Heq|Hin]; [inversion Heq; subst; exact E | exact (IH H k' x' Hin)].
Qed.

Lemma assoc_get_none_nomatch n (d : dict) : assoc_get n d = None -> nomatch (str_eqb n) d.
Proof.
  induction d as [|[k y] r IH]; cbn; intros H k' x' Hin; [contradiction|].
  destruct (str_eqb n k) eqn:E; [discriminate|].
  destruct Hin as [Heq|Hin]; [inversion Heq; subst; exact E | exact (IH H k' x' Hin)].
Qed.

Lemma ci_user_says n d v : ci_user n d = Some v -> says (leq n) v d.
Proof.
  unfold ci_user. intros H.
  destruct (filter (fun kv => leq n (fst kv)) d) as [|[k0 v0] r] eqn:F; [discriminate|].
  destruct (forallb (fun kv => str_eqb (snd kv) v0) r) eqn:A; [|discriminate]. inversion H; subst v0; clear H.
  assert (Hin0 : In (k0, v) (filter (fun kv => leq n (fst kv)) d)) by (rewrite F; left; reflexivity).
  apply filter_In in Hin0. cbn in Hin0.
  split.
  - intros k x Hin Hm.
    assert (Hf : In (k, x) (filter (fun kv => leq n (fst kv)) d)) by (apply filter_In; split; [exact Hin | exact Hm]).
    rewrite F in Hf. destruct Hf as [Heq|Hf]; [inversion Heq; reflexivity|].
    rewrite forallb_forall in A. specialize (A _ Hf). cbn in A. apply str_eqb_spec in A. exact A.
  - exists k0. split; [exact (in_map fst _ _ (proj1 Hin0)) | exact (proj2 Hin0)].
Qed.

(* well-formed CaseInsensitiveDict: one entry per lower-cased key *)
Definition lkeys (d : dict) : list str := map (fun kv => lower_ascii (fst kv)) d.
Definition ci_wf (d : dict) : Prop := NoDup (lkeys d).

Lemma lkeys_ci_set k v d y : In y (lkeys (ci_set k v d)) -> y = lower_ascii k \/ In y (lkeys d).
Proof.
  induction d as [|[k' v'] r IH]; cbn.
  - intros [<-|[]]; left; reflexivity.
  - destruct (leq k k') eqn:E; cbn.
    + apply leq_iff in E. intros [<-|H]; [right; left; symmetry; exact E | right; right; exact H].
    + intros [<-|H]; [right; left; reflexivity|]. destruct (IH H) as [->|H']; [left; reflexivity | right; right; exact H'].
Qed.

Lemma wf_ci_set k v d : ci_wf d -> ci_wf (ci_set k v d).
Proof.
  unfold ci_wf. induction d as [|[k' v'] r IH]; cbn [ci_set lkeys map fst]; intros H.
  - constructor; [intros [] | constructor].
  - inversion H as [|? ? Hnin Hnd]; subst. destruct (leq k k') eqn:E; cbn [lkeys map fst].
    + apply leq_iff in E. rewrite E. constructor; assumption.
    + constructor; [|apply IH; exact Hnd].
      intros Hin. apply lkeys_ci_set in Hin. destruct Hin as [Heq|Hin]; [|contradiction].
      apply str_eqb_false in E. congruence.
Qed.

Lemma wf_ci_update items base : ci_wf base -> ci_wf (ci_update base items).
Proof. exact (fold_left_inv _ ci_wf (fun d kv => wf_ci_set _ _ d) items base). Qed.
Lemma wf_nil : ci_wf [].
Proof. constructor. Qed.
Lemma wf_ci_of_items items : ci_wf (ci_of_items items).
Proof. apply wf_ci_update. exact wf_nil. Qed.
Lemma wf_ci_setdefault k v d : ci_wf d -> ci_wf (ci_setdefault k v d).
Proof. unfold ci_setdefault. intros H. destruct (ci_get k d); [exact H | apply wf_ci_set; exact H]. Qed.

Lemma wf_get_says n v d : ci_wf d -> ci_get n d = Some v -> says (leq n) v d.
Proof.
  unfold ci_wf. induction d as [|[k' v'] r IH]; cbn [ci_get lkeys map fst]; intros Hwf Hg; [discriminate|].
  inversion Hwf as [|? ? Hnin Hnd]; subst.
  destruct (leq n k') eqn:E.
  - inversion Hg; subst v'. split.
    + intros k x [Heq|Hin] Hm; [inversion Heq; reflexivity|].
      exfalso. apply Hnin. apply leq_iff in E, Hm. rewrite <- E, Hm.
      apply (in_map (fun kv => lower_ascii (fst kv)) r (k, x)). exact Hin.
    + exists k'. split; [left; reflexivity | exact E].
  - destruct (IH Hnd Hg) as [Ha [k [Hin Hm]]]. split.
    + intros k0 x0 [Heq|Hin0] Hm0; [inversion Heq; subst; congruence | exact (Ha k0 x0 Hin0 Hm0)].
    + exists k. split; [right; exact Hin | exact Hm].
Qed.

Lemma in_for_parameters ov decl k x : In (k, x) (for_parameters ov decl) -> assoc_get k ov = Some x.
Proof.
  revert k x. unfold for_parameters.
  apply (fold_left_inv _ (fun out : dict => forall k x, In (k, x) out -> assoc_get k ov = Some x)).
  - intros out a Hout k x Hin. destruct (assoc_get a ov) eqn:Ga; [|auto].
    apply in_assoc_set in Hin. destruct Hin as [[= -> ->]|Hin]; auto.
  - intros k x [].
Qed.

Lemma for_parameters_fold_get n (ov : dict) decl : forall out : dict,
  assoc_get n (fold_left (fun out a => match assoc_get a ov with Some v => assoc_set a v out | None => out end) decl out) =
  if existsb (str_eqb n) decl then match assoc_get n ov with Some v => Some v | None => assoc_get n out end else assoc_get n out.
Proof.
  induction decl as [|a r IH]; intros out; cbn [fold_left existsb]; [reflexivity|].
  rewrite IH. destruct (str_eqb n a) eqn:E.
  - apply str_eqb_spec in E; subst a. cbn [orb].
    destruct (assoc_get n ov) eqn:G; [rewrite assoc_get_set_same|]; destruct (existsb (str_eqb n) r); reflexivity.
  - cbn [orb]. destruct (assoc_get a ov) eqn:G; [rewrite assoc_get_set_other by exact E|]; reflexivity.
Qed.

Lemma entry_exact c o l n v :
  assoc_get n (entry c o l) = Some v <-> (In n (declared o l) /\ assoc_get n (ov_of c l) = Some v).
Proof.
  unfold entry, for_parameters. rewrite for_parameters_fold_get. cbn [assoc_get]. split.
  - destruct (existsb (str_eqb n) (declared o l)) eqn:E; [|discriminate].
    apply existsb_exists in E. destruct E as [a [Ha Hs]]. apply str_eqb_spec in Hs; subst a.
    destruct (assoc_get n (ov_of c l)); [intros H; inversion H; auto | discriminate].
  - intros [Hin Hg]. rewrite Hg.
    assert (E : existsb (str_eqb n) (declared o l) = true) by (apply existsb_exists; exists n; split; [exact Hin | apply str_eqb_refl]).
    rewrite E. reflexivity.
Qed.

Lemma entry_says c o l n v : assoc_get n (entry c o l) = Some v -> says (str_eqb n) v (entry c o l).
Proof.
  intros H. split.
  - intros k x Hin Hm. apply str_eqb_spec in Hm; subst k.
    apply entry_exact in H. apply in_for_parameters in Hin. destruct H. congruence.
  - exists n. split; [exact (in_map fst _ _ (assoc_get_in _ _ _ H)) | apply str_eqb_refl].
Qed.

(* the override entry of an operation has one value per name, so it wins over whatever it updates *)
Lemma entry_update_wins c o l n v d :
  assoc_get n (entry c o l) = Some v -> assoc_get n (assoc_update d (entry c o l)) = Some v.
Proof. intros Hg. rewrite assoc_get_update. apply lastf_says, entry_says. exact Hg. Qed.

(* a generator that honours exclude= leaves the explicit names alone *)
Lemma excl_keeps e g n v :
  excl_ok (Some e) (Some g) = true -> assoc_get n e = Some v -> assoc_get n (assoc_update e g) = Some v.
Proof.
  intros Hex Hg. rewrite assoc_get_update, Hg. apply lastf_nomatch, assoc_get_none_nomatch.
  cbn in Hex. unfold keys_disjoint in Hex. rewrite forallb_forall in Hex.
  specialize (Hex _ (assoc_get_in _ _ _ Hg)). cbn in Hex. apply negb_true_iff in Hex.
  unfold assoc_mem in Hex. destruct (assoc_get n g); [discriminate | reflexivity].
Qed.

(* Case.headers on the way to the wire.  [h_has n v h]: h delivers v for n whatever the session
   carries; [h_ok n v h]: h does not stand in the way of an update that says v.  A
   CaseInsensitiveDict needs well-formedness only; a plain dict is merged entry by entry into one,
   so every spelling of n in it must carry v, and the two default headers, which it takes by exact
   name, must be other names (F3). *)
Definition h_ok (n v : str) (h : hdrs) : Prop :=
  match h with HNone => True | HCI d => ci_wf d | HPlain d => allv (leq n) v d /\ outside_F3 n = true end.
Definition h_has (n v : str) (h : hdrs) : Prop :=
  match h with
  | HNone => False
  | HCI d => ci_wf d /\ ci_get n d = Some v
  | HPlain d => says (leq n) v d /\ outside_F3 n = true
  end.

Lemma has_says n v h : h_has n v h -> says (leq n) v (h_items h).
Proof. destruct h as [|d|d]; cbn; [contradiction | tauto | intros [Hw Hg]; exact (wf_get_says _ _ _ Hw Hg)]. Qed.

Lemma has_update_r n v h u : h_ok n v h -> h <> HNone -> says (leq n) v u -> h_has n v (h_update h u).
Proof.
  destruct h as [|d|d]; cbn; intros Hok Hne Hu; [congruence| |].
  - destruct Hok as [A HF]. split; [apply says_update_r; assumption | exact HF].
  - split; [apply wf_ci_update; exact Hok | rewrite ci_get_ci_update; apply lastf_says; exact Hu].
Qed.
Lemma has_update_l n v h u : h_has n v h -> nomatch (leq n) u -> h_has n v (h_update h u).
Proof.
  destruct h as [|d|d]; cbn; [tauto| |]; intros [A B] Hu.
  - split; [apply says_update_l; [exact A | apply allv_nomatch; exact Hu] | exact B].
  - split; [apply wf_ci_update; exact A | rewrite ci_get_ci_update, lastf_nomatch; assumption].
Qed.
Lemma ok_update n v h u : h_ok n v h -> allv (leq n) v u -> h_ok n v (h_update h u).
Proof.
  destruct h as [|d|d]; cbn; [auto| |]; intros Hok Hu.
  - split; [apply allv_update; tauto | tauto].
  - apply wf_ci_update. exact Hok.
Qed.

Lemma outside_F3_defaults n : outside_F3 n = true -> leq n USER_AGENT_NAME = false /\ leq n TESTCASE_NAME = false.
Proof. unfold outside_F3. intros H. apply andb_true_iff in H. destruct H as [A B]. apply negb_true_iff in A, B. auto. Qed.

Lemma has_setdefault n v k x h :
  h_has n v h -> (k = USER_AGENT_NAME \/ k = TESTCASE_NAME) -> h_has n v (h_setdefault k x h).
Proof.
  destruct h as [|d|d]; cbn; [tauto| |].
  - intros [Hs HF] Hk. split; [|exact HF]. apply says_p_setdefault; [exact Hs|].
    destruct (outside_F3_defaults _ HF). destruct Hk as [->| ->]; assumption.
  - intros [Hw Hg] _. split; [apply wf_ci_setdefault; exact Hw | rewrite ci_get_setdefault, Hg; reflexivity].
Qed.

(* prepare_headers starts from the case headers, or from an empty CaseInsensitiveDict when there are none *)
Lemma or_empty_ok n v h : h_ok n v h -> h_ok n v (match h with HNone => HCI [] | x => x end).
Proof. destruct h; [intros _; exact wf_nil | auto | auto]. Qed.
Lemma or_empty_not_none h : match h with HNone => HCI [] | x => x end <> HNone.
Proof. destruct h; discriminate. Qed.
Lemma has_or_empty n v h : h_has n v h -> match h with HNone => HCI [] | x => x end = h.
Proof. destruct h; [contradiction | reflexivity | reflexivity]. Qed.

Lemma prepare_net_wins n v h netd ua cid :
  h_ok n v h -> says (leq n) v netd -> h_has n v (prepare_headers h netd ua cid).
Proof.
  intros Hok Hu. unfold prepare_headers. rewrite (says_nonempty _ _ _ Hu).
  apply has_setdefault; [apply has_setdefault|]; auto.
  apply has_update_r; [apply or_empty_ok; exact Hok | apply or_empty_not_none | exact Hu].
Qed.
Lemma prepare_case_kept n v h netd ua cid :
  h_has n v h -> nomatch (leq n) netd -> h_has n v (prepare_headers h netd ua cid).
Proof.
  intros Hh Hn. unfold prepare_headers. apply has_setdefault; [apply has_setdefault|]; auto.
  rewrite (has_or_empty _ _ _ Hh). destruct (is_empty netd); [exact Hh | apply has_update_l; assumption].
Qed.

Lemma wire_of_has defaults net0 final a n v :
  h_has n v final -> (a = None \/ leq n AUTHORIZATION = false) ->
  ci_get n (wire_headers defaults net0 final a) = Some v.
Proof.
  intros Hh Ha. unfold wire_headers.
  assert (G : ci_get n (ci_update (session_headers defaults net0) (h_items final)) = Some v)
    by (rewrite ci_get_ci_update; apply lastf_says, has_says; exact Hh).
  unfold apply_auth. destruct a as [x|]; [|exact G].
  destruct Ha as [Ha|Ha]; [discriminate|]. rewrite ci_get_ci_set, Ha. exact G.
Qed.

Lemma wire_net_wins h netd ua cid defaults a n v :
  h_ok n v h -> ci_user n netd = Some v -> (a = None \/ leq n AUTHORIZATION = false) ->
  ci_get n (wire_headers defaults netd (prepare_headers h netd ua cid) a) = Some v.
Proof. intros Hok Hu Ha. apply wire_of_has; [apply prepare_net_wins; [exact Hok | apply ci_user_says; exact Hu] | exact Ha]. Qed.

Lemma wire_case_kept h netd ua cid defaults a n v :
  h_has n v h -> nomatch (leq n) netd -> (a = None \/ leq n AUTHORIZATION = false) ->
  ci_get n (wire_headers defaults netd (prepare_headers h netd ua cid) a) = Some v.
Proof. intros Hh Hn Ha. apply wire_of_has; [apply prepare_case_kept; assumption | exact Ha]. Qed.

Lemma to_case_headers_ok n v x : h_ok n v (to_case_headers x).
Proof. destruct x; cbn; [apply wf_ci_of_items | exact I]. Qed.

Lemma nokey_nomatch n g : no_ci_key n (Some g) = true -> nomatch (leq n) g.
Proof. cbn. destruct (ci_get n g) eqn:G; [discriminate|]. intros _. apply ci_get_none_nomatch. exact G. Qed.
Lemma nokey_allv n v g : no_ci_key n (Some g) = true -> allv (leq n) v g.
Proof. intros H. apply allv_nomatch, nokey_nomatch. exact H. Qed.

Lemma allv_filter m v (p : str * str -> bool) d : allv m v d -> allv m v (filter p d).
Proof. intros H k x Hin. apply H. apply filter_In in Hin. tauto. Qed.

Lemma kwarg_allv m v c o K :
  allv m v (net c) -> allv m v (entry c o LHeaders) -> strategy_kwarg c o LHeaders = Some K -> allv m v K.
Proof.
  intros Hn He. unfold strategy_kwarg.
  assert (Ho : forall e, from_override c o LHeaders = Some e -> allv m v e).
  { unfold from_override. destruct (has_override c), (is_empty (entry c o LHeaders)); intros e [= <-]; exact He. }
  destruct (is_empty (net c)); [exact (Ho K)|]. intros [= <-].
  apply allv_update; [apply allv_filter; exact Hn|].
  destruct (from_override c o LHeaders) as [e|]; [exact (Ho e eq_refl) | intros ? ? []].
Qed.
Lemma kwarg_says m v c o :
  has_override c = true -> allv m v (net c) -> says m v (entry c o LHeaders) ->
  exists K, strategy_kwarg c o LHeaders = Some K /\ says m v K.
Proof.
  intros Hov Hn He. unfold strategy_kwarg, from_override. rewrite Hov, (says_nonempty _ _ _ He).
  destruct (is_empty (net c)).
  - (* no --header: the kwarg is the override entry *) exists (entry c o LHeaders). auto.
  - (* --header given: its entries, minus user-agent, updated with the override entry *)
    eexists. split; [reflexivity|]. apply says_update_r; [apply allv_filter; exact Hn | exact He].
Qed.

Lemma ok_cov_apply n v h kw :
  h_ok n v h -> (forall K, kw = Some K -> allv (leq n) v K) -> outside_F3 n = true -> h_ok n v (cov_apply_h h kw).
Proof.
  intros Hok HK HF. destruct kw as [K|]; [|exact Hok]. specialize (HK K eq_refl).
  destruct h; [cbn; auto | apply (ok_update n v (HPlain d)); assumption | apply (ok_update n v (HCI d)); assumption].
Qed.
Lemma has_cov_apply n v h K :
  h_ok n v h -> says (leq n) v K -> outside_F3 n = true -> h_has n v (cov_apply_h h (Some K)).
Proof.
  intros Hok HK HF. destruct h; [cbn; auto | |]; (apply has_update_r; [exact Hok | discriminate | exact HK]).
Qed.

Lemma ok_sf_apply n v c e h :
  h_ok n v h -> allv (leq n) v e -> outside_F3 n = true -> h_ok n v (sf_apply_h c e h).
Proof.
  intros Hok He HF. unfold sf_apply_h. destruct (has_override c && negb (is_empty e)); [|exact Hok].
  assert (HP : h_ok n v (HPlain (assoc_update [] e))) by (split; [apply allv_update; [intros ? ? []|]|]; assumption).
  destruct h as [|[|]|[|]]; try exact HP; apply ok_update; assumption.
Qed.
Lemma has_sf_apply n v c e h :
  has_override c = true -> h_ok n v h -> says (leq n) v e -> outside_F3 n = true -> h_has n v (sf_apply_h c e h).
Proof.
  intros Hov Hok He HF. unfold sf_apply_h. rewrite Hov, (says_nonempty _ _ _ He). cbn [andb negb].
  assert (HP : h_has n v (HPlain (assoc_update [] e))) by (split; [apply says_update_r; [intros ? ? []|]|]; assumption).
  destruct h as [|[|]|[|]]; try exact HP; (apply has_update_r; [exact Hok | discriminate | exact He]).
Qed.

Lemma has_of_items n v X : says (leq n) v X -> h_has n v (HCI (ci_of_items X)).
Proof. intros HX. exact (has_update_r n v (HCI []) X wf_nil ltac:(discriminate) HX). Qed.

Lemma gen_value_nonempty K gen : is_empty K = false ->
  gen_value (Some K) gen = Some (match gen with Some g => assoc_update K g | None => K end).
Proof. destruct K; [discriminate|]. intros _. destruct gen; reflexivity. Qed.

(* explicit headers survive generation: the generator adds other names only *)
Lemma has_gen_value n v K gen :
  says (leq n) v K -> no_ci_key n gen = true -> h_has n v (to_case_headers (gen_value (Some K) gen)).
Proof.
  intros HK Hg. rewrite gen_value_nonempty by exact (says_nonempty _ _ _ HK). cbn [to_case_headers].
  destruct gen as [g|]; apply has_of_items; [|exact HK].
  apply says_update_l; [exact HK | apply nokey_allv; exact Hg].
Qed.

Lemma case_headers_ok ph c o ex gen n v :
  ci_user n (net c) = Some v ->
  ((ph = Coverage \/ ph = Stateful) -> outside_F3 n = true) ->
  ((ph = Coverage \/ ph = Stateful) -> no_ci_key n (Some (entry c o LHeaders)) = true) ->
  h_ok n v (case_headers ph c o ex gen).
Proof.
  intros Hu HF Hs. destruct (ci_user_says _ _ _ Hu) as [Hn _].
  unfold case_headers. destruct ph; cbn [case_headers_with]; try apply to_case_headers_ok.   (* Examples, Fuzzing *)
  - (* Coverage *) apply ok_cov_apply; [apply to_case_headers_ok | | auto].
    intros K. apply kwarg_allv; [exact Hn | apply nokey_allv; auto].
  - (* Stateful *) apply ok_sf_apply; [apply to_case_headers_ok | apply nokey_allv; auto | auto].
Qed.

Lemma override_header_case ph c o ex gen n v :
  has_override c = true ->
  ci_user n (entry c o LHeaders) = Some v ->
  outside_F4 c n = true ->
  ((ph = Fuzzing \/ ph = Examples) -> no_ci_key n gen = true) ->
  ((ph = Coverage \/ ph = Stateful) -> outside_F3 n = true) ->
  h_has n v (case_headers ph c o ex gen).
Proof.
  intros Hov Hu H4 Hg HF. pose proof (ci_user_says _ _ _ Hu) as He.
  destruct (kwarg_says (leq n) v c o Hov (nokey_allv _ _ _ H4) He) as [K [HK KS]].
  unfold case_headers. rewrite HK. destruct ph; cbn [case_headers_with example_explicit].
  - (* Examples *) apply has_gen_value; auto.
  - (* Coverage *) apply has_cov_apply; [apply to_case_headers_ok | exact KS | auto].
  - (* Fuzzing *) apply has_gen_value; auto.
  - (* Stateful *) apply has_sf_apply; [exact Hov | apply to_case_headers_ok | exact He | auto].
Qed.

Lemma get_nonempty n v (d : dict) : assoc_get n d = Some v -> is_empty d = false.
Proof. destruct d; [discriminate | reflexivity]. Qed.

(* query / cookies / path through the pipeline functions, for a name the operation's override entry gives *)
Lemma strategy_kwarg_entry c o l :
  l <> LHeaders -> has_override c = true -> is_empty (entry c o l) = false ->
  strategy_kwarg c o l = Some (entry c o l).
Proof.
  intros Hl Hov Hne. unfold strategy_kwarg, from_override. rewrite Hov, Hne. destruct l; try reflexivity. contradiction.
Qed.
Lemma gen_value_keeps e gen n v :
  excl_ok (Some e) gen = true -> assoc_get n e = Some v -> oget n (gen_value (Some e) gen) = Some v.
Proof.
  intros Hex Hg. rewrite gen_value_nonempty by exact (get_nonempty _ _ _ Hg).
  destruct gen as [g|]; cbn [oget]; [apply excl_keeps; assumption | exact Hg].
Qed.
Lemma cov_apply_wins c o l n v gen :
  assoc_get n (entry c o l) = Some v -> oget n (cov_apply gen (Some (entry c o l))) = Some v.
Proof. intros Hg. destruct gen as [g|]; cbn [cov_apply oget]; [apply entry_update_wins|]; exact Hg. Qed.
Lemma sf_apply_wins c o l n v x :
  has_override c = true -> assoc_get n (entry c o l) = Some v -> oget n (sf_apply c (entry c o l) x) = Some v.
Proof.
  intros Hov Hg. unfold sf_apply. rewrite Hov, (get_nonempty _ _ _ Hg). cbn [andb negb].
  destruct x as [[|p r]|]; cbn [oget]; apply entry_update_wins; exact Hg.
Qed.

Lemma sanitize_get n d : assoc_get n (sanitize_dict d) = if sensitive n then option_map (fun _ => FILTERED) (assoc_get n d) else assoc_get n d.
Proof.
  unfold sanitize_dict. induction d as [|[k x] r IH]; cbn [map assoc_get fst]; [destruct (sensitive n); reflexivity|].
  destruct (str_eqb n k) eqn:E.
  - apply str_eqb_spec in E; subst k. destruct (sensitive n); cbn [assoc_get option_map]; rewrite str_eqb_refl; reflexivity.
  - destruct (sensitive k); cbn [assoc_get]; rewrite E; exact IH.
Qed.

Lemma pre_send_keeps c l n x : outside_F2 c l n = true -> oget n (pre_send_loc c l x) = oget n x.
Proof.
  unfold outside_F2, pre_send_loc, pre_send. intros H. apply negb_true_iff in H.
  destruct (sanitized_loc l); [|reflexivity]. destruct (unique_inputs c); [|reflexivity].
  destruct (sanitize c); [|reflexivity]. cbn [andb] in H.
  destruct x as [d|]; [|reflexivity]. cbn [andb option_map oget]. rewrite sanitize_get, H. reflexivity.
Qed.

(* the ignored_auth probe (checks.py remove_auth) *)
Lemma probe_dict_spec names x n :
  oget n (probe_dict names x) = if existsb (str_eqb n) names then None else oget n x.
Proof.
  destruct x as [[|p r]|]; cbn [probe_dict oget]; try (destruct (existsb (str_eqb n) names); reflexivity).
  apply pop_all_get.
Qed.
Lemma probe_headers_spec names h n :
  hget n (probe_headers names h) =
  match h with
  | HCI _ => if existsb (leq n) names then None else hget n h
  | _ => if existsb (str_eqb n) names then None else hget n h
  end.
Proof.
  destruct h as [|[|p r]|[|p r]]; cbn [probe_headers hget]; try (destruct (existsb _ names); reflexivity).
  - apply pop_all_get.
  - apply ci_pop_all_get.
Qed.

Lemma storage_set_spec ps i d :
  storage_set ps = Some (i, d) <->
  exists pre p post, ps = pre ++ p :: post /\ Forall (fun q => sel_get q = None) pre /\ sel_get p = Some d /\ p_id p = i.
Proof.
  split.
  - induction ps as [|p r IH]; cbn; [discriminate|].
    destruct (sel_get p) as [d0|] eqn:G.
    + intros [= <- <-]. exists [], p, r. auto.
    + intros H. destruct (IH H) as (pre & p' & post & -> & Hf & Hs & Hi).
      exists (p :: pre), p', post. split; [reflexivity|]. split; [constructor; assumption | auto].
  - intros (pre & p & post & -> & Hf & Hs & Hi). induction Hf as [|q pre Hq Hf IH]; cbn.
    + rewrite Hs, Hi. reflexivity.
    + rewrite Hq. exact IH.
Qed.

(* F3: --header user-agent: mine ([109;105;110;101] = "mine").  On a plain dict the default User-Agent is
   added case-sensitively and wins on the wire *)
Definition c_F3 : cfg :=
  {| net := [(user_agent_lower, [109;105;110;101])]; auth := None; has_override := false;
     ov_query := []; ov_headers := []; ov_cookies := []; ov_path := []; unique_inputs := false; sanitize := true |}.
Definition o_none : oper := {| d_query := []; d_headers := []; d_cookies := []; d_path := [] |}.
Lemma F3_witness :
  ci_user user_agent_lower (net c_F3) = Some [109;105;110;101] /\
  ci_get user_agent_lower (wire Coverage c_F3 o_none None None [115;116] [49] []) = Some [115;116] /\
  ci_get user_agent_lower (wire Fuzzing c_F3 o_none None None [115;116] [49] []) = Some [109;105;110;101].
Proof. repeat split; vm_compute; reflexivity. Qed.

(* s_xover = "X-Over", s_xg = "X-G".  c_F1: --header X-C: 1 with --set-header X-Over=OV, on an operation
   that declares X-Over; the configuration on which get_strategy_kwargs_prefix (the rule before repo commit
   9a3b607c) and strategy_kwarg differ *)
Definition s_xover : str := [88;45;79;118;101;114].
Definition s_xg : str := [88;45;71].
Definition c_F1 : cfg :=
  {| net := [([88;45;67], [49])]; auth := None; has_override := true;
     ov_query := []; ov_headers := [(s_xover, [79;86])]; ov_cookies := []; ov_path := [];
     unique_inputs := false; sanitize := true |}.
Definition o_F1 : oper := {| d_query := []; d_headers := [s_xover]; d_cookies := []; d_path := [] |}.

(* F4: --header X-Over: NET with --set-header X-Over=OV: the --header value is what is sent *)
Definition c_F4 : cfg :=
  {| net := [(s_xover, [78;69;84])]; auth := None; has_override := true;
     ov_query := []; ov_headers := [(s_xover, [79;86])]; ov_cookies := []; ov_path := [];
     unique_inputs := false; sanitize := true |}.

(* c_F4b: the same with --header spelled x-over.  On the plain-dict path of the coverage phase the override is
   then the last spelling in the dict and requests lets it win; everywhere else --header wins *)
Definition c_F4b : cfg :=
  {| net := [([120;45;111;118;101;114], [78;69;84])]; auth := None; has_override := true;
     ov_query := []; ov_headers := [(s_xover, [79;86])]; ov_cookies := []; ov_path := [];
     unique_inputs := false; sanitize := true |}.
Lemma F4_plain_dict_inconsistency :
  ci_get s_xover (wire Coverage c_F4b o_F1 None None [115;116] [49] []) = Some [79;86] /\
  ci_get s_xover (wire Coverage c_F4b o_F1 None (Some [(s_xg, [71])]) [115;116] [49] []) = Some [78;69;84] /\
  ci_get s_xover (wire Fuzzing c_F4b o_F1 None None [115;116] [49] []) = Some [78;69;84].
Proof. repeat split; vm_compute; reflexivity. Qed.

(* F2: --set-query api_key=S, --set-cookie api_key=S with unique_inputs: hashing the case sanitizes
   case.query / case.cookies in place *)
Definition s_api_key : str := [97;112;105;95;107;101;121].
Definition c_F2 : cfg :=
  {| net := []; auth := None; has_override := true;
     ov_query := [(s_api_key, [83])]; ov_headers := []; ov_cookies := [(s_api_key, [83])]; ov_path := [];
     unique_inputs := true; sanitize := true |}.
Definition o_F2 : oper := {| d_query := [s_api_key]; d_headers := []; d_cookies := [s_api_key]; d_path := [] |}.
Lemma F2_witness :
  assoc_get s_api_key (entry c_F2 o_F2 LQuery) = Some [83] /\
  oget s_api_key (final_container Fuzzing c_F2 o_F2 LQuery None (Some [])) = Some FILTERED /\
  oget s_api_key (final_container Examples c_F2 o_F2 LQuery None (Some [])) = Some FILTERED /\
  oget s_api_key (final_container Coverage c_F2 o_F2 LCookies None (Some [(s_api_key, [71])])) = Some FILTERED /\
  oget s_api_key (final_container Stateful c_F2 o_F2 LQuery None (Some [(s_api_key, [71])])) = Some [83].
Proof. repeat split; vm_compute; reflexivity. Qed.

(* a configuration inside every region (--header X-C: 1, --set-query q=QV, --set-path id=42, operation
   declaring q, r, X-G, id): witness of C14_hypotheses_satisfiable *)
Definition c_ok : cfg :=
  {| net := [([88;45;67], [49])]; auth := Some [66]; has_override := true;
     ov_query := [([113], [81;86])]; ov_headers := []; ov_cookies := []; ov_path := [([105;100], [52;50])];
     unique_inputs := true; sanitize := true |}.
Definition o_ok : oper := {| d_query := [[113]; [114]]; d_headers := [[88;45;71]]; d_cookies := []; d_path := [[105;100]] |}.

(* ==== Part B: CachingAuthProvider.get as a transition system ==== *)

Lemma nget_nset A k k' (v : A) l : nget k' (nset k v l) = if N.eqb k' k then Some v else nget k' l.
Proof.
  induction l as [|[k2 v2] r IH]; cbn; [reflexivity|].
  destruct (N.eqb_spec k k2) as [<-|Hne]; cbn.
  - destruct (N.eqb k' k); reflexivity.
  - rewrite IH. destruct (N.eqb_spec k' k2) as [->|]; [|reflexivity].
    destruct (N.eqb_spec k2 k); [congruence | reflexivity].
Qed.

Definition fkey (f : N * N * N) : N := fst (fst f).
Definition ftime (f : N * N * N) : N := snd (fst f).

Definition critical (p : pc) : bool :=
  match p with
  | PReRead _ | PCheck2 _ _ _ | PHit _ _ _ _ | PFetch _ | PTime _ _ | PSet _ _ _ | PRel _ _ => true
  | _ => false
  end.

Definition fetched (fs : list (N * N * N)) (k d : N) : Prop := exists tm, In (k, tm, d) fs.
Definition covered (iv : N) (ch : list (N * (N * N))) (f : N * N * N) : Prop :=
  exists d e, nget (fkey f) ch = Some (d, e) /\ ftime f + iv <= e.

Fixpoint Sep (iv : N) (l : list (N * N * N)) : Prop :=
  match l with
  | [] => True
  | f :: r => (forall g, In g r -> fkey g = fkey f -> ftime g + iv <= ftime f) /\ Sep iv r
  end.

(* what a caller at program point p knows; depends on the shared variables only *)
Definition pc_inv (iv ck : N) (ch : list (N * (N * N))) (lk : option nat) (fs : list (N * N * N))
  (t : nat) (p : pc) : Prop :=
  (critical p = true -> lk = Some t) /\
  match p with
  | PCheck1 k d e => fetched fs k d
  | PReRead k => Forall (covered iv ch) fs
  | PCheck2 k d e => nget k ch = Some (d, e) /\ fetched fs k d /\ Forall (covered iv ch) fs
  | PHit k d e now => now < e /\ fetched fs k d /\ Forall (covered iv ch) fs
  | PFetch k => (forall f, In f fs -> fkey f = k -> ftime f + iv <= ck) /\ Forall (covered iv ch) fs
  | PTime k d => exists tm rest, fs = (k, tm, d) :: rest /\ Forall (covered iv ch) rest
  | PSet k d now => exists tm rest, fs = (k, tm, d) :: rest /\ Forall (covered iv ch) rest /\
                                    (forall f, In f fs -> ftime f <= now)
  | PRel k d => fetched fs k d /\ Forall (covered iv ch) fs
  | _ => True
  end.

Definition pcs_ok (iv ck : N) (ch : list (N * (N * N))) (lk : option nat) (fs : list (N * N * N))
  (ps : list pc) : Prop :=
  forall t p, nth_error ps t = Some p -> pc_inv iv ck ch lk fs t p.

Definition ret_ok (fs : list (N * N * N)) (r : nat * N * N * rkind) : Prop :=
  let '(_, k, d, how) := r in
  fetched fs k d /\ match how with RFast e now | RHit e now => now < e | RFresh => True end.

Record Inv (iv : N) (s : st) : Prop := {
  I_pc : pcs_ok iv (clock s) (cache s) (lock s) (fetches s) (pcs s);
  I_time : forall f, In f (fetches s) -> ftime f <= clock s;
  I_sep : Sep iv (fetches s);
  I_free : lock s = None -> Forall (covered iv (cache s)) (fetches s);
  I_cache : forall k d e, nget k (cache s) = Some (d, e) -> fetched (fetches s) k d;
  I_rets : Forall (ret_ok (fetches s)) (rets s)
}.

Lemma init_inv iv n : Inv iv (init n).
Proof.
  constructor; cbn.
  - intros t p H. apply nth_error_In, repeat_spec in H. subst p. split; [discriminate | exact I].
  - intros f [].
  - exact I.
  - constructor.
  - discriminate.
  - constructor.
Qed.

(* a caller that is not in the critical section keeps what it knows when the log only grows *)
Lemma noncritical_frame iv ck ch lk fs ck' ch' lk' fs' j q :
  pc_inv iv ck ch lk fs j q -> critical q = false ->
  (forall k d, fetched fs k d -> fetched fs' k d) ->
  pc_inv iv ck' ch' lk' fs' j q.
Proof.
  intros [_ H] Hc Hm. split; [rewrite Hc; discriminate|].
  destruct q; cbn in *; try discriminate; auto.
Qed.

(* caller t holds the lock, or takes it: nobody else is in the critical section, so t may change
   the shared variables as long as the log only grows *)
Lemma owner_step iv s t p' ck' ch' lk' fs' :
  Inv iv s -> lock s = None \/ lock s = Some t ->
  (forall k d, fetched (fetches s) k d -> fetched fs' k d) ->
  pc_inv iv ck' ch' lk' fs' t p' -> pcs_ok iv ck' ch' lk' fs' (upd t p' (pcs s)).
Proof.
  intros HI Hlk Hm Hme. unfold pcs_ok.
  apply (upd_all _ (pc_inv _ _ _ _ _) (pc_inv iv ck' ch' lk' fs') _ _ _ (I_pc _ _ HI) Hme). intros j q Hne Hj.
  apply (noncritical_frame _ _ _ _ _ _ _ _ _ _ _ Hj); [|exact Hm].
  destruct (critical q) eqn:E; [|reflexivity]. pose proof (proj1 Hj E). destruct Hlk; congruence.
Qed.

Lemma fetched_cons fs f k d : fetched fs k d -> fetched (f :: fs) k d.
Proof. intros [tm H]; exists tm; right; exact H. Qed.

Lemma ret_ok_mono fs f r : ret_ok fs r -> ret_ok (f :: fs) r.
Proof. destruct r as [[[t k] d] how]. intros [H1 H2]. split; [apply fetched_cons|]; assumption. Qed.

(* a store for k at time now covers the fetches of k made so far, and keeps the others covered *)
Lemma covered_nset iv ch k d now f :
  covered iv ch f \/ fkey f = k -> ftime f <= now -> covered iv (nset k (d, now + iv) ch) f.
Proof.
  intros H Hn. unfold covered. rewrite nget_nset. destruct (N.eqb_spec (fkey f) k) as [_|Hne].
  - exists d, (now + iv). split; [reflexivity | lia].
  - destruct H as [(d' & e' & Hg & Hle)|Hk]; [exists d', e'; auto | contradiction].
Qed.

Lemma inv_tick iv s dt : Inv iv s ->
  Inv iv {| clock := clock s + dt; cache := cache s; lock := lock s; pcs := pcs s;
            fetches := fetches s; rets := rets s |}.
Proof.
  intros HI. constructor; cbn; try apply HI.
  - intros t p Hp. destruct (I_pc _ _ HI _ _ Hp) as [Hc Hk]. split; [exact Hc|].
    destruct p; auto. destruct Hk as [Hk1 Hk2]. split; [|exact Hk2].
    intros f Hf He. specialize (Hk1 f Hf He). lia.
  - intros f Hf. pose proof (I_time _ _ HI f Hf). lia.
Qed.

Lemma inv_move iv s t p' :
  Inv iv s -> pc_inv iv (clock s) (cache s) (lock s) (fetches s) t p' -> Inv iv (set_pc s t p').
Proof.
  intros HI Hp. constructor; cbn; try apply HI. exact (upd_all _ (pc_inv _ _ _ _ _) (pc_inv _ _ _ _ _) _ _ _ (I_pc _ _ HI) Hp (fun _ _ _ H => H)).
Qed.

Lemma inv_add_ret iv s r : Inv iv s -> ret_ok (fetches s) r -> Inv iv (add_ret s r).
Proof. intros HI Hr. constructor; cbn; try apply HI. constructor; [exact Hr | apply HI]. Qed.

Lemma inv_acquire iv s t p' :
  Inv iv s -> lock s = None -> pc_inv iv (clock s) (cache s) (Some t) (fetches s) t p' ->
  Inv iv (set_pc (set_lock s (Some t)) t p').
Proof.
  intros HI Hl Hp. constructor; cbn; try apply HI; [|discriminate].
  apply (owner_step iv s); [exact HI | left; exact Hl | auto | exact Hp].
Qed.

Lemma inv_release iv s t r :
  Inv iv s -> lock s = Some t -> Forall (covered iv (cache s)) (fetches s) -> ret_ok (fetches s) r ->
  Inv iv (set_pc (add_ret (set_lock s None) r) t Idle).
Proof.
  intros HI Hl Hcov Hr. constructor; cbn; try apply HI.
  - apply (owner_step iv s); [exact HI | right; exact Hl | auto |].
    split; [discriminate | exact I].
  - intros _. exact Hcov.
  - constructor; [exact Hr | apply HI].
Qed.

Lemma inv_fetch iv s t k d :
  Inv iv s -> lock s = Some t ->
  (forall f, In f (fetches s) -> fkey f = k -> ftime f + iv <= clock s) ->
  Forall (covered iv (cache s)) (fetches s) ->
  Inv iv (set_pc {| clock := clock s; cache := cache s; lock := lock s; pcs := pcs s;
                    fetches := (k, clock s, d) :: fetches s; rets := rets s |} t (PTime k d)).
Proof.
  intros HI Hl Hsep Hcov. constructor; cbn.
  - apply (owner_step iv s); [exact HI | right; exact Hl | intros k' d'; apply fetched_cons |].
    split; [intros _; exact Hl|]. exists (clock s), (fetches s). split; [reflexivity | exact Hcov].
  - intros f [<-|Hf]; [cbn; lia | exact (I_time _ _ HI f Hf)].
  - split; [exact Hsep | exact (I_sep _ _ HI)].
  - rewrite Hl. discriminate.
  - intros k' d' e' Hg. apply fetched_cons. exact (I_cache _ _ HI _ _ _ Hg).
  - eapply Forall_impl; [|exact (I_rets _ _ HI)]. intros r. apply ret_ok_mono.
Qed.

Lemma inv_store iv s t k d now tm rest :
  Inv iv s -> lock s = Some t -> fetches s = (k, tm, d) :: rest ->
  Forall (covered iv (cache s)) rest -> (forall f, In f (fetches s) -> ftime f <= now) ->
  Inv iv (set_pc {| clock := clock s; cache := nset k (d, now + iv) (cache s); lock := lock s; pcs := pcs s;
                    fetches := fetches s; rets := rets s |} t (PRel k d)).
Proof.
  intros HI Hl Hfs Hcov Hnow.
  assert (Hfd : fetched (fetches s) k d) by (exists tm; rewrite Hfs; left; reflexivity).
  assert (Hall : Forall (covered iv (nset k (d, now + iv) (cache s))) (fetches s)).
  { rewrite Forall_forall in *. intros f Hf. apply covered_nset; [|exact (Hnow f Hf)].
    rewrite Hfs in Hf. destruct Hf as [<-|Hf]; [right; reflexivity | left; exact (Hcov f Hf)]. }
  constructor; cbn; try apply HI.
  - apply (owner_step iv s); [exact HI | right; exact Hl | auto |].
    split; [intros _; exact Hl | split; [exact Hfd | exact Hall]].
  - rewrite Hl. discriminate.
  - intros k' d' e'. rewrite nget_nset. destruct (N.eqb_spec k' k) as [->|_]; [|apply HI].
    intros Hg. injection Hg as <- _. exact Hfd.
Qed.

Lemma step_inv iv s l : Inv iv s -> Inv iv (step true iv s l).
Proof.
  intros HI. destruct l as [dt | t k | t]; cbn [step].
  - (* Tick *) apply inv_tick. exact HI.
  - (* Call *) destruct (nth_error (pcs s) t) as [[]|]; try exact HI.
    apply inv_move; [exact HI | split; [discriminate | exact I]].
  - (* Th *) destruct (nth_error (pcs s) t) as [p|] eqn:Hp; [|exact HI].
    destruct (I_pc _ _ HI _ _ Hp) as [Hown Hk].
    destruct p; cbn [thread_step]; cbn in Hown, Hk.
    + (* Idle *) exact HI.
    + (* PRead *)
      destruct (nget k (cache s)) as [[d e]|] eqn:Hg; apply inv_move; try exact HI; (split; [discriminate|]).
      * exact (I_cache _ _ HI _ _ _ Hg).
      * exact I.
    + (* PCheck1 *)
      destruct (N.leb_spec e (clock s)) as [_|Hlt].
      * apply inv_move; [exact HI | split; [discriminate | exact I]].
      * apply inv_move; [apply inv_add_ret; [exact HI | split; assumption] | split; [discriminate | exact I]].
    + (* PAcq *)
      destruct (lock s) eqn:Hl; [exact HI|].
      apply inv_acquire; [exact HI | exact Hl | split; [reflexivity | exact (I_free _ _ HI Hl)]].
    + (* PReRead: no entry for k means no fetch of k so far *)
      destruct (nget k (cache s)) as [[d e]|] eqn:Hg; apply inv_move; try exact HI; (split; [exact Hown|]).
      * split; [exact Hg|]. split; [exact (I_cache _ _ HI _ _ _ Hg) | exact Hk].
      * split; [|exact Hk]. intros f Hf He.
        rewrite Forall_forall in Hk. destruct (Hk f Hf) as (d' & e' & Hg' & _). congruence.
    + (* PCheck2: an expired entry covers every fetch of k, so they are all an interval old *)
      destruct Hk as (Hg & Hfd & Hcov).
      destruct (N.leb_spec e (clock s)) as [Hle|Hlt]; apply inv_move; try exact HI; (split; [exact Hown|]).
      * split; [|exact Hcov]. intros f Hf He.
        rewrite Forall_forall in Hcov. destruct (Hcov f Hf) as (d' & e' & Hg' & Hle').
        rewrite He, Hg in Hg'. injection Hg' as <- <-. lia.
      * auto.
    + (* PHit *)
      destruct Hk as (Hlt & Hfd & Hcov).
      apply inv_release; [exact HI | exact (Hown eq_refl) | exact Hcov | split; assumption].
    + (* PFetch *)
      destruct Hk as (Hsep & Hcov).
      apply inv_fetch; [exact HI | exact (Hown eq_refl) | exact Hsep | exact Hcov].
    + (* PTime: the clock read here is later than every logged fetch *)
      destruct Hk as (tm & rest & Hfs & Hcov).
      apply inv_move; [exact HI | split; [exact Hown|]].
      exists tm, rest. split; [exact Hfs|]. split; [exact Hcov | exact (I_time _ _ HI)].
    + (* PSet *)
      destruct Hk as (tm & rest & Hfs & Hcov & Hnow).
      exact (inv_store iv s t k d now tm rest HI (Hown eq_refl) Hfs Hcov Hnow).
    + (* PRel *)
      destruct Hk as (Hfd & Hcov).
      apply inv_release; [exact HI | exact (Hown eq_refl) | exact Hcov | split; [exact Hfd | exact I]].
Qed.

Lemma reachable_inv iv n sched : Inv iv (run true iv sched (init n)).
Proof. exact (fold_left_inv _ (Inv iv) (step_inv iv) sched _ (init_inv iv n)). Qed.

(* every return is justified by the log: the token was fetched for that key, and a return from
   the cache (fast path or re-check) read the clock before the entry expired *)
Lemma returns_justified iv n sched r :
  In r (rets (run true iv sched (init n))) -> ret_ok (fetches (run true iv sched (init n))) r.
Proof. apply Forall_forall. exact (I_rets _ _ (reachable_inv iv n sched)). Qed.

Lemma Sep_app iv x f y :
  Sep iv (x ++ f :: y) -> forall g, In g y -> fkey g = fkey f -> ftime g + iv <= ftime f.
Proof.
  induction x as [|a x IH]; cbn; intros [H1 H2]; [exact H1 | exact (IH H2)].
Qed.

(* Sep, read on the chronological log *)
Lemma Sep_chrono iv fs l1 f l2 g l3 :
  Sep iv fs -> rev fs = l1 ++ f :: l2 ++ g :: l3 -> fkey f = fkey g -> ftime f + iv <= ftime g.
Proof.
  intros HS H. apply (f_equal (@rev _)) in H. rewrite rev_involutive in H. subst fs.
  rewrite rev_app_distr in HS. cbn [rev] in HS. rewrite rev_app_distr in HS. cbn [rev] in HS.
  rewrite <- !app_assoc in HS. cbn [app] in HS.
  apply (Sep_app iv _ _ _ HS). apply in_or_app. right. left. reflexivity.
Qed.

Lemma critical_holds_lock iv s t p :
  Inv iv s -> nth_error (pcs s) t = Some p -> critical p = true -> lock s = Some t.
Proof. intros HI Hp. exact (proj1 (I_pc _ _ HI _ _ Hp)). Qed.

(* while nobody holds the lock, every logged fetch is covered *)
Lemma lock_free_all_covered iv n sched f :
  lock (run true iv sched (init n)) = None -> In f (fetches (run true iv sched (init n))) ->
  exists d e, nget (fkey f) (cache (run true iv sched (init n))) = Some (d, e) /\ ftime f + iv <= e.
Proof.
  intros Hl Hf. pose proof (I_free _ _ (reachable_inv iv n sched) Hl) as H.
  rewrite Forall_forall in H. exact (H f Hf).
Qed.

(* regression witness: without the re-check under the lock two callers both fetch *)
Definition sched_race : list label :=
  [Call 0 7; Call 1 7; Th 0; Th 1;         (* both read an empty cache *)
   Th 0; Th 0; Th 0; Th 0; Th 0;          (* caller 0: acquire, fetch, timer, store, release *)
   Th 1; Th 1].                           (* caller 1: acquire, fetch again *)

(* the same schedule on the code as it is: one fetch, the second caller is served from the cache *)
Lemma recheck_same_schedule :
  fetch_log (run true 300 (sched_race ++ [Th 0; Th 1; Th 1; Th 1; Th 1]) (init 2)) = [(7, 0, 1)] /\
  map ret_obs (rev (rets (run true 300 (sched_race ++ [Th 0; Th 1; Th 1; Th 1; Th 1]) (init 2)))) = [(0%nat, 7, 1, 2); (1%nat, 7, 1, 1)].
Proof. split; vm_compute; reflexivity. Qed.

Definition sched_demo : list label :=
  [Call 0 1; Th 0; Th 0; Th 0; Th 0; Th 0; Th 0; Th 0;   (* fetch key 1 at 0 *)
   Tick 10; Call 1 1; Th 1; Th 1;                  (* fast path at 10 *)
   Call 0 2; Th 0; Th 0; Th 0; Th 0; Th 0; Th 0; Th 0;   (* key 2 fetched at 10 *)
   Tick 290; Call 1 1; Th 1; Th 1; Th 1; Th 1; Th 1; Th 1; Th 1; Th 1; Th 1].  (* key 1 expired at 300: refetch *)

(* ==== Part C: EngineContext.session as a transition system ==== *)

Lemma configured_spec c dflt :
  configured c dflt =
  {| s_verify := n_verify c; s_auth := n_auth c; s_headers := session_headers dflt (n_headers c); s_cert := n_cert c;
     s_proxies := match n_proxy c with Some p => [(K_ALL, p)] | None => [] end |}.
Proof.
  destruct c as [v a hs ce px]. unfold configured, todo, bare, session_headers. cbn [n_verify n_auth n_headers n_cert n_proxy].
  destruct a, hs, ce, px; reflexivity.
Qed.

Section SessionInit.
Variables (c : ncfg) (dflt : dict) (ex : option sess).

Definition fin : sess := match ex with Some x => x | None => configured c dflt end.

Definition pub_ok (h : list sess) (ps : list spc) (o : nat) : Prop :=
  nth_error h o = Some fin /\ forall t r, nth_error ps t <> Some (SConf o r).

Definition spc_ok (h : list sess) (ps : list spc) (a : option nat) (t : nat) (p : spc) : Prop :=
  match p with
  | SIdle | SLook | SGet | SExpl | SRetE => True
  | SNew => ex = None
  | SConf o r => r <> [] /\ (exists x, nth_error h o = Some x /\ apply_fields c r x = fin) /\
                 (forall t' r', t' <> t -> nth_error ps t' <> Some (SConf o r'))
  | SPub o => pub_ok h ps o
  | SPubA _ | SConfA _ | SRetA => False
  end.

Definition Core (h : list sess) (ps : list spc) (a : option nat) : Prop :=
  (a = None -> ex = None) /\ (forall o, a = Some o -> pub_ok h ps o) /\
  (forall t p, nth_error ps t = Some p -> spc_ok h ps a t p).

(* a step of a reader from p to p' that takes the heap from h to h' leaves alone every object
   the reader is not configuring at p: its attributes stay, and p' does not configure it *)
Definition frames (h h' : list sess) (p p' : spc) : Prop :=
  forall o x, nth_error h o = Some x -> (forall r, p <> SConf o r) ->
  nth_error h' o = Some x /\ forall r, p' <> SConf o r.

Definition not_conf (p : spc) : Prop := match p with SConf _ _ => False | _ => True end.

Lemma frames_move h p p' : not_conf p' -> frames h h p p'.
Proof. intros Hn o x Hx _. split; [exact Hx | intros r ->; exact Hn]. Qed.

Lemma frames_alloc h y p r0 : frames h (h ++ [y]) p (SConf (length h) r0).
Proof.
  intros o x Hx _. pose proof (nth_some_lt _ _ _ _ Hx) as Hlt.
  split; [rewrite nth_error_app1 by exact Hlt; exact Hx|].
  intros r Heq. injection Heq as Ho _. lia.
Qed.

Lemma after_conf_obj o o' r r' : after_conf o r = SConf o' r' -> o' = o.
Proof. destruct r; cbn; intros H; [discriminate | congruence]. Qed.

Lemma frames_conf h o f r y : frames h (upd o y h) (SConf o (f :: r)) (after_conf o r).
Proof.
  intros o' x Hx Hp. assert (Hne : o' <> o) by (intros ->; exact (Hp _ eq_refl)).
  split; [rewrite nth_upd_other by exact Hne; exact Hx|].
  intros r' Heq. apply after_conf_obj in Heq. congruence.
Qed.

Lemma pub_frame h h' ps t p p' o :
  nth_error ps t = Some p -> frames h h' p p' -> pub_ok h ps o -> pub_ok h' (upd t p' ps) o.
Proof.
  intros Ht Hfr [Hh Hc].
  destruct (Hfr o fin Hh) as [Hh' Hp']; [intros r ->; exact (Hc t r Ht)|].
  split; [exact Hh'|]. intros t' r H. apply nth_upd in H.
  destruct H as [[_ Heq] | [_ H]]; [exact (Hp' r (eq_sym Heq)) | exact (Hc _ _ H)].
Qed.

(* the frame lemma: the other readers keep what they know, because what they know is about
   objects that are private to them or that nobody configures *)
Lemma core_frame h h' ps a t p p' :
  Core h ps a -> nth_error ps t = Some p -> frames h h' p p' ->
  spc_ok h' (upd t p' ps) a t p' -> Core h' (upd t p' ps) a.
Proof.
  intros (Ha & Hp & Hpc) Ht Hfr Hnew. split; [exact Ha|]. split.
  - intros o Ho. exact (pub_frame _ _ _ _ _ _ _ Ht Hfr (Hp o Ho)).
  - apply (upd_all _ (spc_ok h ps a) (spc_ok h' (upd t p' ps) a) _ _ _ Hpc Hnew). intros j q Hne Hj.
    destruct q; cbn [spc_ok] in *; auto.
    + destruct Hj as (Hr & (x & Hx & Hf) & Hu).
      destruct (Hfr o x Hx) as [Hx' Hp']; [intros r' ->; exact (Hu t r' (not_eq_sym Hne) Ht)|].
      split; [exact Hr|]. split; [exists x; auto|].
      intros t' r' Hne' H. apply nth_upd in H.
      destruct H as [[_ Heq] | [_ H]]; [exact (Hp' r' (eq_sym Heq)) | exact (Hu _ _ Hne' H)].
    + exact (pub_frame _ _ _ _ _ _ _ Ht Hfr Hj).
Qed.

Record SInv (s : sst) : Prop := {
  SI_core : Core (heap s) (spcs s) (sattr s);
  SI_cached : forall o, cached s = Some o -> pub_ok (heap s) (spcs s) o;
  SI_gots : forall t o x, In (t, o, x) (gots s) -> x = fin /\ pub_ok (heap s) (spcs s) o;
  SI_sends : forall t o x, In (t, o, x) (sends s) -> x = fin
}.

Lemma sinv_frame s h' t p p' :
  SInv s -> nth_error (spcs s) t = Some p -> frames (heap s) h' p p' ->
  spc_ok h' (upd t p' (spcs s)) (sattr s) t p' ->
  SInv {| heap := h'; cached := cached s; sattr := sattr s; spcs := upd t p' (spcs s); gots := gots s; sends := sends s |}.
Proof.
  intros [Hc Hca Hg Hs] Ht Hfr Hnew.
  assert (Hm : forall o, pub_ok (heap s) (spcs s) o -> pub_ok h' (upd t p' (spcs s)) o)
    by (intros o; exact (pub_frame _ _ _ _ _ _ _ Ht Hfr)).
  split; cbn.
  - exact (core_frame _ _ _ _ _ _ _ Hc Ht Hfr Hnew).
  - intros o Ho. exact (Hm o (Hca o Ho)).
  - intros t' o x Hi. destruct (Hg _ _ _ Hi) as [-> Hp]. split; [reflexivity | exact (Hm o Hp)].
  - exact Hs.
Qed.

Lemma sinv_move s t p p' :
  SInv s -> nth_error (spcs s) t = Some p -> not_conf p' ->
  spc_ok (heap s) (spcs s) (sattr s) t p' -> SInv (set_spc s t p').
Proof.
  intros HI Ht Hn Hok. apply (sinv_frame s (heap s) t p p' HI Ht (frames_move _ _ _ Hn)).
  (* what t knows at p' mentions the pc list only at SPub o: nobody configures o, also after the move *)
  destruct p'; cbn [spc_ok] in *; auto.
  - (* SConf *) destruct Hn.
  - (* SPub *) exact (pub_frame _ _ _ _ _ _ _ Ht (frames_move _ _ _ Hn) Hok).
Qed.

(* reader t constructs a session: the new object is private to t *)
Lemma sinv_alloc s t p r0 :
  SInv s -> nth_error (spcs s) t = Some p -> r0 <> [] -> apply_fields c r0 (bare dflt) = fin ->
  SInv (set_spc (with_heap s (heap s ++ [bare dflt])) t (after_conf (length (heap s)) r0)).
Proof.
  intros HI Ht Hr0 Hfin. destruct r0 as [|f r0]; [congruence|]. cbn [after_conf].
  apply (sinv_frame s _ t p _ HI Ht (frames_alloc _ _ _ _)).
  split; [exact Hr0|]. split; [exists (bare dflt); split; [apply nth_app_new | exact Hfin]|].
  intros t' r' Hne H. rewrite nth_upd_other in H by exact Hne.
  destruct (proj2 (proj2 (SI_core _ HI)) _ _ H) as (_ & (x & Hx & _) & _). apply nth_some_lt in Hx. lia.
Qed.

Lemma sinv_conf s t o f r :
  SInv s -> nth_error (spcs s) t = Some (SConf o (f :: r)) ->
  SInv (set_spc (with_heap s (hmod o (set_field c f) (heap s))) t (after_conf o r)).
Proof.
  intros HI Ht. destruct (proj2 (proj2 (SI_core _ HI)) _ _ Ht) as (_ & (x & Hx & Hf0) & Hu0).
  unfold hmod. rewrite Hx. apply (sinv_frame s _ t _ _ HI Ht (frames_conf _ _ _ _ _)).
  assert (Hu : forall t' r', t' <> t -> nth_error (upd t (after_conf o r) (spcs s)) t' <> Some (SConf o r'))
    by (intros t' r' Hne H; rewrite nth_upd_other in H by exact Hne; exact (Hu0 _ _ Hne H)).
  assert (Hnew : nth_error (upd o (set_field c f x) (heap s)) o = Some (set_field c f x))
    by (eapply nth_upd_same; exact Hx).
  destruct r as [|f2 r2]; cbn [after_conf spc_ok].
  - split; [rewrite Hnew; f_equal; exact Hf0|].
    intros t' r' H. destruct (Nat.eq_dec t' t) as [->|Hne]; [|exact (Hu _ _ Hne H)].
    erewrite nth_upd_same in H by exact Ht. discriminate.
  - split; [discriminate|]. split; [exists (set_field c f x); split; [exact Hnew | exact Hf0] | exact Hu].
Qed.

Lemma sinv_got s t o : SInv s -> pub_ok (heap s) (spcs s) o ->
  SInv {| heap := heap s; cached := cached s; sattr := sattr s; spcs := spcs s; gots := (t, o, fin) :: gots s; sends := sends s |}.
Proof.
  intros [Hco Hca Hg Hs] Hp. split; cbn; auto.
  intros t' o' x [Heq | Hi]; [injection Heq as <- <- <-; split; [reflexivity | exact Hp] | exact (Hg _ _ _ Hi)].
Qed.

Lemma sinv_give s t p o : SInv s -> nth_error (spcs s) t = Some p -> pub_ok (heap s) (spcs s) o -> SInv (give s t o).
Proof.
  intros HI Ht Hp. unfold give. rewrite (proj1 Hp).
  apply (sinv_move _ t p); [apply sinv_got; assumption | exact Ht | exact I | exact I].
Qed.

(* a reader tests the cached slot: a hit hands out the published object *)
Lemma sinv_look s t p p' :
  SInv s -> nth_error (spcs s) t = Some p -> not_conf p' -> spc_ok (heap s) (spcs s) (sattr s) t p' ->
  SInv (match cached s with Some o => give s t o | None => set_spc s t p' end).
Proof.
  intros HI Ht Hn Hok. destruct (cached s) as [o|] eqn:Hc.
  - exact (sinv_give s t p o HI Ht (SI_cached _ HI _ Hc)).
  - exact (sinv_move s t p p' HI Ht Hn Hok).
Qed.

Lemma sinv_cached s o : SInv s -> pub_ok (heap s) (spcs s) o -> SInv (with_cached s (Some o)).
Proof.
  intros [Hco Hca Hg Hs] Hp. split; cbn; auto. intros o' Heq. injection Heq as <-. exact Hp.
Qed.

Lemma s_step_inv s l : SInv s -> SInv (s_step true c dflt s l).
Proof.
  intros HI. pose proof (SI_core _ HI) as (Ha & Hp & Hpc).
  destruct l as [t | t | t]; cbn [s_step].
  - (* SCall *) destruct (nth_error (spcs s) t) as [[]|] eqn:Ht; try exact HI.
    apply (sinv_move s t SIdle); [exact HI | exact Ht | exact I | exact I].
  - (* STh *) destruct (nth_error (spcs s) t) as [p|] eqn:Ht; [|exact HI].
    pose proof (Hpc _ _ Ht) as Hok.
    assert (Hmv : forall p', not_conf p' -> spc_ok (heap s) (spcs s) (sattr s) t p' -> SInv (set_spc s t p'))
      by (intros p'; exact (sinv_move s t p p' HI Ht)).
    destruct p; cbn [s_thread_step]; cbn in Hok.
    + (* SIdle *) exact HI.
    + (* SLook *) exact (sinv_look s t _ SGet HI Ht I I).
    + (* SGet *) exact (sinv_look s t _ SExpl HI Ht I I).
    + (* SExpl *)
      destruct (sattr s) as [o|] eqn:Hat; (apply Hmv; [exact I|]).
      * exact I.
      * exact (Ha eq_refl).
    + (* SRetE *)
      destruct (sattr s) as [o|] eqn:Hat; (apply Hmv; [exact I|]).
      * exact (Hp _ eq_refl).
      * exact I.
    + (* SNew: the assignments still to do lead from the bare object to the configured one *)
      apply (sinv_alloc s t _ (todo c) HI Ht); [discriminate | unfold fin; rewrite Hok; reflexivity].
    + (* SConf *)
      destruct r as [|f r']; [destruct Hok as [Hr _]; congruence|]. exact (sinv_conf s t o f r' HI Ht).
    + (* SPub *)
      eapply sinv_give; [apply sinv_cached; [exact HI | exact Hok] | exact Ht | exact Hok].
    + (* SPubA, SConfA, SRetA: pcs of the sentinel order, never reached here *) destruct Hok.
    + destruct Hok.
    + destruct Hok.
  - (* SUse *) destruct (last_got t (gots s)) as [o|] eqn:Hl; [|exact HI].
    unfold last_got in Hl. destruct (find _ (gots s)) as [e|] eqn:Hf; [|discriminate]. injection Hl as <-.
    apply find_some in Hf. destruct Hf as [Hin _]. destruct e as [[t' o] x]. cbn.
    destruct (SI_gots _ HI _ _ _ Hin) as [-> [Hh Hc]]. rewrite Hh.
    destruct HI as [Hco Hca Hg Hs]. split; cbn; auto.
    intros t2 o2 x2 [Heq | Hi]; [injection Heq as <- <- <-; reflexivity | exact (Hs _ _ _ Hi)].
Qed.

Lemma s_init_inv n : SInv (s_init n ex).
Proof.
  assert (Hidle : forall t p, nth_error (repeat SIdle n) t = Some p -> p = SIdle).
  { intros t p H. apply nth_error_In in H. apply repeat_spec in H. exact H. }
  split; cbn.
  - split; [|split].
    + destruct ex; [discriminate | reflexivity].
    + intros o Ho. unfold pub_ok, fin. destruct ex as [x|]; [|discriminate]. injection Ho as <-. split; [reflexivity|].
      intros t r H. apply Hidle in H. discriminate.
    + intros t p H. apply Hidle in H. subst p. exact I.
  - discriminate.
  - intros ? ? ? [].
  - intros ? ? ? [].
Qed.

End SessionInit.

Lemma s_reachable_inv c dflt ex n sched : SInv c dflt ex (s_run true c dflt sched (s_init n ex)).
Proof. exact (fold_left_inv _ (SInv c dflt ex) (s_step_inv c dflt ex) sched _ (s_init_inv c dflt ex n)). Qed.

Lemma session_is_fin c dflt ex n sched t o x :
  In (t, o, x) (gots (s_run true c dflt sched (s_init n ex))) \/
  In (t, o, x) (sends (s_run true c dflt sched (s_init n ex))) -> x = fin c dflt ex.
Proof.
  pose proof (s_reachable_inv c dflt ex n sched) as HI. intros [H | H].
  - exact (proj1 (SI_gots _ _ _ _ HI _ _ _ H)).
  - exact (SI_sends _ _ _ _ HI _ _ _ H).
Qed.

Definition c_sess : ncfg :=
  {| n_verify := V_TRUE; n_auth := Some [66;97;115;105;99;32;100;88;65;61]; n_headers := [([88;45;67], [49])];
     n_cert := None; n_proxy := None |}.
Definition d_sess : dict := [(USER_AGENT_NAME, [114]); ([65;99;99;101;112;116], [42;47;42])].

(* reader 0 creates and publishes the object, reader 1 asks for the session before reader 0 has set auth on it *)
Definition sched_publish_first : list slabel :=
  [SCall 0; SCall 1; STh 0; STh 0; STh 0; STh 1; STh 1; SUse 1; STh 0; STh 0; STh 0; STh 0].

(* both readers miss the cache, both build a session, the later publication wins; every reader
   got a complete one; a later read returns the published object *)
Definition sched_two_builders : list slabel :=
  [SCall 0; SCall 1; STh 0; STh 0; STh 0; STh 0; STh 1; STh 1; STh 1; STh 1; STh 0; STh 0; STh 0; STh 0; SUse 0;
   STh 1; STh 1; STh 1; STh 1; SCall 0; STh 0; SUse 0; SUse 1].
