(* The theorems of C12: what can still happen after a stop request or at the failure limit (unit-phase LTS of Model_C11,
   stateful producer of ModelP_C11), unique inputs (ModelU_C12), the rate limit (ModelR_C12), the Hypothesis settings (ModelH_C12). *)
From Coq Require Import List NArith Bool Arith Lia.
From Verif Require Import Common.Lists C11.Model_C11 C11.Proofs_C11 C12.Proofs_C12 C12.Gen_C12 C12.GenProofs_C12 C11.ModelP_C11 C11.ProofsP_C11 C11.ProofsP3_C11.
Import ListNotations.

(* After a stop request (or the failure limit) at most one further request per worker is sent:
   for all configurations, behaviours, numbers of workers n and all interleavings. *)
Theorem C12_sends_after_stop_le_workers : forall c sched n os,
  sends_after_stop (run c sched (init n os)) <= n.
Proof.
  intros c sched n os.
  assert (HG : invG (run c sched (init n os))) by (apply (run_inv _ c (invG_step c)), invG_init).
  rewrite <- (run_workers_length c sched n os) at 2.
  destruct HG as [G1 G2]. destruct (has_to_stop (run c sched (init n os))) eqn:E.
  - specialize (G2 eq_refl). lia.
  - rewrite (G1 eq_refl). lia.
Qed.
Print Assumptions C12_sends_after_stop_le_workers.

(* After a stop request no new scenario is started beyond the one each worker may already be fetching:
   at most n further operations are taken from the producer, whatever happened before (s1) and after (s2). *)
Theorem C12_no_scenario_after_stop : forall c s1 s2 n os,
  let a := step c (run c s1 (init n os)) Stop in
  length (ops a) - length (ops (run c s2 a)) <= n.
Proof.
  intros c s1 s2 n os a. rewrite <- (run_workers_length c s1 n os). exact (fetches_after_stop_le_workers c s2 a eq_refl).
Qed.
Print Assumptions C12_no_scenario_after_stop.

(* No more than max_failures failed or errored scenarios are reported, for all interleavings. *)
Theorem C12_reported_failures_le_max : forall c m sched n os,
  maxf c = Some m -> 1 <= m -> failed_scenarios (trace (run c sched (init n os))) <= m.
Proof.
  intros c m sched n os Hm Hm1.
  assert (H : (invP (run c sched (init n os)) /\ invL (run c sched (init n os))) /\ invH m (run c sched (init n os))).
  { apply (run_inv (fun s => (invP s /\ invL s) /\ invH m s)).
    - intros s l s' T [[HP HL] HH]. split; [split|]; eauto using invP_step, invL_step, invH_step.
    - split; [split; [apply invP_init | apply invL_init] | apply invH_init, Hm1]. }
  destruct H as [[HP HL] (H1 & H2 & H3)]. unfold trace. rewrite failed_rev.
  unfold processed in H1. destruct (cp (run c sched (init n os))) eqn:Ecp; try (rewrite <- H1; exact H3).
  (* between the yield and the count: the limit is not reached yet, one more failure fits *)
  destruct (HP e Ecp) as [t Et]. rewrite Et in *. cbn [tl] in H1. rewrite failed_cons, <- H1.
  assert (Hl : limit (run c sched (init n os)) = false) by (apply (invL_running _ HL); congruence).
  specialize (H2 Hl). destruct (counts_as_failure e); cbn [Nat.b2n]; lia.
Qed.
Print Assumptions C12_reported_failures_le_max.

(* Once the limit is reached every later phase is only opened and closed as skipped, with the reason. *)
Theorem C12_later_phases_skipped_with_reason : forall p phases stop0,
  Forall (fun e => match e with
                   | PhaseFinished _ st lim => st = SKIP /\ lim = true
                   | PhaseStarted _ => True
                   | _ => False end)
         (plan_loop p phases stop0 true).
Proof. exact plan_skips_after_limit. Qed.
Print Assumptions C12_later_phases_skipped_with_reason.

(* The functions regenerated from today's Python source (engine/control.py: count_failure, is_stopped;
   engine/__init__.py: _STATUS_ORDER) are the ones the model uses. *)
Theorem C12_gen_count_failure_eq : forall c n l, gen_count_failure (maxf c) n l = count_failure c n l.
Proof. exact gen_count_failure_eq. Qed.
Print Assumptions C12_gen_count_failure_eq.

Theorem C12_gen_is_stopped_eq : forall s, gen_is_stopped (stop s) (limit s) = has_to_stop s.
Proof. exact gen_is_stopped_eq. Qed.
Print Assumptions C12_gen_is_stopped_eq.

Theorem C12_gen_srank_eq : forall s, gen_srank s = srank s.
Proof. exact gen_srank_eq. Qed.
Print Assumptions C12_gen_srank_eq.

(* both bounds are attained (sharpness / non-vacuity) *)
Theorem C12_sends_bound_is_reached :
  let s := run (cfg_now None) [W 0; W 0; W 0; W 0; W 1; W 1; W 1; W 1; Stop; W 0; W 1; W 0; W 1]
               (init 2 [op_ok 0 3; op_ok 1 3]) in
  sends_after_stop s = 2 /\ length (sent s) = 2.
Proof. vm_compute. auto. Qed.
Print Assumptions C12_sends_bound_is_reached.

Theorem C12_failures_bound_is_reached :
  let s := run (cfg_now (Some 1)) sched_limit (init 2 [op_fail 0; op_ok 1 2]) in
  failed_scenarios (trace s) = 1 /\ limit s = true.
Proof. vm_compute. auto. Qed.
Print Assumptions C12_failures_bound_is_reached.

(* ---- unique inputs (ModelU_C12: lookup and store are separate steps, any number of workers) ---- *)
From Verif Require Import C12.ModelU_C12 C12.ProofsU_C12.

(* With unique inputs the same request is never sent twice: for all outcomes, all case sequences in which every operation
   belongs to one worker, and all interleavings of the workers' lookups and sends. *)
Theorem C12_unique_never_sent_twice : forall out owner scripts sched,
  owned owner scripts -> NoDup (u_sent (urun out sched (uinit scripts))).
Proof.
  intros out owner scripts sched Ho. unfold urun.
  apply (fold_left_inv _ (uinv owner) (uinv_step out owner) sched _ (uinv_init owner scripts Ho)).
Qed.
Print Assumptions C12_unique_never_sent_twice.

(* One worker: for every sequence of generated cases. *)
Theorem C12_unique_one_worker : forall out script sched,
  NoDup (u_sent (urun out sched (uinit (fun w => match w with 0 => script | _ => [] end)))).
Proof.
  intros out script sched. apply (C12_unique_never_sent_twice out (fun _ => 0)).
  intros w k. destruct w; [reflexivity | intros H; contradiction].
Qed.
Print Assumptions C12_unique_one_worker.

(* The deduplication loses nothing: when the workers are done every generated case was sent. *)
Theorem C12_unique_nothing_lost : forall out scripts sched n,
  let s := urun out sched (uinit scripts) in
  quiescent n s -> forall w k, w < n -> In k (scripts w) -> In k (u_sent s).
Proof.
  intros out scripts sched n s Hq w k Hw Hin.
  destruct (ucomp_run out scripts sched (uinit scripts) (ucomp_init scripts)) as [C1 C2]. fold s in C1, C2.
  destruct (Hq w Hw) as [Hp Hs]. destruct (C1 w k Hin) as [H|[H|H]].
  - rewrite Hs in H. contradiction.
  - rewrite Hp in H. discriminate.
  - apply C2; exact H.
Qed.
Print Assumptions C12_unique_nothing_lost.

(* The hypothesis is needed: the cache alone does not serialise two workers that are given the same case. *)
Theorem C12_unique_shared_case_refuted : exists out scripts sched,
  ~ NoDup (u_sent (urun out sched (uinit scripts))).
Proof.
  exists (fun _ => OOk), (scripts_of [[(0, 7%N)]; [(0, 7%N)]]), [ULookup 0; ULookup 1; USend 0; USend 1].
  vm_compute. intros H. inversion H as [|x l Hn _]; subst. apply Hn. left; reflexivity.
Qed.
Print Assumptions C12_unique_shared_case_refuted.

(* ---- rate limit (ModelR_C12: the sliding-window guard schemathesis relies on) ---- *)
From Coq Require Import ZArith.
From Verif Require Import C12.ModelR_C12 C12.ProofsR_C12.

(* Every window of one interval holds at most `limit` granted requests, whatever the times at which the workers ask. *)
Theorem C12_rate_within_limit : forall limit interval ts a,
  countp (in_window interval a) (attempts limit interval ts) <= limit.
Proof. exact rate_within_limit. Qed.
Print Assumptions C12_rate_within_limit.

(* A request reaches the API at most `jitter` after its grant: an API-side window holds at most the grants of the window
   extended by the jitter (the "scheduling jitter at window boundaries" of the property text). *)
Theorem C12_rate_seen_window_bound : forall interval jitter a pairs,
  (0 <= jitter)%Z ->
  (forall g s, In (g, s) pairs -> (g <= s <= g + jitter)%Z) ->
  countp (in_window interval a) (map snd pairs) <=
  countp (fun h => (a - jitter <=? h)%Z && (h <? a + interval)%Z) (map fst pairs).
Proof.
  intros interval jitter a pairs Hj H. unfold countp. induction pairs as [|[g s] l IH]; cbn [map filter fst snd]; auto.
  assert (IH' := IH (fun g0 s0 Hin => H g0 s0 (or_intror Hin))).
  destruct (in_window interval a s) eqn:E.
  - assert (Hg : ((a - jitter <=? g) && (g <? a + interval))%Z = true).
    { unfold in_window in E. apply andb_true_iff in E; destruct E as [E1 E2]. apply Z.leb_le in E1. apply Z.ltb_lt in E2.
      destruct (H g s (or_introl eq_refl)). apply andb_true_iff. split; [apply Z.leb_le | apply Z.ltb_lt]; lia. }
    rewrite Hg. cbn [length]. lia.
  - destruct ((a - jitter <=? g) && (g <? a + interval))%Z; cbn [length]; lia.
Qed.
Print Assumptions C12_rate_seen_window_bound.

Theorem C12_rate_bound_is_reached :
  countp (in_window 1000 0) (attempts 3 1000 [0; 200; 400; 600; 800; 1000; 1200]%Z) = 3.
Proof. exact (proj2 rate_example). Qed.
Print Assumptions C12_rate_bound_is_reached.

(* The outcome cache regenerated from today's engine/context.py (cache_outcome / get_cached_outcome) is the cache of ModelU_C12:
   a store binds the key and drops nothing, a lookup finds the newest binding. *)
Theorem C12_gen_cache_outcome_eq : forall (d : list (ModelU_C12.key * ModelU_C12.outcome)) k v, gen_cache_outcome d k v = (k, v) :: d.
Proof. exact gen_cache_outcome_eq. Qed.
Print Assumptions C12_gen_cache_outcome_eq.

Theorem C12_gen_get_cached_outcome_eq : forall (d : list (ModelU_C12.key * ModelU_C12.outcome)) k,
  gen_get_cached_outcome ModelU_C12.key_eqb d k = ModelU_C12.find_key k d.
Proof. exact gen_get_cached_outcome_eq. Qed.
Print Assumptions C12_gen_get_cached_outcome_eq.

(* ---- the stateful phase (ModelP_C11: execute_state_machine_loop, one thread) ----
   After the stop request or the failure limit is visible at most ONE further step (request) is executed - the one whose
   entry test came just before - whatever Hypothesis does inside run(), wherever the stop arrives, for every limit. *)
Theorem C12_stateful_at_most_one_step_after_stop : forall c faults stop0 limit0 counter0 behs ls,
  count_true (p_bodies (prun c ls (pinit_f faults stop0 limit0 counter0 behs))) <= 1.
Proof.
  intros c faults stop0 limit0 counter0 behs ls.
  destruct (prun_inv SInv c (SInv_step c) ls (pinit_f faults stop0 limit0 counter0 behs) (or_introl eq_refl)) as [H|(H & _)];
    rewrite H; auto.
Qed.
Print Assumptions C12_stateful_at_most_one_step_after_stop.

(* A stateful phase entered after the stop was requested sends nothing and announces no scenario. *)
Theorem C12_stateful_nothing_when_stopped_before_start : forall c faults limit0 counter0 behs ls,
  let s := prun c ls (pinit_f faults true limit0 counter0 behs) in
  p_bodies s = [] /\ scenario_statuses (p_out s) = [].
Proof.
  intros c faults limit0 counter0 behs ls s.
  destruct (prun_inv EInv c (EInv_step c) ls (pinit_f faults true limit0 counter0 behs)) as (_ & H2 & _ & H4); auto.
  repeat split; auto.
Qed.
Print Assumptions C12_stateful_nothing_when_stopped_before_start.

(* the bound is reached: the stop arrives between the entry test of a step and its request *)
Theorem C12_stateful_one_step_after_stop_is_reached :
  count_true (p_bodies (prun {| p_maxf := None; p_maxex := 5 |} (repeat LP 4 ++ [LStop] ++ repeat LP 9)
                             (pinit false false 0 [([[StOk; StOk]], ROk)]))) = 1.
Proof. vm_compute. reflexivity. Qed.
Print Assumptions C12_stateful_one_step_after_stop_is_reached.

(* "After a stop request no new scenario is started", stateful phase: false by one - setup() does not look at the flag, so a
   stop that arrives between two scenarios lets one more scenario be announced (finding C12-F1; it sends nothing) ... *)
Theorem C12_stateful_scenario_after_stop_refuted : exists c behs s1 s2,
  let a := pstep c (prun c s1 (pinit false false 0 behs)) LStop in
  count_scs (p_out (prun c s2 a)) = S (count_scs (p_out a)) /\ p_bodies (prun c s2 a) = [false].
Proof.
  exists {| p_maxf := None; p_maxex := 5 |}, [([[StOk]; [StOk]], ROk)], (repeat LP 5), (repeat LP 9).
  vm_compute. auto.
Qed.
Print Assumptions C12_stateful_scenario_after_stop_refuted.

(* ... and never by more than one, whenever every scenario Hypothesis starts has at least one step (its runner always
   executes a first step): for every behaviour, limit, history before (s1) and after (s2) the request. *)
Theorem C12_stateful_scenarios_after_stop_le_one_partial : forall c stop0 limit0 counter0 behs s1 s2,
  forallb nonempty_beh behs = true ->
  let a := pstep c (prun c s1 (pinit stop0 limit0 counter0 behs)) LStop in
  count_scs (p_out (prun c s2 a)) <= S (count_scs (p_out a)).
Proof.
  intros c stop0 limit0 counter0 behs s1 s2 Hb a.
  assert (HN : NInv a) by (apply NInv_step, (prun_inv NInv c (NInv_step c)); split; cbn; auto).
  assert (HA : AInv (count_scs (p_out a)) a) by (split; [reflexivity|]; pose proof (budget_le1 (p_pc a)); lia).
  destruct (prun_inv _ c (NAInv_step c _) s2 a (conj HN HA)) as [_ [_ H]]. lia.
Qed.
Print Assumptions C12_stateful_scenarios_after_stop_le_one_partial.

(* scenarios without any step never test the flag: the hypothesis is needed *)
Theorem C12_stateful_scenarios_after_stop_needs_steps : exists c behs s1 s2,
  let a := pstep c (prun c s1 (pinit false false 0 behs)) LStop in
  ~ count_scs (p_out (prun c s2 a)) <= S (count_scs (p_out a)).
Proof.
  exists {| p_maxf := None; p_maxex := 5 |}, [([[]; []; []], ROk)], (repeat LP 2), (repeat LP 9).
  vm_compute. intros Hc. inversion Hc as [|? Hc']. inversion Hc'.
Qed.
Print Assumptions C12_stateful_scenarios_after_stop_needs_steps.

(* ---- the configured Hypothesis settings reach the test (ModelH_C12: create_test's settings merge) ----
   Whatever Hypothesis profile is loaded, every configured setting other than the deadline - max_examples and
   stateful_step_count in particular - is the one the test runs with. *)
From Verif Require Import C12.ModelH_C12.

Theorem C12_configured_setting_takes_effect : forall active stock config k,
  k <> K_DEADLINE -> effective ActiveProfile active stock config k = config k.
Proof.
  intros active stock config k Hk. unfold effective, merge, with_deadline.
  destruct (Nat.eqb (config k) (active k)) eqn:E; [|reflexivity].
  apply Nat.eqb_eq in E. destruct (Nat.eqb k K_DEADLINE) eqn:Ek; [apply Nat.eqb_eq in Ek; contradiction|].
  cbn [andb]. symmetry. exact E.
Qed.
Print Assumptions C12_configured_setting_takes_effect.

Theorem C12_configured_deadline : forall active stock config,
  effective ActiveProfile active stock config K_DEADLINE =
  if Nat.eqb (config K_DEADLINE) (active K_DEADLINE) then DEFAULT_DEADLINE else config K_DEADLINE.
Proof.
  intros active stock config. unfold effective, merge, with_deadline. rewrite !Nat.eqb_refl. cbn [andb].
  destruct (Nat.eqb (config K_DEADLINE) (active K_DEADLINE)); reflexivity.
Qed.
Print Assumptions C12_configured_deadline.

(* sentinel: comparing with the stock profile instead of the active one loses a configured max_examples = 100 *)
Theorem C12_stock_baseline_refuted : exists active stock config,
  effective StockProfile active stock config K_MAX_EXAMPLES <> config K_MAX_EXAMPLES.
Proof.
  exists (of_list [240; 200; 50; 0]), (of_list [100; 200; 50; 0]), (of_list [100; 200; 50; 0]).
  vm_compute. discriminate.
Qed.
Print Assumptions C12_stock_baseline_refuted.
