(* C12 on the unit-phase LTS (steps as described by `trans` in Proofs_C11): what can still happen after a stop request
   or once the failure limit is reached. *)
From Coq Require Import List NArith Bool Arith Lia.
From Verif Require Import C11.Model_C11 C11.Proofs_C11.
Import ListNotations.

Lemma count_le (p : wpc -> bool) ws : length (filter p ws) <= length ws.
Proof. induction ws as [|w ws IH]; cbn; auto. destruct (p w); cbn; lia. Qed.

Lemma count_upd (p : wpc -> bool) i w w' ws : nth_error ws i = Some w ->
  length (filter p (upd i w' ws)) + Nat.b2n (p w) = length (filter p ws) + Nat.b2n (p w').
Proof.
  revert i. induction ws as [|y ws IH]; intros [|i] H; cbn in *; try discriminate.
  - inversion H; subst. destruct (p w), (p w'); cbn; lia.
  - specialize (IH _ H). destruct (p y); cbn; lia.
Qed.

Lemma stop_stays c s l s' : trans c s l s' -> has_to_stop s = true -> has_to_stop s' = true.
Proof.
  unfold has_to_stop. intros T Hs.
  step_cases T; cbn [stop limit]; auto.
  - (* CYield *) rewrite <- Es. exact Hs.
  - (* CCount *) apply orb_true_iff in Hs. destruct Hs as [->|Hl]; [rewrite orb_true_r; reflexivity|].
    rewrite (counted_limit_mono _ _ _ _ _ E Hl). apply orb_true_r.
Qed.

(* G: after a stop request at most one more request per worker *)
Definition is_send (w : wpc) : bool := match w with WSend _ _ _ _ => true | _ => false end.
Definition count_send (ws : list wpc) : nat := length (filter is_send ws).

Definition invG (s : state) : Prop :=
  (has_to_stop s = false -> sends_after_stop s = 0) /\
  (has_to_stop s = true -> sends_after_stop s + count_send (workers s) <= length (workers s)).

Lemma invG_of_zero s : sends_after_stop s = 0 -> invG s.
Proof. intros H. split; auto. intros _. rewrite H. apply count_le. Qed.

Lemma invG_keep s s' : has_to_stop s = true -> invG s ->
  has_to_stop s' = true -> sends_after_stop s' + count_send (workers s') <= sends_after_stop s + count_send (workers s) ->
  length (workers s') = length (workers s) -> invG s'.
Proof.
  intros Hs [_ HG] Hs' Hle Hlen. split; [rewrite Hs'; discriminate|]. intros _. rewrite Hlen. specialize (HG Hs). lia.
Qed.

Lemma is_send_next_case o rest st : is_send (next_case o rest st) = false.
Proof. destruct rest; reflexivity. Qed.

(* a request sent with the stop visible comes from a worker that had passed the test before: it leaves WSend *)
Lemma send_move c s w os added snt w' : wmove c s w os added snt w' ->
  length (filter (fun x => snd x) snt) + Nat.b2n (is_send w') =
  length (filter (fun x => snd x) (sent s)) + (if has_to_stop s then Nat.b2n (is_send w) else Nat.b2n (is_send w')).
Proof.
  intros M. destruct M; cbn [is_send Nat.b2n filter snd]; rewrite ?is_send_next_case; try (destruct (has_to_stop s); reflexivity).
  - destruct (build_err o), (has_to_stop s); reflexivity.
  - assert (is_send (after_send c o c0 rest st) = false) as ->
      by (unfold after_send; destruct c0; [|destruct (cof c)|]; auto using is_send_next_case).
    destruct (has_to_stop s); cbn; lia.
  - destruct k, (has_to_stop s); reflexivity.
Qed.

Lemma invG_step c s l s' : trans c s l s' -> invG s -> invG s'.
Proof.
  intros T HG. pose proof (stop_stays c s l s' T) as Hmono.
  (* a step that touches neither the requests nor the workers *)
  assert (Hframe : sent s' = sent s -> workers s' = workers s -> invG s').
  { intros E1 E2. destruct (has_to_stop s) eqn:Es.
    - apply (invG_keep s); auto; unfold sends_after_stop; rewrite ?E1, ?E2; auto.
    - apply invG_of_zero. unfold sends_after_stop. rewrite E1. apply (proj1 HG Es). }
  destruct T as [s' M | i w os added snt w' Hi M | |]; try (apply Hframe; reflexivity).
  - destruct M; apply Hframe; reflexivity.
  - pose proof (send_move _ _ _ _ _ _ _ M) as Hs. pose proof (count_upd is_send i w w' _ Hi) as Hc.
    destruct HG as [G1 G2]. unfold invG, sends_after_stop, count_send in *. cbn [workers sent moved]. rewrite upd_length.
    change (has_to_stop (moved s os added snt i w')) with (has_to_stop s).
    destruct (has_to_stop s); split; try discriminate; intros _; [specialize (G2 eq_refl)|specialize (G1 eq_refl)]; lia.
Qed.

Lemma invG_init n os : invG (init n os).
Proof. apply invG_of_zero. reflexivity. Qed.

(* H: no more than max_failures failed or errored scenarios are reported *)
Definition invH (m : nat) (s : state) : Prop :=
  counter s = failed_scenarios (processed s) /\ (limit s = false -> counter s < m) /\ counter s <= m.

Lemma failed_cons e t : failed_scenarios (e :: t) = Nat.b2n (counts_as_failure e) + failed_scenarios t.
Proof. unfold failed_scenarios. cbn. destruct (counts_as_failure e); reflexivity. Qed.

Lemma counted_limited c m s e n lim : maxf c = Some m -> limit s = false -> counted c s e = (n, lim) ->
  n = Nat.b2n (counts_as_failure e) + counter s /\ lim = (counts_as_failure e && (m <=? n)).
Proof.
  unfold counted, count_failure. intros -> ->. destruct (counts_as_failure e); intros E; inversion E; subst; cbn; auto.
  destruct (m <=? S (counter s)); auto.
Qed.

Lemma invH_step c m s l s' : maxf c = Some m -> trans c s l s' -> invP s -> invL s -> invH m s -> invH m s'.
Proof.
  intros Hm T HP HL (H1 & H2 & H3).
  step_cases T;
    try (split; [|split]; assumption); unfold processed in H1; rewrite ?Ecp in H1;
    unfold invH, processed; cbn [counter limit cp emitted set_cp tl].
  - (* CTimeout *) auto.
  - (* CRaise *) rewrite failed_cons. auto.
  - (* CYield *) auto.
  - (* CCount *) assert (Hl : limit s = false) by (apply (invL_running s HL); congruence).
    destruct (HP e Ecp) as [t Et]. rewrite Et in H1. cbn [tl] in H1.
    destruct (counted_limited _ _ _ _ _ _ Hm Hl E) as [-> ->]. specialize (H2 Hl).
    rewrite processed_after_count, Et.
    rewrite failed_cons, <- H1. split; [reflexivity|]. destruct (counts_as_failure e); cbn [Nat.b2n andb plus].
    + destruct (m <=? S (counter s)) eqn:Ele; [apply Nat.leb_le in Ele | apply Nat.leb_gt in Ele]; split; (discriminate || lia || auto).
    + auto.
  - (* CLiveness *) destruct (forallb is_dead (workers s)); [destruct (drain_fix c)|]; auto.
  - (* CDrained *) destruct (queue s); auto.
Qed.

Lemma failed_rev t : failed_scenarios (rev t) = failed_scenarios t.
Proof.
  unfold failed_scenarios. induction t as [|e t IH]; cbn; auto.
  rewrite filter_app, app_length, IH. cbn. destruct (counts_as_failure e); cbn; lia.
Qed.

Lemma invH_init m n os : 1 <= m -> invH m (init n os).
Proof. intros H. repeat split; cbn; lia. Qed.

(* I: after a stop request at most one more operation per worker is fetched *)
Definition is_fetch (w : wpc) : bool := match w with WFetch => true | _ => false end.
Definition count_fetch (ws : list wpc) : nat := length (filter is_fetch ws).

Definition invI (ops0 cf0 : nat) (s : state) : Prop :=
  has_to_stop s = true /\ ops0 + count_fetch (workers s) <= length (ops s) + cf0.

Lemma is_fetch_next_case o rest st : is_fetch (next_case o rest st) = false.
Proof. destruct rest; reflexivity. Qed.

(* once the stop is visible no worker comes to WFetch; the one that is there takes at most one operation *)
Lemma fetch_move c s w os added snt w' : wmove c s w os added snt w' -> has_to_stop s = true ->
  length (ops s) + Nat.b2n (is_fetch w') <= length os + Nat.b2n (is_fetch w).
Proof.
  intros M Hs. destruct M; rewrite ?Hs, ?is_fetch_next_case; cbn [is_fetch Nat.b2n]; try lia.
  - rewrite H. destruct (build_err o); cbn; lia.
  - assert (is_fetch (after_send c o c0 rest st) = false) as ->
      by (unfold after_send; destruct c0; [|destruct (cof c)|]; auto using is_fetch_next_case). cbn. lia.
  - destruct k; cbn; lia.
Qed.

Lemma invI_step c ops0 cf0 s l s' : trans c s l s' -> invI ops0 cf0 s -> invI ops0 cf0 s'.
Proof.
  intros T [Hs HI]. split; [apply (stop_stays c s l s' T Hs)|].
  destruct T as [s' M | i w os added snt w' Hi M | |]; try exact HI.
  - destruct M; exact HI.
  - pose proof (fetch_move _ _ _ _ _ _ _ M Hs). pose proof (count_upd is_fetch i w w' _ Hi).
    unfold count_fetch in *. cbn [workers ops moved]. lia.
Qed.

(* from any state, reachable or not, in which has_to_stop holds *)
Lemma fetches_after_stop_le_workers c sched a :
  has_to_stop a = true ->
  length (ops a) - length (ops (run c sched a)) <= length (workers a).
Proof.
  intros Hs.
  assert (H : invI (length (ops a)) (count_fetch (workers a)) (run c sched a)).
  { apply (run_inv _ c (invI_step c _ _)). split; auto. }
  destruct H as [_ H]. pose proof (count_le is_fetch (workers a)). unfold count_fetch in H. lia.
Qed.

Lemma plan_skips_after_limit p phases stop0 :
  Forall (fun e => match e with
                   | PhaseFinished _ st lim => st = SKIP /\ lim = true
                   | PhaseStarted _ => True
                   | _ => False end)
         (plan_loop p phases stop0 true).
Proof.
  revert p stop0. induction phases as [|[pc pr] rest IH]; intros p stop0; cbn; auto.
  rewrite orb_true_r, andb_false_r. cbn. constructor; auto. constructor; auto.
  destruct stop0; auto.
Qed.
