(* The rate-limit guard (ModelR_C12): every window stays within the limit (`within`, kept by `acquire`), with the witnesses
   that the bound is reached and that a `<=` guard would break it. *)
From Coq Require Import List ZArith Bool Arith Lia.
From Verif Require Import Common.Lists C12.ModelR_C12.
Import ListNotations.
Local Open Scope Z_scope.

Lemma countp_le p q l : (forall h, p h = true -> q h = true) -> (countp p l <= countp q l)%nat.
Proof.
  intros H. unfold countp. induction l as [|x l IH]; cbn; auto.
  destruct (p x) eqn:Ep.
  - rewrite (H x Ep). cbn. lia.
  - destruct (q x); cbn; lia.
Qed.

Definition within (limit : nat) (interval : Z) (g : list Z) : Prop :=
  forall a, (countp (in_window interval a) g <= limit)%nat.

Lemma acquire_within limit interval g t : within limit interval g -> within limit interval (fst (acquire limit interval g t)).
Proof.
  intros H. unfold acquire. destruct (Nat.ltb (countp (recent interval t) g) limit) eqn:E; cbn [fst]; [|exact H].
  apply Nat.ltb_lt in E. intros a. unfold countp. cbn [filter].
  destruct (in_window interval a t) eqn:Ew; [|apply H].
  cbn [length]. fold (countp (in_window interval a) g).
  assert (Hle : (countp (in_window interval a) g <= countp (recent interval t) g)%nat).
  { apply countp_le. intros h Hh. unfold in_window in *. unfold recent.
    apply andb_true_iff in Hh; destruct Hh as [H1 H2]. apply andb_true_iff in Ew; destruct Ew as [E1 E2].
    apply Z.leb_le in H1, E1. apply Z.ltb_lt in H2, E2. apply Z.ltb_lt. lia. }
  lia.
Qed.

Lemma rate_within_limit limit interval ts : within limit interval (attempts limit interval ts).
Proof.
  unfold attempts. apply (fold_left_inv _ (within limit interval)); [intros g t; apply acquire_within | intros a; cbn; lia].
Qed.

(* non-vacuity and sharpness: 3 per second, attempts every 200 ms: the 4th and 5th are refused, the bound is reached *)
Lemma rate_example :
  attempts 3 1000 [0; 200; 400; 600; 800; 1000; 1200] = [1200; 1000; 400; 200; 0] /\
  countp (in_window 1000 0) (attempts 3 1000 [0; 200; 400; 600; 800; 1000; 1200]) = 3%nat.
Proof. vm_compute. split; reflexivity. Qed.

(* the guard matters: a limiter that compares with <= instead of < lets limit + 1 requests into one window *)
Definition acquire_le (limit : nat) (interval : Z) (grants : list Z) (t : Z) : list Z :=
  if Nat.leb (countp (recent interval t) grants) limit then t :: grants else grants.
Lemma rate_refuted_le_guard :
  countp (in_window 1000 0) (fold_left (acquire_le 3 1000) [0; 200; 400; 600; 800] []) = 4%nat.
Proof. vm_compute. reflexivity. Qed.

Lemma max_delay_covers_interval limit u : 1 <= limit -> (u <= 3)%nat -> unit_ms u + 50 <= max_delay_ms limit u.
Proof.
  intros Hl Hu. unfold max_delay_ms, unit_ms. destruct u as [|[|[|u]]]; cbn; lia.
Qed.
