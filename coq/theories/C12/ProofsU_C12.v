(* Unique inputs (ModelU_C12): `uinv` (nothing is sent twice) and `ucomp` (nothing is lost) over all interleavings of lookups
   and sends. *)
From Coq Require Import List NArith Bool Arith Lia.
From Verif Require Import Common.Lists C12.ModelU_C12.
Import ListNotations.

Lemma key_eqb_eq a b : key_eqb a b = true <-> a = b.
Proof.
  unfold key_eqb. destruct a as [a1 a2], b as [b1 b2]. cbn [fst snd]. rewrite andb_true_iff, Nat.eqb_eq, N.eqb_eq.
  split; [intros [-> ->]; reflexivity | intros H; inversion H; auto].
Qed.

Lemma key_eqb_refl a : key_eqb a a = true.
Proof. apply key_eqb_eq. reflexivity. Qed.

Lemma key_eqb_neq a b : a <> b -> key_eqb a b = false.
Proof. intros H. destruct (key_eqb a b) eqn:E; auto. apply key_eqb_eq in E. contradiction. Qed.

Lemma find_key_cons k k' o c : find_key k ((k', o) :: c) = if key_eqb k k' then Some o else find_key k c.
Proof. reflexivity. Qed.

Lemma upd_same {A} (f : nat -> A) w v : upd f w v w = v.
Proof. unfold upd. rewrite Nat.eqb_refl. reflexivity. Qed.

Lemma upd_other {A} (f : nat -> A) w v w' : w' <> w -> upd f w v w' = f w'.
Proof. intros H. unfold upd. destruct (Nat.eqb w' w) eqn:E; auto. apply Nat.eqb_eq in E. contradiction. Qed.

Section Unique.
  Variable out : key -> outcome.
  Variable owner : nat -> nat.

  Definition uinv (s : ustate) : Prop :=
    NoDup (u_sent s) /\
    (forall k, In k (u_sent s) -> find_key k (u_cache s) <> None) /\
    (forall w k, u_pend s w = Some k -> owner (fst k) = w /\ find_key k (u_cache s) = None) /\
    (forall w k, In k (u_script s w) -> owner (fst k) = w).

  Lemma uinv_step s l : uinv s -> uinv (ustep out s l).
  Proof.
    intros Hinv. pose proof Hinv as (H1 & H2 & H3 & H4). destruct l as [w|w]; cbn [ustep].
    - destruct (u_pend s w) as [kp|] eqn:Ep; [exact Hinv|].
      destruct (u_script s w) as [|k rest] eqn:Es; [exact Hinv|].
      assert (H4' : forall w' k', In k' (upd (u_script s) w rest w') -> owner (fst k') = w').
      { intros w' k' Hin. destruct (Nat.eq_dec w' w) as [->|Hn].
        - rewrite upd_same in Hin. apply H4. rewrite Es. right; exact Hin.
        - rewrite upd_other in Hin by exact Hn. apply H4; exact Hin. }
      destruct (find_key k (u_cache s)) as [o|] eqn:Ef; unfold uinv; cbn [u_sent u_cache u_pend u_script];
        (split; [exact H1|]); (split; [exact H2|]).
      + split; [exact H3 | exact H4'].
      + split; [|exact H4']. intros w' k' Hp. destruct (Nat.eq_dec w' w) as [->|Hn].
        * rewrite upd_same in Hp. inversion Hp; subst k'. split; [|exact Ef]. apply H4. rewrite Es. left; reflexivity.
        * rewrite upd_other in Hp by exact Hn. apply H3; exact Hp.
    - destruct (u_pend s w) as [k|] eqn:Ep; [|exact Hinv].
      destruct (H3 w k Ep) as [Ho Hf].
      unfold uinv; cbn [u_sent u_cache u_pend u_script]. split; [|split; [|split]].
      + constructor; [|exact H1]. intros Hin. apply (H2 k Hin). exact Hf.
      + intros k' [<-|Hin]; rewrite find_key_cons.
        * rewrite key_eqb_refl. discriminate.
        * destruct (key_eqb k' k); [discriminate | apply H2; exact Hin].
      + intros w' k' Hp. destruct (Nat.eq_dec w' w) as [->|Hn].
        * rewrite upd_same in Hp. discriminate.
        * rewrite upd_other in Hp by exact Hn. destruct (H3 w' k' Hp) as [Ho' Hf']. split; [exact Ho'|].
          rewrite find_key_cons. rewrite key_eqb_neq; [exact Hf'|]. intros ->. apply Hn. rewrite <- Ho', <- Ho. reflexivity.
      + exact H4.
  Qed.

  Lemma uinv_init scripts : owned owner scripts -> uinv (uinit scripts).
  Proof.
    intros Ho. unfold uinv, uinit; cbn. repeat split; try constructor; try (intros; contradiction); try (intros; discriminate).
    exact Ho.
  Qed.

  Definition ucomp (scripts0 : nat -> list key) (s : ustate) : Prop :=
    (forall w k, In k (scripts0 w) -> In k (u_script s w) \/ u_pend s w = Some k \/ find_key k (u_cache s) <> None) /\
    (forall k, find_key k (u_cache s) <> None -> In k (u_sent s)).

  Lemma ucomp_step scripts0 s l : ucomp scripts0 s -> ucomp scripts0 (ustep out s l).
  Proof.
    intros HC. pose proof HC as [C1 C2]. destruct l as [w|w]; cbn [ustep].
    - destruct (u_pend s w) as [kp|] eqn:Ep; [exact HC|].
      destruct (u_script s w) as [|k rest] eqn:Es; [exact HC|].
      destruct (find_key k (u_cache s)) as [o|] eqn:Ef; unfold ucomp; cbn [u_sent u_cache u_pend u_script]; (split; [|exact C2]);
        intros w0 k0 Hin; destruct (Nat.eq_dec w0 w) as [->|Hn]; rewrite ?upd_same, ?upd_other by exact Hn; try (apply C1; exact Hin);
        destruct (C1 w k0 Hin) as [Hs|[Hp|Hc]]; auto; try congruence;
        rewrite Es in Hs; destruct Hs as [<-|Hs]; auto.
      right; right. rewrite Ef. discriminate.
    - destruct (u_pend s w) as [k|] eqn:Ep; [|exact HC].
      unfold ucomp; cbn [u_sent u_cache u_pend u_script]. split.
      + intros w0 k0 Hin. destruct (C1 w0 k0 Hin) as [Hs|[Hp|Hc]]; auto.
        * destruct (Nat.eq_dec w0 w) as [->|Hn].
          -- right; right. rewrite Ep in Hp. inversion Hp; subst k0. rewrite find_key_cons, key_eqb_refl. discriminate.
          -- right; left. rewrite upd_other by exact Hn. exact Hp.
        * right; right. rewrite find_key_cons. destruct (key_eqb k0 k); [discriminate | exact Hc].
      + intros k0. rewrite find_key_cons. destruct (key_eqb k0 k) eqn:E.
        * apply key_eqb_eq in E. subst k0. intros _. left; reflexivity.
        * intros H. right. apply C2; exact H.
  Qed.

  Lemma ucomp_init scripts : ucomp scripts (uinit scripts).
  Proof. split; cbn; [intros; left; assumption | intros k H; contradiction]. Qed.

  Lemma ucomp_run scripts0 sched : forall s, ucomp scripts0 s -> ucomp scripts0 (urun out sched s).
  Proof. unfold urun. apply fold_left_inv, ucomp_step. Qed.

End Unique.

(* non-vacuity: two workers, repeated cases, everything sent exactly once *)
Definition ex_scripts := scripts_of [[(0, 1%N); (0, 2%N); (0, 1%N)]; [(1, 1%N); (1, 1%N)]].
Lemma unique_example :
  owned (fun o => o) ex_scripts /\
  uobs (urun (out_of [(0, 2%N)]) [ULookup 0; ULookup 1; USend 1; USend 0; ULookup 1; ULookup 0; USend 0; ULookup 0] (uinit ex_scripts))
  = ([(0, (0, 1%N), Miss); (1, (1, 1%N), Miss); (1, (1, 1%N), HitOk); (0, (0, 2%N), Miss); (0, (0, 1%N), HitOk)],
     [(1, 1%N); (0, 1%N); (0, 2%N)]).
Proof.
  split; [|vm_compute; reflexivity].
  intros w k. unfold ex_scripts, scripts_of. destruct w as [|[|w]]; cbn.
  - intros [<-|[<-|[<-|[]]]]; reflexivity.
  - intros [<-|[<-|[]]]; reflexivity.
  - destruct w; intros [].
Qed.
