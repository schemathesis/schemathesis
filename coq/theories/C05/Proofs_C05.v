(* C05 on the unit-phase LTS (steps as described by `trans` in Proofs_C11): the exception ladder, and what a complete
   uninterrupted run reports. *)
From Coq Require Import List NArith Bool Arith Lia.
From Verif Require Import C11.Model_C11 C11.Proofs_C11 C05.Model_C05.
Import ListNotations.

(* run_test's ladder: the class of the exception gives a first status (FAILURE instead of SUCCESS when a failed check
        was recorded under continue_on_failure); the marks can only turn it into ERROR *)
Definition first_status (e : exn) (f : flags) : status :=
  let st0 := match e with ENone => SUCCESS | ESkipTest => SKIP | EFailure | EFlakyPlain => FAILURE | _ => ERROR end in
  if status_eqb st0 SUCCESS && f_cof_failed f then FAILURE else st0.

Definition marks (f : flags) (st1 : status) (nf0 : nat) : outcome :=
  let '(st2, nf2) := if f_unsat_mark f then (ERROR, S nf0) else (st1, nf0) in
  let '(st3, nf3) := if f_nonserializable f && negb (status_eqb st2 ERROR) then (ERROR, S nf2) else (st2, nf2) in
  let '(st4, nf4) := if f_invalid_regex f && negb (status_eqb st3 ERROR) then (ERROR, S nf3) else (st3, nf3) in
  let '(st5, nf5) := if f_invalid_headers f then (ERROR, S nf4) else (st4, nf4) in
  Outcome st5 (nf5 + f_errors f).

Definition marked (f : flags) : bool :=
  f_unsat_mark f || f_nonserializable f || f_invalid_regex f || f_invalid_headers f.

Lemma ladder_marks e f : e <> EKeyboardInterrupt -> exists nf0, ladder e f = marks f (first_status e f) nf0.
Proof. intros He. destruct e; try congruence; eexists; reflexivity. Qed.

Lemma marks_status f st1 nf0 : exists nf, marks f st1 nf0 = Outcome (if marked f then ERROR else st1) nf.
Proof. destruct f as [c [] [] [] [] k]; destruct st1; eexists; reflexivity. Qed.

Lemma ladder_status e f : e <> EKeyboardInterrupt ->
  exists nf, ladder e f = Outcome (if marked f then ERROR else first_status e f) nf.
Proof. intros He. destruct (ladder_marks e f He) as [nf0 ->]. apply marks_status. Qed.

(* what stays true of a run in which nobody asks to stop and no failure limit is configured (`quiet_step`): has_to_stop is
   never set, and the consumer's status is never above ERROR *)
Definition quiet (s : state) : Prop := has_to_stop s = false /\ low_status (cstatus s).

Lemma quiet_step c s l s' : trans c s l s' -> l <> Stop -> maxf c = None -> invF s -> quiet s -> quiet s'.
Proof.
  intros T Hl Hm HF [Hs Hlow]. pose proof Hs as Hsl. apply orb_false_iff in Hsl. destruct Hsl as [Hstop Hlim].
  step_cases T; try (split; assumption); try congruence.
  - (* CCount: the event was yielded while nobody had asked to stop: it is no interruption notice *)
    destruct (HF Hs) as (_ & _ & F3). pose proof (F3 e Ecp) as Hc.
    assert (Hi : is_interrupt e = false) by (destruct e; [reflexivity..|discriminate]).
    unfold quiet, has_to_stop. cbn [stop limit cstatus]. rewrite Hi, Hstop, (counted_unlimited _ _ _ _ _ Hm E), Hlim.
    split; [reflexivity | apply fold_status_low; assumption].
Qed.

Lemma quiet_init n os : quiet (init n os).
Proof. split; [reflexivity | exact I]. Qed.

Definition no_stop (sched : list label) : Prop := Forall (fun l => l <> Stop) sched.

Lemma run_inv_nostop (P : state -> Prop) c :
  (forall s l s', trans c s l s' -> l <> Stop -> P s -> P s') ->
  forall sched s, no_stop sched -> P s -> P (run c sched s).
Proof.
  intros Hstep sched. induction sched as [|l sched IH]; intros s Hn H; cbn; auto.
  inversion Hn; subst. apply IH; auto. apply (Hstep s l); auto. apply step_spec.
Qed.

(* J: every operation is pending, held by a worker, or finished with the expected status *)
Definition fin_ev (c : cfg) (o : opb) : ev := ScFinish (op_id o) (expected_status c o).

Definition holds (c : cfg) (w : wpc) (o : opb) : Prop :=
  match w with
  | WStart o' => o' = o /\ build_err o = false
  | WCheck o' c0 rest st | WSend o' c0 rest st =>
      o' = o /\ last_status (script_from c o (c0 :: rest) st) = expected_status c o
  | WPut k => In (fin_ev c o) k
  | _ => False
  end.

Definition placed (c : cfg) (s : state) (o : opb) : Prop :=
  In o (ops s) \/ (exists j w, nth_error (workers s) j = Some w /\ holds c w o) \/ In (fin_ev c o) (hist s).

Definition invJ (c : cfg) (os : list opb) (s : state) : Prop :=
  (forall o, In o os -> placed c s o) /\
  (ops s = [] \/ wforall (fun w => w <> WDead) (workers s)).

Lemma last_status_in c o cs st : In (ScFinish (op_id o) (last_status (script_from c o cs st))) (script_from c o cs st).
Proof.
  revert st. induction cs as [|c0 cs IH]; intros st; cbn.
  - unfold final_script. destruct st; cbn; auto.
  - destruct c0; [apply IH | | cbn; auto]. destruct (cof c); [apply IH | cbn; auto].
Qed.

Lemma holds_next_case c o rest st :
  last_status (script_from c o rest st) = expected_status c o -> holds c (next_case o rest st) o.
Proof.
  intros H. destruct rest as [|c0 rest]; [|split; auto]. cbn. unfold fin_ev. rewrite <- H. apply (last_status_in c o [] st).
Qed.

(* in a quiet run: an operation taken from the producer is held by the worker; what a worker holds it keeps or has just
   finished; a worker dies only when nothing is left to fetch *)
Lemma holds_move c s w os added snt w' : wmove c s w os added snt w' -> has_to_stop s = false ->
  (forall o, In o (ops s) -> In o os \/ holds c w' o) /\
  (forall o, holds c w o -> holds c w' o \/ In (fin_ev c o) added) /\
  (ops s = [] \/ w' <> WDead) /\ (ops s = [] -> os = []).
Proof.
  intros M Hs.
  (* the four claims (fetched, kept, alive, ops stay empty) for each move; what is left after the obvious ones: *)
  destruct M; rewrite ?Hs; cbn [holds]; repeat split; auto; try (right; discriminate); try (intros o' []; fail).
  - (* MFetch, fetched *) intros o' Ho. rewrite H in Ho. destruct Ho as [<-|Ho]; [right|left; exact Ho].
    destruct (build_err o) eqn:Eb; [|split; auto]. unfold holds, fin_ev, expected_status, expected_script. rewrite Eb. cbn. auto.
  - (* MFetch, alive *) destruct (build_err o); right; discriminate.
  - (* MFetch, ops were not empty *) congruence.
  - (* MStart, kept *) intros o' [<- Hb]. left. apply holds_next_case. unfold expected_status, expected_script. rewrite Hb. reflexivity.
  - (* MStart, alive *) right. destruct (cases o); discriminate.
  - (* MSend, kept *) intros o' [<- H]. unfold after_send. cbn [script_from] in H. destruct c0; [|destruct (cof c)|]; auto using holds_next_case;
      right + left; cbn; unfold fin_ev; rewrite <- H; cbn; auto.
  - (* MSend, alive *) right. unfold after_send. destruct c0; [|destruct (cof c)|]; try discriminate; destruct rest; discriminate.
  - (* MPut, kept or put *) intros o' [H|H]; [right; left; exact H|]. left. destruct k; [destruct H | exact H].
  - (* MPut, alive *) right. destruct k; discriminate.
Qed.

Lemma invJ_step c os s l s' : trans c s l s' -> quiet s -> invJ c os s -> invJ c os s'.
Proof.
  intros T [Hs _] [J1 J2].
  step_cases T;
    try (split; assumption).
  - (* CRaise *) unfold has_to_stop in Hs. rewrite Es in Hs. discriminate.
  - (* CYield *) split; [|exact J2]. intros o Ho. unfold placed, hist. cbn [ops workers emitted queue]. rewrite (hist_yield s e q Eq). apply J1, Ho.
  - (* worker *) destruct (holds_move c _ _ _ _ _ _ M Hs) as (Hfetch & Hkeep & Hdead & Hnil). split.
    + intros o Ho. unfold placed. rewrite hist_moved. cbn [ops workers moved].
      assert (Hme : holds c w' o -> exists j wj, nth_error (upd i w' (workers s)) j = Some wj /\ holds c wj o).
      { intros H. exists i, w'. split; [|exact H]. apply nth_error_upd_same, nth_error_Some. congruence. }
      destruct (J1 o Ho) as [H|[(j & wj & Hj & Hh)|H]].
      * destruct (Hfetch o H); auto.
      * destruct (Nat.eq_dec j i) as [->|Hne].
        -- rewrite Hi in Hj. inversion Hj; subst wj. destruct (Hkeep o Hh); auto using in_or_app.
        -- right; left. exists j, wj. split; [|exact Hh]. rewrite nth_error_upd_other; auto.
      * right; right. apply in_or_app; auto.
    + cbn [ops workers moved]. destruct J2 as [J2|J2]; [left; auto|]. destruct Hdead as [H|H]; [left; auto|].
      right. apply wforall_upd; assumption.
Qed.

Lemma invJ_init c n os : invJ c os (init n os).
Proof. split; [intros o Ho; left; exact Ho|]. right. apply wforall_repeat. discriminate. Qed.

Definition invAll (c : cfg) (os : list opb) (s : state) : Prop :=
  invFE s /\ quiet s /\ invJ c os s /\ invABC c s.

Lemma invAll_run c sched n os : drain_fix c = true -> maxf c = None -> no_stop sched ->
  invAll c os (run c sched (init n os)).
Proof.
  intros Hfix Hm Hn. apply run_inv_nostop; auto.
  - intros s l s' T Hl (HFE & HQ & HJ & HA & HB & HC). pose proof HFE as (HP & HF & HE).
    split; [|split; [|split; [|split; [|split]]]];
      eauto using invFE_step, quiet_step, invJ_step, invA_step, invB_step, invC_step.
  - split; [apply invFE_init|]. split; [apply quiet_init|]. split; [apply invJ_init|].
    split; [apply invA_init|]. split; [apply invB_init | apply invC_init].
Qed.

Lemma complete_run_finishes c sched n os : drain_fix c = true -> maxf c = None -> no_stop sched -> 1 <= n ->
  let s := run c sched (init n os) in
  cp s = CDone -> forall o, In o os -> In (fin_ev c o) (trace s).
Proof.
  intros Hfix Hm Hn Hn1 s Hcp.
  destruct (invAll_run c sched n os Hfix Hm Hn) as (_ & [Hts _] & [J1 J2] & _ & _ & HC). fold s in Hts, J1, J2, HC.
  destruct HC as (_ & Hdone & _). destruct (Hdone Hcp Hts) as (Hdead & Hq & _).
  assert (Hh : hist s = trace s) by (unfold hist, trace; rewrite Hq, app_nil_r; reflexivity).
  (* all workers are dead, there is at least one: nothing is left to fetch *)
  assert (Hops : ops s = []).
  { destruct J2 as [H|H]; [exact H|]. pose proof (run_workers_length c sched n os) as Hlen. fold s in Hlen.
    destruct (workers s) as [|w ws] eqn:Ew; [cbn in Hlen; lia|]. destruct (H 0 w eq_refl). apply (all_dead_nth _ 0 w Hdead eq_refl). }
  intros o Ho. destruct (J1 o Ho) as [H|[(j & w & Hj & Hheld)|H]].
  - rewrite Hops in H. destruct H.
  - rewrite (all_dead_nth _ _ _ Hdead Hj) in Hheld. destruct Hheld.
  - rewrite <- Hh. exact H.
Qed.

(* ... and is FAILURE or ERROR as soon as it yielded an event that weighs at least FAILURE: the status covers the event
   (status_covers) and, nothing having been interrupted, is not above ERROR *)
Lemma quiet_run_bad c sched n os : drain_fix c = true -> maxf c = None -> no_stop sched ->
  let s := run c sched (init n os) in
  cp s = CDone -> forall e r, In e (trace s) -> sev e = Some r -> 1 <= r -> is_bad (final_status s) = true.
Proof.
  intros Hfix Hm Hn s Hcp e r Hin Hr Hr1.
  destruct (invAll_run c sched n os Hfix Hm Hn) as (_ & [_ Hlow] & _). fold s in Hlow.
  destruct (status_covers c sched n os Hcp e r Hin Hr) as [Hns Hle]. fold s in Hns, Hle.
  unfold final_status in *. destruct (executed s); [|congruence]. destruct (cstatus s) as [cur|]; [|congruence].
  cbn in Hlow. destruct cur; cbn in *; try reflexivity; lia.
Qed.

(* the operations and the schedule of C05_complete_example *)
Definition op_err (id : nat) : opb := {| op_id := id; build_err := false; cases := [CaseOk; CaseErr]; end_skip := false |}.
Definition op_build (id : nat) : opb := {| op_id := id; build_err := true; cases := []; end_skip := false |}.
Definition sched_full : list label :=
  [W 0; W 0; W 1; W 1; W 0; W 1; W 0; W 0; W 0; W 1; W 1; W 1; W 1; W 1; W 1; C; C; C; C; C; C; C; C; C; C;
   W 0; W 0; W 0; W 0; W 0; W 0; W 1; W 1; C; C; C; C; C; C; C; W 0; W 0; W 0; C; C; C].
