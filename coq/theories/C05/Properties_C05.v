(* The theorems of C05, each with the argument that takes it from the lemmas of Proofs_C05 and Proofs_C11. *)
From Coq Require Import List NArith Bool Arith Lia.
From Verif Require Import Common.Lists C11.Model_C11 C11.Proofs_C11 C05.Model_C05 C05.Proofs_C05.
From Verif Require C11.ModelP_C11 C11.ProofsP2_C11.
Import ListNotations.

(* A complete, uninterrupted unit phase (any number of workers >= 1, any interleaving, any behaviour of
   the operations incl. errors while building the test): every operation is reported with the status its
   behaviour implies; the phase is FAILURE/ERROR as soon as one operation failed or errored; and the phase
   is clean only if every operation passed or was skipped and no non-fatal error was emitted. *)
Theorem C05_complete_run_reports : forall c sched n os,
  drain_fix c = true -> maxf c = None -> no_stop sched -> 1 <= n ->
  let s := run c sched (init n os) in
  cp s = CDone ->
  (forall o, In o os -> In (ScFinish (op_id o) (expected_status c o)) (trace s)) /\
  ((exists o, In o os /\ is_bad (expected_status c o) = true) -> is_bad (final_status s) = true) /\
  (is_bad (final_status s) = false ->
     (forall o, In o os -> is_bad (expected_status c o) = false) /\ has_nonfatal (trace s) = false).
Proof.
  intros c sched n os Hfix Hm Hn Hn1 s Hcp.
  pose proof (complete_run_finishes c sched n os Hfix Hm Hn Hn1 Hcp) as Hfin.
  pose proof (quiet_run_bad c sched n os Hfix Hm Hn Hcp) as Hbad. fold s in Hfin, Hbad.
  assert (Hop : forall o, In o os -> is_bad (expected_status c o) = true -> is_bad (final_status s) = true).
  { intros o Ho Hb. apply (Hbad _ (srank (expected_status c o)) (Hfin o Ho)); unfold fin_ev; destruct (expected_status c o); try discriminate; cbn; auto. }
  split; [exact Hfin|]. split; [intros (o & Ho & Hb); eauto|]. intros Hb. split.
  - intros o Ho. destruct (is_bad (expected_status c o)) eqn:Eb; [|reflexivity]. rewrite (Hop o Ho Eb) in Hb. discriminate.
  - unfold has_nonfatal. destruct (existsb _ (trace s)) eqn:Ex; [|reflexivity].
    apply existsb_exists in Ex. destruct Ex as [e [He Hnf]]. destruct e; try discriminate.
    rewrite (Hbad _ 2 He eq_refl) in Hb by lia. discriminate.
Qed.
Print Assumptions C05_complete_run_reports.

(* run_test: whatever exception class the test function ends with (other than SkipTest and
   KeyboardInterrupt) and whatever marks are set, the scenario is FAILURE or ERROR, never a pass. *)
Theorem C05_ladder_never_passes : forall e f, raises e = true ->
  exists st nf, ladder e f = Outcome st nf /\ is_bad st = true.
Proof.
  intros e f He. destruct (ladder_status e f) as [nf E]; [intros ->; discriminate|]. rewrite E. eexists _, _. split; [reflexivity|].
  destruct (marked f); [reflexivity|]. destruct e; try discriminate; reflexivity.
Qed.
Print Assumptions C05_ladder_never_passes.

Theorem C05_ladder_pass_only_if_clean : forall e f st nf, ladder e f = Outcome st nf -> is_bad st = false ->
  (e = ENone \/ e = ESkipTest) /\ f_unsat_mark f = false /\ f_nonserializable f = false /\
  f_invalid_regex f = false /\ f_invalid_headers f = false /\ (e = ENone -> f_cof_failed f = false).
Proof.
  intros e f st nf E Hb. destruct (ladder_status e f) as [nf' E']; [intros ->; discriminate|]. rewrite E' in E. inversion E; subst st. clear E.
  unfold marked in Hb. destruct (f_unsat_mark f), (f_nonserializable f), (f_invalid_regex f), (f_invalid_headers f); try discriminate.
  unfold first_status in Hb. destruct e; try discriminate; (split; [auto|]); repeat split; try discriminate.
  intros _. destruct (f_cof_failed f); [discriminate | reflexivity].
Qed.
Print Assumptions C05_ladder_pass_only_if_clean.

(* exit code 0 only if no executed phase failed or errored and no non-fatal error was emitted *)
Theorem C05_zero_exit_means_clean : forall t, exit_code t = 0 ->
  forall e, In e t ->
    match e with
    | PhaseBody _ body _ => has_nonfatal body = false
    | PhaseFinished _ st _ => is_bad st = false
    | _ => True
    end.
Proof.
  unfold exit_code. intros t. destruct (existsb pev_sets_exit t) eqn:E; [discriminate|]. intros _ e He.
  pose proof (existsb_false_In _ _ _ E He) as H.
  destruct e; auto.
Qed.
Print Assumptions C05_zero_exit_means_clean.

(* the CLI around the engine: an internal error in the main thread (FatalError event) or a raising report handler
   always ends in a non-zero exit code; exit code 0 implies neither happened and the engine-level rule holds *)
Theorem C05_cli_fatal_error_exits_nonzero : forall l, In CFatalError l \/ In CHandlerRaises l -> cli_exit_code l = 1.
Proof.
  intros l H. unfold cli_exit_code.
  assert (existsb cli_aborts l = true) by (apply existsb_exists; destruct H; eexists; split; eauto).
  rewrite H0. reflexivity.
Qed.
Print Assumptions C05_cli_fatal_error_exits_nonzero.

Theorem C05_cli_zero_exit_means_no_abort : forall l, cli_exit_code l = 0 ->
  (forall x, In x l -> cli_aborts x = false) /\ exit_code (cli_engine_events l) = 0.
Proof.
  intros l. unfold cli_exit_code. destruct (existsb cli_aborts l) eqn:E; [discriminate|]. intros H. split; auto.
  intros x. apply existsb_false_In, E.
Qed.
Print Assumptions C05_cli_zero_exit_means_no_abort.

(* non-vacuity: a complete quiet run of three operations (failing, erroring, unbuildable) on two workers *)
Theorem C05_complete_example :
  let c := cfg_now None in
  let s := run c sched_full (init 2 [op_fail 0; op_err 1; op_build 2]) in
  cp s = CDone /\ final_status s = ERROR /\
  trace s = [ScStart 0; ScStart 1; ScFinish 0 FAILURE; NonFatal 1; ScFinish 1 ERROR; ScStart 2; NonFatal 2; ScFinish 2 ERROR].
Proof. vm_compute. auto. Qed.
Print Assumptions C05_complete_example.

(* ---- the stateful phase (ModelP_C11: execute_state_machine_loop + the consumer's status fold) ----
   When the state-machine thread has ended and some scenario was reported FAILURE / ERROR (or worse), the phase status is
   not SUCCESS and not SKIP: FAILURE, ERROR - which set a non-zero exit code - or INTERRUPTED.  For every behaviour in which
   an exception raised by a step is what Hypothesis' run() ends with, every failure limit, every stop point. *)
Theorem C05_stateful_failure_reaches_phase_partial : forall c stop0 limit0 counter0 behs ls,
  forallb ModelP_C11.consistent_beh behs = true ->
  let s := ModelP_C11.prun c ls (ModelP_C11.pinit stop0 limit0 counter0 behs) in
  ModelP_C11.p_pc s = ModelP_C11.PDone ->
  1 <= ModelP_C11.worst_scenario (ModelP_C11.pscript s) ->
  ModelP_C11.phase_status (ModelP_C11.pscript s) <> SUCCESS /\ ModelP_C11.phase_status (ModelP_C11.pscript s) <> SKIP.
Proof.
  intros c stop0 limit0 counter0 behs ls Hc s Hd Hw.
  pose proof (ProofsP2_C11.producer_status_covers c stop0 limit0 counter0 behs ls Hc Hd) as H. fold s in H.
  unfold ModelP_C11.phase_rank in H.
  destruct (ModelP_C11.phase_status (ModelP_C11.pscript s)); cbn in H; split; try discriminate; lia.
Qed.
Print Assumptions C05_stateful_failure_reaches_phase_partial.

(* ---- runs that stop at the failure limit ----
   The limit flag can only be raised through a failed / errored ScenarioFinished the consumer has already yielded: whenever
   the limit is reached - any configuration, number of workers, behaviour, interleaving - a failure is in the reported stream.
   (Raising the flag from the worker that produced the event would lose it: the consumer leaves on has_to_stop.) *)
Theorem C05_limit_reached_means_failure_reported : forall c sched n os,
  let s := run c sched (init n os) in
  limit s = true -> existsb counts_as_failure (trace s) = true.
Proof.
  intros c sched n os s Hl. subst s. destruct (invPL_run c sched n os) as [_ [L1 _]]. destruct (L1 Hl) as [_ (e & t & Et & He)].
  apply existsb_exists. exists e. split; [|exact He]. unfold trace. rewrite <- in_rev, Et. left. reflexivity.
Qed.
Print Assumptions C05_limit_reached_means_failure_reported.
