(* C19 proofs, in this order: facts about upd and hp; the heap machine of to_filterable_hook refines the value semantics
   (invariant Inv: every closure and every decorator is the only owner of its heap cell; trans / step_spec: one step of
   code, specification and ledger by operation); registration expressions read declaratively; skipping and dispatch over
   the scopes; auth providers; witnesses for these parts; generation interleaved with registration; the ledger of
   registrations in lock step with _hooks (LInv); evaluation sequences through a matcher implementation with memory
   and the label-cache sentinel; several hooks under one name and the late-binding sentinel. *)
From Coq Require Import List NArith Bool Arith Lia.
From Verif Require Import Common.Str Common.Lists C19.Model_C19.
Import ListNotations.

Lemma length_upd {A} i (x : A) l : length (upd i x l) = length l.
Proof. revert i; induction l as [|a l IH]; intros [|i]; cbn; auto. Qed.

Lemma nth_error_upd_same {A} i (x y : A) l : nth_error l i = Some y -> nth_error (upd i x l) i = Some x.
Proof. revert i; induction l as [|a l IH]; intros [|i]; cbn; intros H; try discriminate; auto. Qed.

Lemma nth_error_upd_other {A} i j (x : A) l : i <> j -> nth_error (upd i x l) j = nth_error l j.
Proof.
  revert i j; induction l as [|a l IH]; intros [|i] [|j] H; cbn; auto; try congruence;
  try (apply IH; congruence).
Qed.

Lemma hp_upd_same h t v : t < length h -> hp (upd t v h) t = v.
Proof. unfold hp; revert t; induction h as [|a h IH]; intros [|t] H; cbn in *; try lia; auto. apply IH; lia. Qed.

Lemma hp_upd_other h t u v : t <> u -> hp (upd t v h) u = hp h u.
Proof.
  unfold hp; revert t u; induction h as [|a h IH]; intros [|t] [|u] H; cbn; auto; try congruence;
  try (apply IH; congruence).
Qed.

(* fs_empty is what hp answers outside the heap *)
Lemma hp_app_old h i : hp (h ++ [fs_empty]) i = hp h i.
Proof.
  unfold hp. destruct (Nat.lt_ge_cases i (length h)) as [H|H].
  - apply app_nth1; exact H.
  - rewrite app_nth2 by exact H. rewrite (nth_overflow h) by exact H.
    destruct (i - length h) as [|[|m]]; reflexivity.
Qed.

Lemma hp_app_new h x : hp (h ++ [x]) (length h) = x.
Proof. unfold hp; rewrite app_nth2, Nat.sub_diag; [reflexivity | lia]. Qed.

Lemma upd_hp_same h t : upd t (hp h t) h = h.
Proof. unfold hp; revert t; induction h as [|a h IH]; intros [|t]; cbn; auto. rewrite IH; reflexivity. Qed.

Lemma upd_same_id {A} i (x : A) l : nth_error l i = Some x -> upd i x l = l.
Proof. revert i; induction l as [|a l IH]; intros [|i] H; cbn in *; try discriminate; [congruence|]. rewrite (IH i H); reflexivity. Qed.

Lemma map_upd_same {A B} (g : A -> B) i x x' l :
  nth_error l i = Some x -> g x' = g x -> map g (upd i x' l) = map g l.
Proof.
  revert i; induction l as [|a l IH]; intros [|i] H E; cbn in *; try discriminate.
  - inversion H; subst a. rewrite E. reflexivity.
  - rewrite (IH i H E). reflexivity.
Qed.

Lemma fst_run_cons fixed st o ops :
  fst (run_gen fixed st (o :: ops)) = fst (run_gen fixed (fst (step_gen fixed st o)) ops).
Proof.
  cbn [run_gen]. destruct (step_gen fixed st o) as [st' out]. cbn [fst].
  destruct (run_gen fixed st' ops) as [st'' outs]. reflexivity.
Qed.

Lemma Forall2_upd {A B} (P : A -> B -> Prop) i x y l l' :
  Forall2 P l l' -> P x y -> Forall2 P (upd i x l) (upd i y l').
Proof. intros F H; revert i; induction F; intros [|i]; cbn; constructor; auto. Qed.

Lemma Forall2_len {A B} (P : A -> B -> Prop) l l' : Forall2 P l l' -> length l = length l'.
Proof. intros F; induction F; cbn; auto. Qed.

Lemma Forall2_nth {A B} (P : A -> B -> Prop) l l' i :
  Forall2 P l l' ->
  match nth_error l i, nth_error l' i with Some x, Some y => P x y | None, None => True | _, _ => False end.
Proof. intros F; revert i; induction F; intros [|i]; cbn; auto. apply IHF. Qed.

(* Who can still write to a heap cell: a closure (through its nonlocal filter_set) or a decorator. *)
Inductive owner := OReg (i : nat) | ODec (k : nat).

Lemma owner_eq_dec (w w' : owner) : {w = w'} + {w <> w'}.
Proof. decide equality; apply Nat.eq_dec. Qed.

(* one field of every closure and of every decorator, by owner *)
Definition owned {A B C} (f : A -> C) (g : B -> C) (la : list A) (lb : list B) (w : owner) : option C :=
  match w with
  | OReg i => option_map f (nth_error la i)
  | ODec k => option_map g (nth_error lb k)
  end.

Lemma owned_upd_l {A B C} (f : A -> C) (g : B -> C) la lb i a a' w :
  nth_error la i = Some a ->
  owned f g (upd i a' la) lb w = if owner_eq_dec w (OReg i) then Some (f a') else owned f g la lb w.
Proof.
  intros H. destruct (owner_eq_dec w (OReg i)) as [->|Hne]; cbn.
  - rewrite (nth_error_upd_same _ _ _ _ H). reflexivity.
  - destruct w as [j|k]; [|reflexivity]. cbn. rewrite nth_error_upd_other by congruence. reflexivity.
Qed.

Lemma owned_upd_r {A B C} (f : A -> C) (g : B -> C) la lb k b b' w :
  nth_error lb k = Some b ->
  owned f g la (upd k b' lb) w = if owner_eq_dec w (ODec k) then Some (g b') else owned f g la lb w.
Proof.
  intros H. destruct (owner_eq_dec w (ODec k)) as [->|Hne]; cbn.
  - rewrite (nth_error_upd_same _ _ _ _ H). reflexivity.
  - destruct w as [i|j]; [reflexivity|]. cbn. rewrite nth_error_upd_other by congruence. reflexivity.
Qed.

Lemma owned_snoc_r {A B C} (f : A -> C) (g : B -> C) la lb b w :
  owned f g la (lb ++ [b]) w = if owner_eq_dec w (ODec (length lb)) then Some (g b) else owned f g la lb w.
Proof.
  destruct (owner_eq_dec w (ODec (length lb))) as [->|Hne]; cbn.
  - rewrite nth_error_app2, Nat.sub_diag by lia. reflexivity.
  - destruct w as [i|j]; [reflexivity|]. cbn. f_equal.
    destruct (Nat.lt_ge_cases j (length lb)) as [H|H]; [apply nth_error_app1; exact H|].
    rewrite (proj2 (nth_error_None lb j)) by exact H. apply nth_error_None. rewrite app_length; cbn.
    assert (j <> length lb) by congruence. lia.
Qed.

(* the cell an owner writes to, and the value the specification keeps for that owner *)
Definition cell (rs : list registrar) (ds : list decorator) : owner -> option nat := owned r_cur d_fs rs ds.
Definition sval (ss : sstate) : owner -> option fset := owned s_pending sd_val (s_regs ss) (s_decs ss).

Definition reg_ok (r : registrar) (s : sreg) : Prop := r_used r = s_used s /\ r_proxy r = r_cur r.
Definition dec_ok (d : decorator) (s : sdec) : Prop := d_reg d = sd_reg s /\ d_name d = sd_name s /\ d_proxy d = d_fs d.

(* the cell of a function-form hook is frozen: it holds the value and has no owner any more;
   the cell of a named-form hook is its decorator's *)
Definition attr_ok (h : list fset) (rs : list registrar) (ds : list decorator) (a : N * nat) (b : N * own) : Prop :=
  fst a = fst b /\ snd a < length h /\
  match snd b with
  | OwnVal v => hp h (snd a) = v /\ forall w, cell rs ds w <> Some (snd a)
  | OwnDec k => cell rs ds (ODec k) = Some (snd a)
  end.

(* every owner's cell holds the specification's value for it, and no two owners share a cell *)
Record Inv (cl : list nat) (h : list fset) (rs : list registrar) (ds : list decorator) (fa : list (N * nat)) (ss : sstate) : Prop := {
  I_val : forall w, sval ss w = option_map (hp h) (cell rs ds w);
  I_bound : forall w c, cell rs ds w = Some c -> c < length h;
  I_inj : forall w w' c, cell rs ds w = Some c -> cell rs ds w' = Some c -> w = w';
  I_reg : Forall2 reg_ok rs (s_regs ss);
  I_dec : Forall2 dec_ok ds (s_decs ss);
  I_attr : Forall2 (attr_ok h rs ds) fa (s_attr ss);
  I_disp : map r_disp rs = cl
}.
Arguments I_val {cl h rs ds fa ss}.
Arguments I_reg {cl h rs ds fa ss}.
Arguments I_dec {cl h rs ds fa ss}.
Arguments I_disp {cl h rs ds fa ss}.

Definition InvS (cl : list nat) (st : state) (ss : sstate) : Prop := Inv cl (heap st) (regs st) (decs st) (fattr st) ss.

Lemma inv_filter_of cl st ss f : InvS cl st ss -> filter_of st f = own_chain ss f.
Proof.
  intros [Hval _ _ _ _ Hattr _]. unfold filter_of, own_chain.
  induction Hattr as [|[g a] [g' o] fa sa Hab _ IH]; [reflexivity|].
  destruct Hab as (Hk & _ & Ho). cbn [fst snd] in *. subst g'.
  cbn [lookup slookup]. destruct (N.eqb f g); [|exact IH].
  cbn [option_map]. destruct o as [v|k].
  - destruct Ho as [-> _]. reflexivity.
  - specialize (Hval (ODec k)). rewrite Ho in Hval. cbn in Hval.
    destruct (nth_error (s_decs ss) k); [|discriminate]. cbn in Hval. congruence.
Qed.

Lemma inv_reg_at {cl h rs ds fa ss} i :
  Inv cl h rs ds fa ss ->
  match nth_error rs i, nth_error (s_regs ss) i with
  | Some r, Some s => reg_ok r s /\ hp h (r_cur r) = s_pending s /\ cell rs ds (OReg i) = Some (r_cur r)
  | None, None => True
  | _, _ => False
  end.
Proof.
  intros HI. pose proof (Forall2_nth _ _ _ i (I_reg HI)) as H. pose proof (I_val HI (OReg i)) as Hv.
  unfold sval, cell, owned in *. destruct (nth_error rs i), (nth_error (s_regs ss) i); try exact H.
  cbn in Hv. split; [exact H|]. split; [congruence | reflexivity].
Qed.

Lemma inv_dec_at {cl h rs ds fa ss} k :
  Inv cl h rs ds fa ss ->
  match nth_error ds k, nth_error (s_decs ss) k with
  | Some d, Some s => dec_ok d s /\ hp h (d_fs d) = sd_val s /\ cell rs ds (ODec k) = Some (d_fs d)
  | None, None => True
  | _, _ => False
  end.
Proof.
  intros HI. pose proof (Forall2_nth _ _ _ k (I_dec HI)) as H. pose proof (I_val HI (ODec k)) as Hv.
  unfold sval, cell, owned in *. destruct (nth_error ds k), (nth_error (s_decs ss) k); try exact H.
  cbn in Hv. split; [exact H|]. split; [congruence | reflexivity].
Qed.

(* frame for the function attributes: a step that keeps the contents of the cells without owner, gives none of
   them an owner and leaves the decorators their cells keeps attr_ok *)
Lemma attr_frame h h' rs ds rs' ds' fa sa :
  length h <= length h' ->
  (forall c, c < length h -> (forall w, cell rs ds w <> Some c) ->
             hp h' c = hp h c /\ forall w, cell rs' ds' w <> Some c) ->
  (forall k c, cell rs ds (ODec k) = Some c -> cell rs' ds' (ODec k) = Some c) ->
  Forall2 (attr_ok h rs ds) fa sa -> Forall2 (attr_ok h' rs' ds') fa sa.
Proof.
  intros Hlen Hfree Hdec. apply Forall2_weaken.
  intros [g a] [g' o] (Hk & Hlt & Ho). unfold attr_ok; cbn [fst snd] in *. split; [exact Hk|]. split; [lia|].
  destruct o as [v|k]; [|exact (Hdec _ _ Ho)].
  destruct Ho as [Hv Hno]. destruct (Hfree a Hlt Hno) as [Hv' Hno']. split; [congruence | exact Hno'].
Qed.

(* the record updates of the two machines: filter_used set; a fresh cell with the flag clear; nothing pending *)
Definition flagged (r : registrar) : registrar :=
  {| r_disp := r_disp r; r_used := true; r_cur := r_cur r; r_proxy := r_proxy r |}.
Definition moved (r : registrar) (c : nat) : registrar :=
  {| r_disp := r_disp r; r_used := false; r_cur := c; r_proxy := c |}.
Definition clean : sreg := {| s_used := false; s_pending := fs_empty |}.

(* a filter call: the cell of owner w0 is overwritten; closures change at most their flag *)
Lemma inv_write cl h rs ds fa ss i r ss' w0 c0 v :
  Inv cl h rs ds fa ss -> cell rs ds w0 = Some c0 -> nth_error rs i = Some r ->
  (forall w, sval ss' w = if owner_eq_dec w w0 then Some v else sval ss w) ->
  Forall2 reg_ok (upd i (flagged r) rs) (s_regs ss') -> Forall2 dec_ok ds (s_decs ss') -> s_attr ss' = s_attr ss ->
  Inv cl (upd c0 v h) (upd i (flagged r) rs) ds fa ss'.
Proof.
  intros [Hval Hb Hinj _ _ Hattr Hdisp] H0 Er Hsval Hr Hd Ha. pose proof (Hb _ _ H0) as Hb0.
  (* a closure whose flag alone changes keeps its cell and its dispatcher *)
  assert (Hcell : forall w, cell (upd i (flagged r) rs) ds w = cell rs ds w).
  { intros w. unfold cell. rewrite (owned_upd_l _ _ _ _ _ _ (flagged r) w Er).
    destruct (owner_eq_dec w (OReg i)) as [->|_]; [|reflexivity]. cbn. rewrite Er. reflexivity. }
  assert (Hrd : map r_disp (upd i (flagged r) rs) = map r_disp rs) by (apply (map_upd_same r_disp _ r); [exact Er | reflexivity]).
  constructor; try assumption; [| | | |congruence].
  - intros w. rewrite Hsval, Hcell. destruct (owner_eq_dec w w0) as [->|Hne].
    + rewrite H0. cbn. rewrite hp_upd_same by exact Hb0. reflexivity.
    + rewrite Hval. destruct (cell rs ds w) as [c|] eqn:E; [cbn|reflexivity].
      rewrite hp_upd_other; [reflexivity|]. intros <-. apply Hne. exact (Hinj _ _ _ E H0).
  - intros w c. rewrite Hcell, length_upd. apply Hb.
  - intros w w' c. rewrite !Hcell. apply Hinj.
  - rewrite Ha. apply (attr_frame h _ rs ds); [rewrite length_upd; lia | | intros k c; rewrite Hcell; auto | exact Hattr].
    intros c _ Hno. split; [|intros w; rewrite Hcell; apply Hno].
    apply hp_upd_other. intros <-. exact (Hno w0 H0).
Qed.

(* register(function): closure i moves to a fresh cell, its old cell is frozen into the function *)
Lemma inv_reg_fn cl h rs ds fa ss i r s f :
  Inv cl h rs ds fa ss -> nth_error rs i = Some r -> nth_error (s_regs ss) i = Some s ->
  Inv cl (h ++ [fs_empty])
      (upd i (moved r (length h)) rs) ds
      ((f, r_cur r) :: fa)
      {| s_regs := upd i clean (s_regs ss); s_decs := s_decs ss;
         s_attr := (f, OwnVal (s_pending s)) :: s_attr ss |}.
Proof.
  intros HI Hr Hs. pose proof (inv_reg_at i HI) as H. rewrite Hr, Hs in H. destruct H as (_ & Hp & H0).
  destruct HI as [Hval Hb Hinj Hreg Hdec Hattr Hdisp]. pose proof (Hb _ _ H0) as Hb0.
  set (r' := moved r (length h)).
  assert (Hcell : forall w, cell (upd i r' rs) ds w = if owner_eq_dec w (OReg i) then Some (length h) else cell rs ds w)
    by (intros w; exact (owned_upd_l _ _ _ _ _ _ r' w Hr)).
  assert (Hlen : length (h ++ [fs_empty]) = S (length h)) by (rewrite app_length; cbn; lia).
  constructor; cbn [s_regs s_decs s_attr].
  - intros w. unfold sval; cbn [s_regs s_decs]. rewrite (owned_upd_l _ _ _ _ _ _ _ w Hs), Hcell.
    destruct (owner_eq_dec w (OReg i)); cbn; [rewrite hp_app_new; reflexivity|].
    fold (sval ss w). rewrite Hval. destruct (cell rs ds w) as [c|] eqn:E; [cbn|reflexivity].
    rewrite hp_app_old. reflexivity.
  - intros w c. rewrite Hcell, Hlen. destruct (owner_eq_dec w (OReg i)); intros E; [inversion E; lia|].
    specialize (Hb _ _ E). lia.
  - intros w w' c. rewrite !Hcell.
    destruct (owner_eq_dec w (OReg i)) as [->|], (owner_eq_dec w' (OReg i)) as [->|]; intros E E'; auto.
    + inversion E; subst c. specialize (Hb _ _ E'). lia.
    + inversion E'; subst c. specialize (Hb _ _ E). lia.
    + exact (Hinj _ _ _ E E').
  - apply Forall2_upd; [exact Hreg | split; reflexivity].
  - exact Hdec.
  - constructor.
    + split; [reflexivity|]. cbn [snd]. rewrite Hlen. split; [lia|]. split; [rewrite hp_app_old; exact Hp|].
      intros w. rewrite Hcell. destruct (owner_eq_dec w (OReg i)) as [->|Hne]; intros E; [inversion E; lia|].
      apply Hne. exact (Hinj _ _ _ E H0).
    + apply (attr_frame h _ rs ds); [lia | | intros k c; rewrite Hcell; destruct (owner_eq_dec (ODec k) (OReg i)); [discriminate | auto] | exact Hattr].
      intros c Hc Hno. split; [apply hp_app_old|]. intros w. rewrite Hcell.
      destruct (owner_eq_dec w (OReg i)); [intros E; inversion E; lia | apply Hno].
  - rewrite (map_upd_same r_disp _ r); auto.
Qed.

(* register(name): closure i moves to a fresh cell, its old cell becomes the new decorator's *)
Lemma inv_reg_name cl h rs ds fa ss i r s n :
  Inv cl h rs ds fa ss -> nth_error rs i = Some r -> nth_error (s_regs ss) i = Some s ->
  Inv cl (h ++ [fs_empty])
      (upd i (moved r (length h)) rs)
      (ds ++ [{| d_reg := i; d_name := n; d_fs := r_cur r; d_proxy := r_cur r |}]) fa
      {| s_regs := upd i clean (s_regs ss);
         s_decs := s_decs ss ++ [{| sd_reg := i; sd_name := n; sd_val := s_pending s |}];
         s_attr := s_attr ss |}.
Proof.
  intros HI Hr Hs. pose proof (inv_reg_at i HI) as H. rewrite Hr, Hs in H. destruct H as (_ & Hp & H0).
  destruct HI as [Hval Hb Hinj Hreg Hdec Hattr Hdisp]. pose proof (Hb _ _ H0) as Hb0.
  set (r' := moved r (length h)).
  set (d' := {| d_reg := i; d_name := n; d_fs := r_cur r; d_proxy := r_cur r |}).
  assert (Hcell : forall w, cell (upd i r' rs) (ds ++ [d']) w
                            = if owner_eq_dec w (ODec (length ds)) then Some (r_cur r)
                              else if owner_eq_dec w (OReg i) then Some (length h) else cell rs ds w).
  { intros w. unfold cell. rewrite owned_snoc_r, (owned_upd_l _ _ _ _ _ _ r' w Hr). reflexivity. }
  assert (Hnew : cell rs ds (ODec (length ds)) = None) by (cbn; rewrite (proj2 (nth_error_None ds _)); auto).
  assert (Hlen : length (h ++ [fs_empty]) = S (length h)) by (rewrite app_length; cbn; lia).
  assert (Hld : length (s_decs ss) = length ds) by (symmetry; exact (Forall2_len _ _ _ Hdec)).
  constructor; cbn [s_regs s_decs s_attr].
  - intros w. unfold sval; cbn [s_regs s_decs]. rewrite owned_snoc_r, (owned_upd_l _ _ _ _ _ _ _ w Hs), Hld, Hcell.
    destruct (owner_eq_dec w (ODec (length ds))); cbn; [rewrite hp_app_old; congruence|].
    destruct (owner_eq_dec w (OReg i)); cbn; [rewrite hp_app_new; reflexivity|].
    fold (sval ss w). rewrite Hval. destruct (cell rs ds w) as [c|] eqn:E; [cbn|reflexivity].
    rewrite hp_app_old. reflexivity.
  - intros w c. rewrite Hcell, Hlen. destruct (owner_eq_dec w (ODec (length ds))); intros E; [inversion E; lia|].
    destruct (owner_eq_dec w (OReg i)); [inversion E; lia|]. specialize (Hb _ _ E). lia.
  - (* three kinds of owner with disjoint cells: the new decorator on the closure's old cell, the closure on the
       fresh cell, every other owner on its old cell, which is neither *)
    assert (Hkind : forall w c, cell (upd i r' rs) (ds ++ [d']) w = Some c ->
              (w = ODec (length ds) /\ c = r_cur r) \/ (w = OReg i /\ c = length h) \/
              (cell rs ds w = Some c /\ c < length h /\ c <> r_cur r)).
    { intros w c. rewrite Hcell. destruct (owner_eq_dec w (ODec (length ds))) as [->|Hd]; [intros E; inversion E; auto|].
      destruct (owner_eq_dec w (OReg i)) as [->|Hi]; [intros E; inversion E; auto|].
      intros E. right; right. split; [exact E|]. split; [exact (Hb _ _ E)|].
      intros ->. apply Hi. exact (Hinj _ _ _ E H0). }
    (* owners of one kind: the kind determines the owner, or I_inj does; of two kinds: the cells differ *)
    intros w w' c E E'.
    destruct (Hkind w c E) as [[-> Ec]|[[-> Ec]|(Eo & Hlt & Hne)]], (Hkind w' c E') as [[-> Ec']|[[-> Ec']|(Eo' & Hlt' & Hne')]].
    + reflexivity.
    + lia.
    + congruence.
    + lia.
    + reflexivity.
    + lia.
    + congruence.
    + lia.
    + exact (Hinj _ _ _ Eo Eo').
  - apply Forall2_upd; [exact Hreg | split; reflexivity].
  - apply Forall2_app; [exact Hdec | repeat constructor].
  - apply (attr_frame h _ rs ds); [lia | | | exact Hattr].
    + intros c Hc Hno. split; [apply hp_app_old|]. intros w. rewrite Hcell.
      destruct (owner_eq_dec w (ODec (length ds))); [intros E; inversion E; subst c; exact (Hno _ H0)|].
      destruct (owner_eq_dec w (OReg i)); [intros E; inversion E; lia | apply Hno].
    + intros k c E. rewrite Hcell. destruct (owner_eq_dec (ODec k) (ODec (length ds))) as [E'|]; [congruence|].
      destruct (owner_eq_dec (ODec k) (OReg i)); [discriminate | exact E].
  - rewrite (map_upd_same r_disp _ r); auto.
Qed.

Lemma inv_dec_apply cl h rs ds fa ss k d f :
  Inv cl h rs ds fa ss -> nth_error ds k = Some d ->
  Inv cl h rs ds ((f, d_fs d) :: fa)
      {| s_regs := s_regs ss; s_decs := s_decs ss; s_attr := (f, OwnDec k) :: s_attr ss |}.
Proof.
  intros [Hval Hb Hinj Hreg Hdec Hattr Hdisp] Hd.
  assert (H0 : cell rs ds (ODec k) = Some (d_fs d)) by (cbn; rewrite Hd; reflexivity).
  constructor; auto. constructor; [|exact Hattr]. repeat split; [exact (Hb _ _ H0) | exact H0].
Qed.

(* the include / exclude closures of init_filter_set; a refused filter call writes back what the target held *)
Lemma do_filter_fst st ri r t inc c :
  fst (do_filter st ri r t inc c)
  = {| heap := upd t (s_filter inc c (hp (heap st) t)) (heap st);
       regs := upd ri (flagged r) (regs st);
       decs := decs st; fattr := fattr st; disps := disps st |}.
Proof.
  unfold do_filter, s_filter, set_reg. destruct (add_filter inc c (hp (heap st) t)); cbn [fst]; [reflexivity|].
  rewrite upd_hp_same. reflexivity.
Qed.

(* One step of both machines and of the ledger, by operation, under the invariant: either nothing changes (an object
   that does not exist, a registration refused by validate_filterable_hook) or one of the eight rules applies.  Cells
   and values are written as the invariant relates them (proxy = current cell, cell content = specification value). *)

Inductive trans (scopes : list scope) (st : state) (ss : sstate) (lg : list entry)
  : op -> state -> sstate -> list entry -> Prop :=
| T_none o : trans scopes st ss lg o st ss lg
| T_filter ri inc c r s :
    nth_error (regs st) ri = Some r -> nth_error (s_regs ss) ri = Some s ->
    trans scopes st ss lg (OFilter ri inc c)
      {| heap := upd (r_cur r) (s_filter inc c (s_pending s)) (heap st); regs := upd ri (flagged r) (regs st);
         decs := decs st; fattr := fattr st; disps := disps st |}
      {| s_regs := upd ri {| s_used := true; s_pending := s_filter inc c (s_pending s) |} (s_regs ss); s_decs := s_decs ss; s_attr := s_attr ss |}
      lg
| T_dec_filter di inc c d sd r s :
    nth_error (decs st) di = Some d -> nth_error (s_decs ss) di = Some sd ->
    nth_error (regs st) (d_reg d) = Some r -> nth_error (s_regs ss) (d_reg d) = Some s ->
    trans scopes st ss lg (ODecFilter di inc c)
      {| heap := upd (d_fs d) (s_filter inc c (sd_val sd)) (heap st); regs := upd (d_reg d) (flagged r) (regs st);
         decs := decs st; fattr := fattr st; disps := disps st |}
      {| s_regs := upd (d_reg d) {| s_used := true; s_pending := s_pending s |} (s_regs ss);
         s_decs := upd di {| sd_reg := d_reg d; sd_name := sd_name sd; sd_val := s_filter inc c (sd_val sd) |} (s_decs ss);
         s_attr := s_attr ss |}
      lg
| T_reg_fn ri f r s :
    nth_error (regs st) ri = Some r -> nth_error (s_regs ss) ri = Some s ->
    trans scopes st ss lg (ORegFn ri f)
      {| heap := heap st ++ [fs_empty]; regs := upd ri (moved r (length (heap st))) (regs st); decs := decs st;
         fattr := (h_id f, r_cur r) :: fattr st; disps := snd (register_on (disps st) (r_disp r) f (h_name f)) |}
      {| s_regs := upd ri clean (s_regs ss); s_decs := s_decs ss;
         s_attr := (h_id f, OwnVal (s_pending s)) :: s_attr ss |}
      (ledger_add scopes lg (r_disp r) (h_name f) f (Some (OwnVal (s_pending s))))
| T_reg_name ri n r s :
    nth_error (regs st) ri = Some r -> nth_error (s_regs ss) ri = Some s ->
    trans scopes st ss lg (ORegName ri n)
      {| heap := heap st ++ [fs_empty]; regs := upd ri (moved r (length (heap st))) (regs st);
         decs := decs st ++ [{| d_reg := ri; d_name := n; d_fs := r_cur r; d_proxy := r_cur r |}];
         fattr := fattr st; disps := disps st |}
      {| s_regs := upd ri clean (s_regs ss);
         s_decs := s_decs ss ++ [{| sd_reg := ri; sd_name := n; sd_val := s_pending s |}]; s_attr := s_attr ss |}
      lg
| T_dec_apply di f d r :
    nth_error (decs st) di = Some d -> nth_error (regs st) (d_reg d) = Some r ->
    trans scopes st ss lg (ODecApply di f)
      {| heap := heap st; regs := regs st; decs := decs st; fattr := (h_id f, d_fs d) :: fattr st;
         disps := snd (register_on (disps st) (r_disp r) f (d_name d)) |}
      {| s_regs := s_regs ss; s_decs := s_decs ss; s_attr := (h_id f, OwnDec di) :: s_attr ss |}
      (ledger_add scopes lg (r_disp r) (d_name d) f (Some (OwnDec di)))
| T_direct di f n :
    trans scopes st ss lg (ODirect di f n)
      {| heap := heap st; regs := regs st; decs := decs st; fattr := fattr st;
         disps := snd (register_on (disps st) di f n) |}
      ss (ledger_add scopes lg di n f None)
| T_unregister di f :
    trans scopes st ss lg (OUnregister di f)
      {| heap := heap st; regs := regs st; decs := decs st; fattr := fattr st;
         disps := match nth_error (disps st) di with Some d => upd di (unregister_in f d) (disps st) | None => disps st end |}
      ss (filter (fun e => negb (Nat.eqb di (e_disp e) && N.eqb (e_fn e) f)) lg)
| T_unregister_all di :
    trans scopes st ss lg (OUnregisterAll di)
      {| heap := heap st; regs := regs st; decs := decs st; fattr := fattr st;
         disps := match nth_error (disps st) di with Some d => upd di (unregister_all_in d) (disps st) | None => disps st end |}
      ss (filter (fun e => negb (Nat.eqb di (e_disp e))) lg).

(* what the two machines find when they look up closure i / decorator k *)
Lemma inv_reg_cases {cl h rs ds fa ss} i :
  Inv cl h rs ds fa ss ->
  (nth_error rs i = None /\ nth_error (s_regs ss) i = None) \/
  (exists r s, nth_error rs i = Some r /\ nth_error (s_regs ss) i = Some s /\ reg_ok r s /\ hp h (r_cur r) = s_pending s).
Proof.
  intros HI. pose proof (inv_reg_at i HI) as H.
  destruct (nth_error rs i) as [r|], (nth_error (s_regs ss) i) as [s|]; try contradiction; [right; exists r, s; tauto | left; auto].
Qed.

Lemma inv_dec_cases {cl h rs ds fa ss} k :
  Inv cl h rs ds fa ss ->
  (nth_error ds k = None /\ nth_error (s_decs ss) k = None) \/
  (exists d s, nth_error ds k = Some d /\ nth_error (s_decs ss) k = Some s /\ dec_ok d s /\ hp h (d_fs d) = sd_val s).
Proof.
  intros HI. pose proof (inv_dec_at k HI) as H.
  destruct (nth_error ds k) as [d|], (nth_error (s_decs ss) k) as [s|]; try contradiction; [right; exists d, s; tauto | left; auto].
Qed.

Lemma step_spec scopes cl st ss lg o :
  InvS cl st ss ->
  trans scopes st ss lg o (fst (step st o)) (spec_step ss o) (ledger_step scopes cl ss lg o).
Proof.
  unfold InvS, step. destruct st as [h rs ds fa dp]. cbn [heap regs decs fattr]. intros HI.
  pose (st := {| heap := h; regs := rs; decs := ds; fattr := fa; disps := dp |}).
  destruct o as [ri inc c|ri f|ri n|di inc c|di f|di f n|di f|di]; cbn [step_gen spec_step ledger_step heap regs decs fattr disps].
  - (* OFilter *)
    destruct (inv_reg_cases ri HI) as [[Er Es]|(r & s & Er & Es & [_ Hpx] & Hp)]; rewrite Er, Es; [apply T_none|].
    rewrite Hpx, do_filter_fst. cbn [heap regs decs fattr disps]. rewrite Hp.
    exact (T_filter scopes st ss lg ri inc c r s Er Es).
  - (* ORegFn; closures ri is the dispatcher of closure ri *)
    rewrite <- (I_disp HI), nth_error_map.
    destruct (inv_reg_cases ri HI) as [[Er Es]|(r & s & Er & Es & [Hu _] & _)]; rewrite Er, Es; [apply T_none|].
    cbn [option_map]. rewrite <- Hu. destruct (r_used r && nonfilterable (h_name f)); [apply T_none|].
    rewrite (surjective_pairing (register_on dp (r_disp r) f (h_name f))). cbn [fst].
    exact (T_reg_fn scopes st ss lg ri f r s Er Es).
  - (* ORegName *)
    destruct (inv_reg_cases ri HI) as [[Er Es]|(r & s & Er & Es & [Hu _] & _)]; rewrite Er, Es; [apply T_none|].
    rewrite <- Hu. destruct (r_used r && nonfilterable n); [apply T_none|].
    exact (T_reg_name scopes st ss lg ri n r s Er Es).
  - (* ODecFilter *)
    destruct (inv_dec_cases di HI) as [[Ed Esd]|(d & sd & Ed & Esd & (Hdr & _ & Hdp) & Hdv)]; rewrite Ed, Esd; [apply T_none|].
    rewrite <- Hdr.
    destruct (inv_reg_cases (d_reg d) HI) as [[Er Es]|(r & s & Er & Es & _)]; rewrite Er, Es; [apply T_none|].
    rewrite Hdp, do_filter_fst. cbn [heap regs decs fattr disps]. rewrite Hdv.
    exact (T_dec_filter scopes st ss lg di inc c d sd r s Ed Esd Er Es).
  - (* ODecApply *)
    destruct (inv_dec_cases di HI) as [[Ed Esd]|(d & sd & Ed & Esd & (Hdr & Hdn & _) & _)]; rewrite Ed, Esd; [apply T_none|].
    rewrite <- Hdr, <- Hdn, <- (I_disp HI), nth_error_map.
    destruct (inv_reg_cases (d_reg d) HI) as [[Er Es]|(r & s & Er & Es & [Hu _] & _)]; rewrite Er, Es; [apply T_none|].
    cbn [option_map]. rewrite <- Hu. destruct (r_used r && nonfilterable (d_name d)); [apply T_none|].
    rewrite (surjective_pairing (register_on dp (r_disp r) f (d_name d))). cbn [fst].
    exact (T_dec_apply scopes st ss lg di f d r Ed Er).
  - (* ODirect *)
    rewrite (surjective_pairing (register_on dp di f n)). exact (T_direct scopes st ss lg di f n).
  - (* OUnregister; a missing dispatcher leaves the state as it is, which is what the rule says then *)
    pose proof (T_unregister scopes st ss lg di f) as T. cbn [st heap regs decs fattr disps] in T. destruct (nth_error dp di); exact T.
  - (* OUnregisterAll *)
    pose proof (T_unregister_all scopes st ss lg di) as T. cbn [st heap regs decs fattr disps] in T. destruct (nth_error dp di); exact T.
Qed.

(* Inv speaks neither of the dispatchers nor of the ledger: step_spec is asked with an empty ledger, and the rules
   that change nothing else (T_none, T_direct, T_unregister, T_unregister_all) keep it as it is *)
Lemma step_inv cl st ss o : InvS cl st ss -> InvS cl (fst (step st o)) (spec_step ss o).
Proof.
  intros HI. unfold InvS.
  destruct (step_spec [] cl st ss [] o HI)
    as [o|ri inc c r s Er Es|di inc c d sd r s Ed Esd Er Es|ri f r s Er Es|ri n r s Er Es|di f d r Ed Er|di f n|di f|di];
    cbn [heap regs decs fattr].
  - (* T_none *) exact HI.
  - (* T_filter *)
    pose proof (inv_reg_at ri HI) as H. rewrite Er, Es in H. destruct H as ([_ Hpx] & _ & H0).
    apply (inv_write _ _ _ _ _ _ _ _ _ (OReg ri) _ _ HI H0 Er).
    + intros w. exact (owned_upd_l _ _ _ _ _ _ _ w Es).
    + apply Forall2_upd; [exact (I_reg HI) | split; [reflexivity | exact Hpx]].
    + exact (I_dec HI).
    + reflexivity.
  - (* T_dec_filter: the flag is the closure's, the cell the decorator's *)
    pose proof (inv_dec_at di HI) as H. rewrite Ed, Esd in H. destruct H as ((_ & Hdn & Hdp) & _ & H0).
    pose proof (inv_reg_at (d_reg d) HI) as H. rewrite Er, Es in H. destruct H as ([_ Hpx] & _).
    apply (inv_write _ _ _ _ _ _ _ _ _ (ODec di) _ _ HI H0 Er); cbn [s_regs s_decs s_attr].
    + intros w. unfold sval; cbn [s_regs s_decs]. rewrite (owned_upd_l _ _ _ _ _ _ _ w Es), (owned_upd_r _ _ _ _ _ _ _ w Esd).
      destruct (owner_eq_dec w (OReg (d_reg d))) as [->|]; [|reflexivity].
      destruct (owner_eq_dec (OReg (d_reg d)) (ODec di)); [discriminate|]. cbn. rewrite Es. reflexivity.
    + apply Forall2_upd; [exact (I_reg HI) | split; [reflexivity | exact Hpx]].
    + rewrite <- (upd_same_id _ _ _ Ed). apply Forall2_upd; [exact (I_dec HI) | exact (conj eq_refl (conj Hdn Hdp))].
    + reflexivity.
  - (* T_reg_fn *) exact (inv_reg_fn _ _ _ _ _ _ _ _ _ (h_id f) HI Er Es).
  - (* T_reg_name *) exact (inv_reg_name _ _ _ _ _ _ _ _ _ n HI Er Es).
  - (* T_dec_apply *) exact (inv_dec_apply _ _ _ _ _ _ _ _ (h_id f) HI Ed).
  - (* T_direct *) exact HI.
  - (* T_unregister *) exact HI.
  - (* T_unregister_all *) exact HI.
Qed.

(* the initial state: closure i owns cell i *)
Lemma init_regs_at scopes closures i :
  nth_error (regs (init scopes closures)) i
  = option_map (fun d => {| r_disp := d; r_used := false; r_cur := i; r_proxy := i |}) (nth_error closures i).
Proof.
  unfold init; cbn [regs]. change i with (0 + i) at 2 3. generalize 0 as s. revert i.
  induction closures as [|c cl IH]; intros [|i] s; cbn; try reflexivity.
  - rewrite Nat.add_0_r. reflexivity.
  - rewrite IH, Nat.add_succ_r. reflexivity.
Qed.

Lemma hp_const {A} (l : list A) i : hp (map (fun _ => fs_empty) l) i = fs_empty.
Proof. unfold hp; revert i; induction l as [|a l IH]; intros [|i]; cbn; auto. Qed.

Lemma init_inv scopes closures : InvS closures (init scopes closures) (spec_init closures).
Proof.
  assert (Hcell : forall w c, cell (regs (init scopes closures)) [] w = Some c -> w = OReg c /\ c < length closures).
  { intros [i|[|k]] c; [|discriminate|discriminate]. unfold cell, owned. rewrite init_regs_at.
    destruct (nth_error closures i) eqn:E; [|discriminate]. intros H; inversion H; subst c.
    split; [reflexivity | apply nth_error_Some; congruence]. }
  constructor.
  - intros [i|[|k]]; try reflexivity. unfold sval, cell, owned. rewrite init_regs_at. cbn [s_regs spec_init heap init].
    rewrite nth_error_map. destruct (nth_error closures i); [cbn; rewrite hp_const|]; reflexivity.
  - intros w c H. cbn [heap init]. rewrite map_length. apply (Hcell w c H).
  - intros w w' c H H'. destruct (Hcell w c H) as [-> _]. destruct (Hcell w' c H') as [-> _]. reflexivity.
  - clear Hcell. unfold init, spec_init; cbn [regs s_regs]. generalize 0 as s.
    induction closures as [|c cl IH]; intros s; cbn; constructor; [split; reflexivity | apply IH].
  - constructor.
  - constructor.
  - clear Hcell. unfold init; cbn [regs]. generalize 0 as s.
    induction closures as [|c cl IH]; intros s; cbn; [|rewrite IH]; reflexivity.
Qed.

Lemma run_inv cl ops : forall st ss, InvS cl st ss -> InvS cl (fst (run_gen true st ops)) (fold_left spec_step ops ss).
Proof.
  induction ops as [|o ops IH]; intros st ss HI; [exact HI|].
  rewrite fst_run_cons. cbn [fold_left]. apply IH. apply (step_inv cl st ss o HI).
Qed.

Lemma hook_gets_own_filter scopes closures ops f :
  filter_of (fst (run scopes closures ops)) f = own_chain (spec_run closures ops) f.
Proof. apply (inv_filter_of closures). apply run_inv. apply init_inv. Qed.

Definition filter_ops (ri : nat) (cs : list (bool * fcall)) : list op := map (fun ic => OFilter ri (fst ic) (snd ic)) cs.
Definition dec_filter_ops (d : nat) (cs : list (bool * fcall)) : list op := map (fun ic => ODecFilter d (fst ic) (snd ic)) cs.
Definition chain_from (v : fset) (cs : list (bool * fcall)) : fset := fold_left (fun v '(i, c) => s_filter i c v) cs v.

Lemma chain_value_eq cs : chain_value cs = chain_from fs_empty cs.
Proof. reflexivity. Qed.

Lemma chain_from_app v cs1 cs2 : chain_from v (cs1 ++ cs2) = chain_from (chain_from v cs1) cs2.
Proof. unfold chain_from. apply fold_left_app. Qed.

Lemma spec_run_app closures ops1 ops2 :
  spec_run closures (ops1 ++ ops2) = fold_left spec_step ops2 (spec_run closures ops1).
Proof. apply fold_left_app. Qed.

Lemma closure_clean_nth ss ri :
  closure_clean ss ri = true <-> nth_error (s_regs ss) ri = Some clean.
Proof.
  unfold closure_clean, fs_is_empty, clean, fs_empty. destruct (nth_error (s_regs ss) ri) as [[u [i e]]|]; cbn; [|split; discriminate].
  destruct u, i, e; cbn; split; congruence.
Qed.

(* filter_used after a chain of filter calls: set by the first of them *)
Definition used_after (b : bool) (cs : list (bool * fcall)) : bool := match cs with [] => b | _ => true end.

Lemma used_after_true cs : used_after true cs = true.
Proof. destruct cs; reflexivity. Qed.

(* the guard of validate_filterable_hook lets an expression through if it has no filter call on a closure
   whose flag is clear, or if its hook name takes filters *)
Lemma used_after_accepts cs n : cs = [] \/ nonfilterable n = false -> used_after false cs && nonfilterable n = false.
Proof. intros [-> | ->]; [reflexivity | apply andb_false_r]. Qed.

(* register.apply_to(..).skip_for(..)... : the calls are chained onto what is pending in the closure *)
Lemma spec_filter_chain cs : forall ss ri r,
  nth_error (s_regs ss) ri = Some r ->
  let ss' := fold_left spec_step (filter_ops ri cs) ss in
  s_decs ss' = s_decs ss /\
  nth_error (s_regs ss') ri = Some {| s_used := used_after (s_used r) cs; s_pending := chain_from (s_pending r) cs |}.
Proof.
  induction cs as [|[i c] cs IH]; intros ss ri r Hr; cbn.
  - destruct r; auto.
  - rewrite Hr.
    set (r1 := {| s_used := true; s_pending := s_filter i c (s_pending r) |}).
    destruct (IH {| s_regs := upd ri r1 (s_regs ss); s_decs := s_decs ss; s_attr := s_attr ss |} ri r1) as (Hd & Hb).
    + exact (nth_error_upd_same _ _ _ _ Hr).
    + cbn in Hd, Hb. rewrite used_after_true in Hb. auto.
Qed.

(* decorator.apply_to(..).skip_for(..)... : chained onto the decorator's own value; the flag is the closure's *)
Lemma spec_dec_filter_chain cs : forall ss d sd r,
  nth_error (s_decs ss) d = Some sd -> nth_error (s_regs ss) (sd_reg sd) = Some r ->
  let ss' := fold_left spec_step (dec_filter_ops d cs) ss in
  nth_error (s_regs ss') (sd_reg sd) = Some {| s_used := used_after (s_used r) cs; s_pending := s_pending r |} /\
  nth_error (s_decs ss') d = Some {| sd_reg := sd_reg sd; sd_name := sd_name sd; sd_val := chain_from (sd_val sd) cs |}.
Proof.
  induction cs as [|[i c] cs IH]; intros ss d sd r Hd Hr; cbn.
  - destruct sd, r; auto.
  - rewrite Hd, Hr.
    set (sd1 := {| sd_reg := sd_reg sd; sd_name := sd_name sd; sd_val := s_filter i c (sd_val sd) |}).
    set (r1 := {| s_used := true; s_pending := s_pending r |}).
    destruct (IH {| s_regs := upd (sd_reg sd) r1 (s_regs ss); s_decs := upd d sd1 (s_decs ss); s_attr := s_attr ss |} d sd1 r1)
      as (Hr' & Hd').
    + exact (nth_error_upd_same _ _ _ _ Hd).
    + exact (nth_error_upd_same _ _ _ _ Hr).
    + cbn in Hr', Hd'. rewrite used_after_true in Hr'. auto.
Qed.

Lemma own_chain_head_val ss f v : own_chain {| s_regs := s_regs ss; s_decs := s_decs ss; s_attr := (f, OwnVal v) :: s_attr ss |} f = Some v.
Proof. unfold own_chain; cbn. rewrite N.eqb_refl. reflexivity. Qed.

(* function form:  register.apply_to(..).skip_for(..)...(function)  on a closure with nothing pending gives the
   function the chain written there and leaves the closure with nothing pending again *)
Lemma spec_function_form ss ri cs f :
  nth_error (s_regs ss) ri = Some clean ->
  cs = [] \/ nonfilterable (h_name f) = false ->
  let ss' := fold_left spec_step (filter_ops ri cs ++ [ORegFn ri f]) ss in
  own_chain ss' (h_id f) = Some (chain_value cs) /\
  nth_error (s_regs ss') ri = Some clean.
Proof.
  intros Hr Hnf. cbv zeta. rewrite fold_left_app.
  destruct (spec_filter_chain cs ss ri _ Hr) as (_ & Hb). cbn [s_used s_pending clean] in Hb.
  cbn [fold_left spec_step]. rewrite Hb. cbn [s_used s_pending]. rewrite (used_after_accepts cs _ Hnf).
  split; [apply own_chain_head_val | exact (nth_error_upd_same _ _ _ _ Hb)].
Qed.

(* named form:  register.apply_to(cs1)(name).skip_for(cs2)(function) *)
Lemma spec_named_form ss ri cs1 n cs2 f :
  nth_error (s_regs ss) ri = Some clean ->
  cs1 ++ cs2 = [] \/ nonfilterable n = false ->
  let d := length (s_decs ss) in
  own_chain (fold_left spec_step (filter_ops ri cs1 ++ [ORegName ri n] ++ dec_filter_ops d cs2 ++ [ODecApply d f]) ss) (h_id f)
  = Some (chain_value (cs1 ++ cs2)).
Proof.
  intros Hr Hnf d. rewrite !fold_left_app.
  destruct (spec_filter_chain cs1 ss ri _ Hr) as (Hd & Hb). cbn [s_used s_pending clean] in Hb.
  set (ss1 := fold_left spec_step (filter_ops ri cs1) ss) in *.
  assert (Hacc : forall cs, cs = cs1 \/ cs = cs2 -> used_after false cs && nonfilterable n = false).
  { intros cs Hcs. apply used_after_accepts. destruct Hnf as [E | E]; [left | right; exact E].
    apply app_eq_nil in E. destruct Hcs as [-> | ->]; tauto. }
  cbn [fold_left spec_step]. rewrite Hb. cbn [s_used s_pending]. rewrite (Hacc cs1) by (left; reflexivity).
  set (sd := {| sd_reg := ri; sd_name := n; sd_val := chain_from fs_empty cs1 |}).
  set (ss2 := {| s_regs := upd ri _ (s_regs ss1);
                 s_decs := s_decs ss1 ++ [sd]; s_attr := s_attr ss1 |}).
  assert (Hd2 : nth_error (s_decs ss2) d = Some sd).
  { cbn. rewrite Hd. subst d. rewrite nth_error_app2, Nat.sub_diag by lia. reflexivity. }
  destruct (spec_dec_filter_chain cs2 ss2 d sd _ Hd2 (nth_error_upd_same _ _ _ _ Hb)) as (Hr3 & Hd3).
  cbn [s_used s_pending sd sd_reg sd_name sd_val] in Hr3, Hd3.
  rewrite Hd3. cbn [sd_reg sd_name]. rewrite Hr3. cbn [s_used].
  rewrite (Hacc cs2) by (right; reflexivity). unfold own_chain; cbn [s_attr s_decs slookup]. rewrite N.eqb_refl, Hd3. cbn [sd_val].
  change (chain_value (cs1 ++ cs2)) with (chain_from fs_empty (cs1 ++ cs2)). rewrite chain_from_app. reflexivity.
Qed.

Lemma should_skip_own scopes closures ops f o :
  should_skip (fst (run scopes closures ops)) f (Some o) = false <->
  match own_chain (spec_run closures ops) f with Some fs => fset_match fs o = true | None => True end.
Proof.
  unfold should_skip. rewrite hook_gets_own_filter.
  destruct (own_chain (spec_run closures ops) f) as [fs|]; [|tauto].
  apply negb_false_iff.
Qed.

Lemma no_operation_never_skips st f : should_skip st f None = false.
Proof. unfold should_skip. destruct (filter_of st f); reflexivity. Qed.

Lemma in_kinds k : In k kinds.
Proof. destruct k; cbn; auto. Qed.

Lemma in_apply_to_container st di c ctx k f :
  In (k, f) (apply_to_container st di c ctx) <->
  In f (all_by_name st di (NGen k c)) /\ should_skip st f ctx = false.
Proof.
  unfold apply_to_container, fired. rewrite in_flat_map. split.
  - intros (k' & _ & H). apply in_map_iff in H. destruct H as (g & E & Hg). inversion E; subst k' g.
    apply filter_In in Hg. destruct Hg as [Hin Hs]. apply negb_true_iff in Hs. auto.
  - intros [Hin Hs]. exists k. split; [apply in_kinds|]. apply in_map_iff. exists f. split; [reflexivity|].
    apply filter_In. split; [exact Hin | rewrite Hs; reflexivity].
Qed.

Definition in_scope (g s : nat) (t : option nat) (di : nat) : Prop := di = g \/ di = s \/ t = Some di.

(* apply_to_all_dispatchers: a hook transforms the strategy iff it is registered under that name on one of the
   dispatchers in scope and is not skipped *)
Lemma in_apply_to_all st g s t c ctx k f :
  In (k, f) (apply_to_all st g s t c ctx) <->
  exists di, in_scope g s t di /\ In f (all_by_name st di (NGen k c)) /\ should_skip st f ctx = false.
Proof.
  unfold apply_to_all, in_scope. rewrite !in_app_iff, !in_apply_to_container. split.
  - intros [H|[H|H]].
    + exists g. tauto.
    + exists s. tauto.
    + destruct t as [ti|]; [|destruct H]. apply in_apply_to_container in H. exists ti. tauto.
  - intros (di & [-> | [-> | ->]] & H); [tauto|tauto|]. right; right. apply in_apply_to_container. exact H.
Qed.

Lemma all_scopes_applied scopes closures ops g s t c o k f :
  let st := fst (run scopes closures ops) in
  In (k, f) (apply_to_all st g s t c (Some o)) <->
  exists di, in_scope g s t di /\ In f (all_by_name st di (NGen k c)) /\
             match own_chain (spec_run closures ops) f with Some fs => fset_match fs o = true | None => True end.
Proof.
  intros st. rewrite in_apply_to_all. subst st.
  split; intros (di & H1 & H2 & H3); exists di; (split; [exact H1|split; [exact H2|]]).
  - apply (proj1 (should_skip_own scopes closures ops f o)); exact H3.
  - apply (proj2 (should_skip_own scopes closures ops f o)); exact H3.
Qed.

(* the case level goes through the same filter check as the parameter containers *)
Lemma case_hooks_eq st g s t o : as_strategy_case_hooks st g s t o = apply_to_all st g s t TCase (Some o).
Proof. reflexivity. Qed.

Lemma generation_hooks_all st g s t c o : generation_hooks st g s t c o = apply_to_all st g s t c (Some o).
Proof. unfold generation_hooks. destruct c; reflexivity. Qed.

(* the row of target c in one generation of a trace *)
Lemma nth_error_all_targets {A} (row : target -> A) c :
  nth_error (map row all_targets)
            (match c with TPath => 0 | TQuery => 1 | THeaders => 2 | TCookies => 3 | TBody => 4 | TCase => 5 end)
  = Some (row c).
Proof. destruct c; reflexivity. Qed.

Lemma in_dispatch st di n ctx f :
  In f (dispatch st di n ctx) <-> In f (all_by_name st di n) /\ should_skip st f ctx = false.
Proof.
  unfold dispatch, fired. rewrite filter_In. split; intros [H1 H2]; split; auto.
  - apply negb_true_iff; exact H2.
  - rewrite H2; reflexivity.
Qed.

Lemma hooks_get_unregister f n l :
  hooks_get n (map (fun '(m, hs) => (m, filter (fun g => negb (N.eqb g f)) hs)) l)
  = filter (fun g => negb (N.eqb g f)) (hooks_get n l).
Proof.
  induction l as [|[m hs] l IH]; cbn; [reflexivity|]. destruct (hname_eqb n m); [reflexivity | exact IH].
Qed.

(* every wrapper's filter set is what it held before, with the calls written on that wrapper chained on; the length
   hypothesis only says that wrapper w' has a filter set to write to *)
Lemma auth_sets_from ops : forall st,
  length (a_sets st) = length (a_wrappers st) ->
  no_bad_index (snd (arun_from st ops)) = true ->
  forall w, hp (a_sets (fst (arun_from st ops))) w = chain_from (hp (a_sets st) w) (calls_on w ops).
Proof.
  induction ops as [|o ops IH]; intros st Hlen Hok w; [reflexivity|].
  cbn [arun_from] in *. destruct (astep st o) as [st1 out] eqn:E1.
  destruct (arun_from st1 ops) as [st2 outs] eqn:E2. cbn [fst snd] in *.
  cbn [no_bad_index forallb] in Hok. apply andb_true_iff in Hok. destruct Hok as [Hout Hok].
  assert (IH' : length (a_sets st1) = length (a_wrappers st1) ->
                hp (a_sets st2) w = chain_from (hp (a_sets st1) w) (calls_on w ops)).
  { intros HL. specialize (IH st1 HL). rewrite E2 in IH. cbn [fst snd] in IH. apply IH. exact Hok. }
  destruct o as [s|cls|s cls|w' inc c|w' arg|s]; cbn [astep] in E1; unfold a_new_wrapper in E1; cbn [calls_on].
  - destruct (nth_error (a_storages st) s); inversion E1; subst st1 out; [|discriminate].
    rewrite IH'; cbn [a_sets a_wrappers]; [rewrite hp_app_old; reflexivity | rewrite !app_length; cbn; lia].
  - inversion E1; subst st1 out.
    rewrite IH'; cbn [a_sets a_wrappers]; [rewrite hp_app_old; reflexivity | rewrite !app_length; cbn; lia].
  - destruct (nth_error (a_storages st) s); inversion E1; subst st1 out; [|discriminate].
    rewrite IH'; cbn [a_sets a_wrappers]; [rewrite hp_app_old; reflexivity | rewrite !app_length; cbn; lia].
  - destruct (nth_error (a_wrappers st) w') as [k|] eqn:Ew; [|inversion E1; subst out; discriminate].
    assert (Hb : w' < length (a_sets st)) by (rewrite Hlen; apply nth_error_Some; congruence).
    destruct (add_filter inc c (hp (a_sets st) w')) as [fs'|] eqn:Ea; inversion E1; subst st1 out.
    + rewrite IH'; cbn [a_sets a_wrappers]; [|rewrite length_upd; exact Hlen].
      destruct (Nat.eqb_spec w w') as [->|Hne].
      * rewrite hp_upd_same by exact Hb. cbn [chain_from fold_left]. unfold s_filter at 2. rewrite Ea. reflexivity.
      * rewrite hp_upd_other by congruence. reflexivity.
    + rewrite IH' by exact Hlen.
      destruct (Nat.eqb_spec w w') as [->|Hne]; [|reflexivity].
      cbn [chain_from fold_left]. unfold s_filter at 2. rewrite Ea. reflexivity.
  - destruct (nth_error (a_wrappers st) w') as [[s|cls|s]|] eqn:Ew.
    + destruct (nth_error (a_storages st) s); inversion E1; subst st1 out; [|discriminate]. apply IH'. exact Hlen.
    + destruct (lookup arg (a_marks st)); inversion E1; subst st1 out; apply IH'; exact Hlen.
    + inversion E1; subst st1 out. apply IH'. exact Hlen.
    + inversion E1; subst out; discriminate.
  - destruct (nth_error (a_storages st) s); inversion E1; subst st1 out; [|discriminate]. apply IH'. exact Hlen.
Qed.

Lemma find_ext' {A} (p q : A -> bool) l : (forall x, p x = q x) -> find p l = find q l.
Proof. intros H; induction l as [|a l IH]; cbn; [reflexivity|]. rewrite H, IH; reflexivity. Qed.

(* witness data.  Methods are stored in lower case in the operations (get_attr upper-cases them), labels are left empty
   where no filter looks at them; function ids and provider classes are arbitrary distinct numbers *)
Definition sGET : str := [71; 69; 84]%N.                          (* GET *)
Definition sPOST : str := [80; 79; 83; 84]%N.                     (* POST *)
Definition sUSERS : str := [47; 117; 115; 101; 114; 115]%N.      (* /users *)

Definition call_method (m : str) : fcall :=
  {| c_func := None;
     c_crit := [(ALabel, None, None); (AMethod, Some (EOne m), None); (APath, None, None); (ATag, None, None); (AOpId, None, None)] |}.
Definition call_path (p : str) : fcall :=
  {| c_func := None;
     c_crit := [(ALabel, None, None); (AMethod, None, None); (APath, Some (EOne p), None); (ATag, None, None); (AOpId, None, None)] |}.

Definition op_get : oper := {| o_idx := 0; o_label := []; o_method := [103; 101; 116]%N; o_path := sUSERS; o_tags := None; o_opid := None |}.
Definition op_post : oper := {| o_idx := 1; o_label := []; o_method := [112; 111; 115; 116]%N; o_path := sUSERS; o_tags := None; o_opid := None |}.

Definition f_map_body : hookfn := {| h_id := 0; h_name := NGen KMap TBody; h_arity := 2 |}.
Definition f_filter_query : hookfn := {| h_id := 2; h_name := NGen KFilter TQuery; h_arity := 2 |}.
Definition f_flatmap_headers : hookfn := {| h_id := 3; h_name := NGen KFlatmap THeaders; h_arity := 2 |}.
Definition f_map_case : hookfn := {| h_id := 6; h_name := NGen KMap TCase; h_arity := 2 |}.
Definition f_bpp : hookfn := {| h_id := 8; h_name := NBeforeProcessPath; h_arity := 3 |}.
Definition f_map_query : hookfn := {| h_id := 21; h_name := NGen KMap TQuery; h_arity := 2 |}.

Definition fs_get : fset := {| incl := [[MVal AMethod (EOne sGET)]]; excl := [] |}.
Definition fs_users : fset := {| incl := [[MVal APath (EOne sUSERS)]]; excl := [] |}.

(* [apply_to A; register h1; apply_to B; register h2] *)
Definition hist_two : list op :=
  [OFilter 0 true (call_method sGET); ORegFn 0 f_map_body; OFilter 0 true (call_path sUSERS); ORegFn 0 f_filter_query].

(* hist_two on the code as it is: both hooks registered, each with its own filters (C19_prefix_behaviour_witness has the
   same history on the code before the fix) *)
Example hist_two_now :
  snd (run [Schema] [0] hist_two) = [Done; Done; Done; Done] /\
  filter_of (fst (run [Schema] [0] hist_two)) (h_id f_map_body) = Some fs_get /\
  filter_of (fst (run [Schema] [0] hist_two)) (h_id f_filter_query) = Some fs_users /\
  dispatch (fst (run [Schema] [0] hist_two)) 0 (NGen KFilter TQuery) (Some op_post) = [2%N] /\
  dispatch (fst (run [Schema] [0] hist_two)) 0 (NGen KMap TBody) (Some op_post) = [].
Proof. vm_compute. repeat split; reflexivity. Qed.

(* before the fix the named form dropped the filters chained on the decorator *)
Lemma prefix_named_form_refuted :
  let ops := [ORegName 0 (NGen KMap TBody); ODecFilter 0 true (call_method sGET); ODecApply 0 f_map_body] in
  filter_of (fst (run_prefix [Schema] [0] ops)) 0%N = Some fs_empty /\
  filter_of (fst (run [Schema] [0] ops)) 0%N = Some fs_get.
Proof. vm_compute. split; reflexivity. Qed.

(* the history of C19_case_hooks_prefix_behaviour_refuted on the code as it is: the GET-only case hook is applied for GET and
   not for POST *)
Example case_hooks_now :
  let st := fst (run [Global; Schema] [0; 1] [OFilter 0 true (call_method sGET); ORegFn 0 f_map_case]) in
  generation_hooks st 0 1 None TCase op_post = [] /\ generation_hooks st 0 1 None TCase op_get = [(KMap, 6%N)].
Proof. vm_compute. split; reflexivity. Qed.

(* F3: an unfiltered registration right after a decorator expression with filters is refused *)
Lemma unfiltered_accepted_refuted :
  let pre := [ORegName 0 (NGen KMap TBody); ODecFilter 0 true (call_method sGET)] in
  snd (run [Schema] [0] (pre ++ [ODecApply 0 f_map_body; ORegFn 0 f_bpp])) = [Done; Done; Done; RejectedFilter].
Proof. vm_compute. reflexivity. Qed.

(* non-vacuity of C19_named_form_gets_its_chain; closure_clean holds after a history that is not empty *)
Example named_form_example :
  filter_of (fst (run [Global; Schema] [0; 1]
     (hist_two ++ filter_ops 0 [(true, call_method sGET)] ++ [ORegName 0 (NGen KMap TQuery)]
      ++ dec_filter_ops 0 [(false, call_path sUSERS)] ++ [ODecApply 0 f_map_query]))) 21%N
  = Some {| incl := [[MVal AMethod (EOne sGET)]]; excl := [[MVal APath (EOne sUSERS)]] |}
  /\ closure_clean (spec_run [0; 1] hist_two) 0 = true.
Proof. vm_compute. split; reflexivity. Qed.

(* auth: two providers on one storage, each with its own chain; the first matching one authenticates *)
Definition auth_hist : list aop :=
  [ARegister 1; AFilter 0 true (call_method sGET); ACall 0 7%N;
   AFromRequests 1 8%N; AFilter 1 true (call_method sPOST);
   ARegister 1; ACall 2 9%N].

Example auth_example :
  no_bad_index (snd (arun 2 auth_hist)) = true /\
  nth 1 (a_storages (fst (arun 2 auth_hist))) [] = [PSelective 7 0; PSelective 8 1; PPlain 9] /\
  set_on_case (fst (arun 2 auth_hist)) None 1 op_get = AuthBy 7 /\
  set_on_case (fst (arun 2 auth_hist)) None 1 op_post = AuthBy 8.
Proof. vm_compute. repeat split; reflexivity. Qed.

Example unregister_example :
  let st := fst (run [Schema] [0] hist_two) in
  let st' := fst (step st (OUnregister 0 0%N)) in
  snd (step st (OUnregister 0 0%N)) = Done /\
  all_by_name st' 0 (NGen KMap TBody) = [] /\ all_by_name st' 0 (NGen KFilter TQuery) = [2%N].
Proof. vm_compute. repeat split; reflexivity. Qed.

Lemma fst_run_app fixed ops1 : forall st ops2,
  fst (run_gen fixed st (ops1 ++ ops2)) = fst (run_gen fixed (fst (run_gen fixed st ops1)) ops2).
Proof.
  induction ops1 as [|o ops1 IH]; intros st ops2; [reflexivity|].
  rewrite <- app_comm_cons, !fst_run_cons. apply IH.
Qed.

Lemma gen_trace_app g s t pre : forall st rest,
  gen_trace st g s t (pre ++ rest)
  = gen_trace st g s t pre ++ gen_trace (fst (run_gen true st (ops_of pre))) g s t rest.
Proof.
  induction pre as [|[o|o] pre IH]; intros st rest; cbn [app gen_trace ops_of].
  - reflexivity.
  - rewrite fst_run_cons. apply IH.
  - rewrite IH. reflexivity.
Qed.

Lemma gen_trace_length g s t evs : forall st, length (gen_trace st g s t evs) = count_generates evs.
Proof. induction evs as [|[o|o] evs IH]; intros st; cbn; auto. Qed.

Example gen_trace_example :
  gen_trace (init [Global; Schema] [0; 1]) 0 1 None
    [EGenerate op_get; EOp (OFilter 0 true (call_method sGET)); EOp (ORegFn 0 f_map_query);
     EGenerate op_get; EGenerate op_post; EOp (OUnregister 0 21%N); EGenerate op_get]
  = [[[]; []; []; []; []; []]; [[]; [(KMap, 21%N)]; []; []; []; []]; [[]; []; []; []; []; []]; [[]; []; []; []; []; []]].
Proof. vm_compute. reflexivity. Qed.

Lemma attr_eqb_eq a b : attr_eqb a b = true -> a = b.
Proof. destruct a, b; cbn; intros H; try discriminate; reflexivity. Qed.

Lemma strs_eqb_eq a : forall b, strs_eqb a b = true -> a = b.
Proof.
  induction a as [|x a IH]; intros [|y b] H; cbn in H; try discriminate; [reflexivity|].
  apply andb_true_iff in H. destruct H as [H1 H2]. apply str_eqb_spec in H1. rewrite H1, (IH b H2). reflexivity.
Qed.

Lemma strs_eqb_refl a : strs_eqb a a = true.
Proof. induction a as [|x a IH]; cbn; [reflexivity|]. rewrite str_eqb_refl, IH. reflexivity. Qed.

Lemma expected_eqb_eq a b : expected_eqb a b = true -> a = b.
Proof.
  destruct a as [x|x], b as [y|y]; cbn; intros H; try discriminate.
  - apply str_eqb_spec in H. congruence.
  - apply strs_eqb_eq in H. congruence.
Qed.

Lemma matcher_beq_eq a b : matcher_beq a b = true -> a = b.
Proof.
  destruct a as [a e|[i t]], b as [a' e'|[i' t']]; cbn; intros H; try discriminate.
  - apply andb_true_iff in H. destruct H as [H1 H2]. rewrite (attr_eqb_eq _ _ H1), (expected_eqb_eq _ _ H2). reflexivity.
  - unfold opaque_beq in H. cbn in H. apply andb_true_iff in H. destruct H as [H1 H2].
    apply N.eqb_eq in H1. apply str_eqb_spec in H2. congruence.
Qed.

Lemma matcher_beq_refl a : matcher_beq a a = true.
Proof.
  destruct a as [a e|[i t]]; cbn.
  - assert (attr_eqb a a = true) as -> by (destruct a; reflexivity).
    destruct e; cbn; [apply str_eqb_refl | apply strs_eqb_refl].
  - unfold opaque_beq; cbn. rewrite N.eqb_refl, str_eqb_refl. reflexivity.
Qed.

Lemma list_beq_eq {A} (eq : A -> A -> bool) : (forall x y, eq x y = true -> x = y) ->
  forall a b, list_beq eq a b = true -> a = b.
Proof.
  intros Heq. induction a as [|x a IH]; intros [|y b] H; cbn in H; try discriminate; [reflexivity|].
  apply andb_true_iff in H. destruct H as [H1 H2]. rewrite (Heq _ _ H1), (IH b H2). reflexivity.
Qed.

Lemma list_beq_refl {A} (eq : A -> A -> bool) : (forall x, eq x x = true) -> forall a, list_beq eq a a = true.
Proof. intros H. induction a as [|x a IH]; cbn; [reflexivity|]. rewrite H, IH. reflexivity. Qed.

Lemma fset_beq_eq a b : fset_beq a b = true -> a = b.
Proof.
  unfold fset_beq. intros H. apply andb_true_iff in H. destruct H as [H1 H2].
  assert (Hf : forall x y, flt_beq x y = true -> x = y) by (apply list_beq_eq; exact matcher_beq_eq).
  apply (list_beq_eq _ Hf) in H1. apply (list_beq_eq _ Hf) in H2.
  destruct a, b; cbn in *; congruence.
Qed.

Lemma fset_beq_refl a : fset_beq a a = true.
Proof.
  unfold fset_beq.
  assert (Hf : forall x, flt_beq x x = true) by (apply list_beq_refl; exact matcher_beq_refl).
  rewrite !(list_beq_refl _ Hf). reflexivity.
Qed.

Lemma hname_eqb_eq a b : hname_eqb a b = true <-> a = b.
Proof.
  split.
  - destruct a as [k t| | | | | | | |x], b as [k' t'| | | | | | | |y]; cbn; intros H; try discriminate; try reflexivity.
    + apply andb_true_iff in H. destruct H as [H1 H2].
      destruct k, k'; try discriminate; destruct t, t'; try discriminate; reflexivity.
    + apply N.eqb_eq in H. congruence.
  - intros <-. destruct a as [k t| | | | | | | |x]; cbn; try reflexivity.
    + destruct k, t; reflexivity.
    + apply N.eqb_refl.
Qed.

Lemma hname_eqb_sym a b : hname_eqb a b = hname_eqb b a.
Proof.
  destruct (hname_eqb a b) eqn:E1, (hname_eqb b a) eqn:E2; try reflexivity.
  - apply hname_eqb_eq in E1. subst b. rewrite (proj2 (hname_eqb_eq a a) eq_refl) in E2. discriminate.
  - apply hname_eqb_eq in E2. subst b. rewrite (proj2 (hname_eqb_eq a a) eq_refl) in E1. discriminate.
Qed.

Lemma hooks_get_append q n f l :
  hooks_get q (hooks_append n f l) = if hname_eqb q n then hooks_get q l ++ [f] else hooks_get q l.
Proof.
  induction l as [|[m hs] l IH]; cbn [hooks_append hooks_get].
  - destruct (hname_eqb q n); reflexivity.
  - destruct (hname_eqb n m) eqn:Enm; cbn [hooks_get].
    + apply hname_eqb_eq in Enm. subst m. destruct (hname_eqb q n); reflexivity.
    + destruct (hname_eqb q m) eqn:Eqm; [|exact IH].
      apply hname_eqb_eq in Eqm. subst m. rewrite hname_eqb_sym, Enm. reflexivity.
Qed.

Lemma register_on_scopes ds di f n : map dp_scope (snd (register_on ds di f n)) = map dp_scope ds.
Proof.
  unfold register_on. destruct (nth_error ds di) as [d|] eqn:Ed; [|reflexivity].
  unfold register_with_name. destruct (validate_hook (dp_scope d) n f); cbn [snd];
    apply (map_upd_same dp_scope _ d); auto; destruct d; reflexivity.
Qed.

(* register_hook_with_name on dispatcher di: appended under that name iff _validate_hook accepts *)
Lemma all_by_name_register st st' di f n dj m :
  disps st' = snd (register_on (disps st) di f n) ->
  all_by_name st' dj m
  = if accepted (map dp_scope (disps st)) di n f && (Nat.eqb dj di && hname_eqb m n)
    then all_by_name st dj m ++ [h_id f] else all_by_name st dj m.
Proof.
  unfold all_by_name. intros ->. unfold register_on, accepted. rewrite nth_error_map.
  destruct (nth_error (disps st) di) as [d|] eqn:Ed; cbn [option_map]; [|reflexivity].
  unfold register_with_name.
  destruct (validate_hook (dp_scope d) n f) eqn:Ev; cbn [snd andb];
    try (rewrite (upd_same_id _ _ _ Ed); reflexivity).
  destruct (Nat.eqb_spec dj di) as [->|Hne]; cbn [andb].
  - rewrite (nth_error_upd_same _ _ _ _ Ed), Ed. cbn [dp_hooks]. apply hooks_get_append.
  - rewrite nth_error_upd_other by congruence. reflexivity.
Qed.

(* unregister on dispatcher di (nothing happens if there is no such dispatcher) *)
Lemma all_by_name_unregister st st' di f dj m :
  disps st' = match nth_error (disps st) di with Some d => upd di (unregister_in f d) (disps st) | None => disps st end ->
  all_by_name st' dj m
  = if Nat.eqb dj di then filter (fun g => negb (N.eqb g f)) (all_by_name st dj m) else all_by_name st dj m.
Proof.
  unfold all_by_name. intros ->. destruct (nth_error (disps st) di) as [d|] eqn:Ed.
  - destruct (Nat.eqb_spec dj di) as [->|Hne].
    + rewrite (nth_error_upd_same _ _ _ _ Ed), Ed. cbn [unregister_in dp_hooks]. apply hooks_get_unregister.
    + rewrite nth_error_upd_other by congruence. reflexivity.
  - destruct (Nat.eqb_spec dj di) as [->|_]; [rewrite Ed|]; reflexivity.
Qed.

Lemma all_by_name_unregister_all st st' di dj m :
  disps st' = match nth_error (disps st) di with Some d => upd di (unregister_all_in d) (disps st) | None => disps st end ->
  all_by_name st' dj m = if Nat.eqb dj di then [] else all_by_name st dj m.
Proof.
  unfold all_by_name. intros ->. destruct (nth_error (disps st) di) as [d|] eqn:Ed.
  - destruct (Nat.eqb_spec dj di) as [->|Hne].
    + rewrite (nth_error_upd_same _ _ _ _ Ed). reflexivity.
    + rewrite nth_error_upd_other by congruence. reflexivity.
  - destruct (Nat.eqb_spec dj di) as [->|_]; [rewrite Ed|]; reflexivity.
Qed.

(* the ledger lists what _hooks holds: under every name of every dispatcher the same functions in the same order *)
Definition ledger_lists (st : state) (lg : list entry) : Prop :=
  forall di n, all_by_name st di n = map e_fn (filter (entry_on di n) lg).

Lemma ledger_lists_register scopes st st' lg di n f w :
  map dp_scope (disps st) = scopes -> ledger_lists st lg ->
  disps st' = snd (register_on (disps st) di f n) ->
  ledger_lists st' (ledger_add scopes lg di n f w).
Proof.
  intros Hs H Hd dj m. rewrite (all_by_name_register st st' di f n dj m Hd), Hs. unfold ledger_add.
  destruct (accepted scopes di n f); cbn [andb]; [|apply H].
  rewrite filter_app, map_app. cbn [filter]. unfold entry_on at 2. cbn [e_disp e_name].
  destruct (Nat.eqb dj di && hname_eqb m n); [rewrite H; reflexivity | rewrite app_nil_r; apply H].
Qed.


Lemma filter_map_comm {A B} (g : B -> bool) (h : A -> B) l : filter g (map h l) = map h (filter (fun x => g (h x)) l).
Proof. induction l as [|x l IH]; [reflexivity|]. cbn [map filter]. destruct (g (h x)); cbn [map]; rewrite IH; reflexivity. Qed.

Lemma ledger_unregister_hooks di f dj m (lg : list entry) :
  map e_fn (filter (entry_on dj m) (filter (fun e => negb (Nat.eqb di (e_disp e) && N.eqb (e_fn e) f)) lg))
  = if Nat.eqb dj di then filter (fun g => negb (N.eqb g f)) (map e_fn (filter (entry_on dj m) lg))
    else map e_fn (filter (entry_on dj m) lg).
Proof.
  rewrite filter_filter. destruct (Nat.eqb_spec dj di) as [->|Hne].
  - rewrite filter_map_comm, filter_filter. f_equal. apply filter_ext. intros e. unfold entry_on.
    destruct (Nat.eqb di (e_disp e)), (N.eqb (e_fn e) f), (hname_eqb m (e_name e)); reflexivity.
  - f_equal. apply filter_ext. intros e. unfold entry_on.
    destruct (Nat.eqb_spec dj (e_disp e)) as [He|He]; cbn [andb].
    + destruct (Nat.eqb_spec di (e_disp e)) as [He'|_]; [congruence|]. reflexivity.
    + apply andb_false_r.
Qed.

Lemma ledger_unregister_all_hooks di dj m (lg : list entry) :
  map e_fn (filter (entry_on dj m) (filter (fun e => negb (Nat.eqb di (e_disp e))) lg))
  = if Nat.eqb dj di then [] else map e_fn (filter (entry_on dj m) lg).
Proof.
  rewrite filter_filter. destruct (Nat.eqb_spec dj di) as [->|Hne].
  - rewrite filter_none; [reflexivity|]. intros e _. unfold entry_on. destruct (Nat.eqb di (e_disp e)); reflexivity.
  - f_equal. apply filter_ext. intros e. unfold entry_on.
    destruct (Nat.eqb_spec dj (e_disp e)) as [He|He]; cbn [andb].
    + destruct (Nat.eqb_spec di (e_disp e)) as [He'|_]; [congruence|]. reflexivity.
    + apply andb_false_r.
Qed.

Record LInv (scopes : list scope) (closures : list nat) (st : state) (ss : sstate) (lg : list entry) : Prop := {
  L_inv : InvS closures st ss;
  L_scopes : map dp_scope (disps st) = scopes;
  L_hooks : ledger_lists st lg
}.

(* the dispatcher side of a step: scopes stay, _hooks and the ledger move together *)
Lemma trans_hooks scopes st ss lg o st' ss' lg' :
  trans scopes st ss lg o st' ss' lg' ->
  map dp_scope (disps st) = scopes -> ledger_lists st lg ->
  map dp_scope (disps st') = scopes /\ ledger_lists st' lg'.
Proof.
  intros T Hsc Hh.
  destruct T as [o|ri inc c r s Er Es|di inc c d sd r s Ed Esd Er Es|ri f r s Er Es|ri n r s Er Es|di f d r Ed Er|di f n|di f|di];
    cbn [disps].
  - (* T_none *) split; assumption.
  - (* T_filter *) split; assumption.
  - (* T_dec_filter *) split; assumption.
  - (* T_reg_fn *)
    split; [rewrite register_on_scopes; exact Hsc | apply (ledger_lists_register scopes st); [exact Hsc | exact Hh | reflexivity]].
  - (* T_reg_name *) split; assumption.
  - (* T_dec_apply *)
    split; [rewrite register_on_scopes; exact Hsc | apply (ledger_lists_register scopes st); [exact Hsc | exact Hh | reflexivity]].
  - (* T_direct *)
    split; [rewrite register_on_scopes; exact Hsc | apply (ledger_lists_register scopes st); [exact Hsc | exact Hh | reflexivity]].
  - (* T_unregister *) split.
    + destruct (nth_error (disps st) di) as [d|] eqn:Ed; [rewrite (map_upd_same dp_scope _ d); auto | exact Hsc].
    + intros dj m. rewrite ledger_unregister_hooks, <- (Hh dj m). apply (all_by_name_unregister st). reflexivity.
  - (* T_unregister_all *) split.
    + destruct (nth_error (disps st) di) as [d|] eqn:Ed; [rewrite (map_upd_same dp_scope _ d); auto | exact Hsc].
    + intros dj m. rewrite ledger_unregister_all_hooks, <- (Hh dj m). apply (all_by_name_unregister_all st). reflexivity.
Qed.

Lemma step_linv scopes closures st ss lg o :
  LInv scopes closures st ss lg ->
  LInv scopes closures (fst (step st o)) (spec_step ss o) (ledger_step scopes closures ss lg o).
Proof.
  intros [HI Hsc Hh].
  destruct (trans_hooks _ _ _ _ _ _ _ _ (step_spec scopes closures st ss lg o HI) Hsc Hh) as [Hsc' Hh'].
  constructor; [apply step_inv; exact HI | exact Hsc' | exact Hh'].
Qed.

Lemma init_linv scopes closures : LInv scopes closures (init scopes closures) (spec_init closures) [].
Proof.
  constructor.
  - apply init_inv.
  - unfold init; cbn [disps]. rewrite map_map. cbn [dp_scope]. apply map_id.
  - intros di n. unfold init, all_by_name; cbn [disps filter map].
    destruct (nth_error (map (fun s => {| dp_scope := s; dp_hooks := [] |}) scopes) di) as [d|] eqn:E; [|reflexivity].
    apply nth_error_In in E. apply in_map_iff in E. destruct E as (x & <- & _). reflexivity.
Qed.

Lemma ledger_from_fst scopes closures ops : forall ss lg,
  fst (ledger_from scopes closures ss lg ops) = fold_left spec_step ops ss.
Proof. induction ops as [|o ops IH]; intros ss lg; [reflexivity|]. cbn [ledger_from fold_left]. apply IH. Qed.

Lemma run_linv scopes closures ops : forall st ss lg,
  LInv scopes closures st ss lg ->
  LInv scopes closures (fst (run_gen true st ops)) (fold_left spec_step ops ss) (snd (ledger_from scopes closures ss lg ops)).
Proof.
  induction ops as [|o ops IH]; intros st ss lg H; [exact H|].
  rewrite fst_run_cons. cbn [fold_left ledger_from]. apply IH. apply step_linv. exact H.
Qed.

Lemma ledger_linv scopes closures ops :
  LInv scopes closures (fst (run scopes closures ops)) (spec_run closures ops) (ledger scopes closures ops).
Proof. unfold run, spec_run, ledger. apply run_linv. apply init_linv. Qed.

Lemma fset_match_empty o : fset_match fs_empty o = true.
Proof. reflexivity. Qed.

Lemma should_skip_opt st f ctx :
  should_skip st f ctx = match ctx with Some o => negb (fset_match (opt_fs (filter_of st f)) o) | None => false end.
Proof. unfold should_skip. destruct (filter_of st f), ctx; reflexivity. Qed.

Lemma fired_current st ss ctx di n (lg : list entry) :
  (forall e, entry_current ss e = true -> should_skip st (e_fn e) ctx = negb (entry_selects ss e ctx)) ->
  forallb (entry_current ss) (filter (entry_on di n) lg) = true ->
  fired st ctx (map e_fn (filter (entry_on di n) lg))
  = map e_fn (filter (fun e => entry_on di n e && entry_selects ss e ctx) lg).
Proof.
  intros Hs. unfold fired. induction lg as [|e lg IH]; [reflexivity|]. cbn [filter].
  destruct (entry_on di n e); cbn [andb]; [|exact IH].
  cbn [forallb map filter]. intros H. apply andb_true_iff in H. destruct H as [Hc Hr].
  rewrite (Hs e Hc), negb_involutive. destruct (entry_selects ss e ctx); cbn [map]; rewrite (IH Hr); reflexivity.
Qed.

(* one function registered with a filter, unregistered, registered again without filters on two dispatchers and under a
   second name: every entry of the ledger is current *)
Example reregistration_example :
  let ops := [OFilter 0 true (call_method sGET); ORegFn 0 f_map_query; OUnregister 0 21%N; ORegFn 0 f_map_query;
              ORegFn 1 f_map_query; ORegName 1 (NGen KMap THeaders); ODecApply 0 f_map_query] in
  let ss := spec_run [0; 1] ops in
  let lg := ledger [Global; Schema] [0; 1] ops in
  map (fun e => (e_disp e, e_fn e, entry_current ss e)) lg = [(0, 21%N, true); (1, 21%N, true); (1, 21%N, true)] /\
  dispatch (fst (run [Global; Schema] [0; 1] ops)) 0 (NGen KMap TQuery) (Some op_post) = [21%N] /\
  spec_dispatch ss lg 0 (NGen KMap TQuery) (Some op_post) = [21%N] /\
  spec_dispatch ss lg 1 (NGen KMap THeaders) (Some op_post) = [21%N].
Proof. vm_compute. repeat split; reflexivity. Qed.

(* mm may read and write its memory; while the memory satisfies ok and the operation lies in dom it returns the verdict
   of fset_match and keeps ok.  match_plain is such an implementation for every memory and every operation, the sentinel
   match_cached inside its region.  Every loop built on such an implementation computes what the definitions without
   memory say. *)
Section Faithful.
  Variables (mm : matchfn) (st : state) (ok : memo -> Prop) (dom : oper -> Prop).
  Hypothesis Hmm : forall m c o, ok m -> dom o ->
    exists m', mm m c (hp (heap st) c) o = (fset_match (hp (heap st) c) o, m') /\ ok m'.

  Lemma should_skip_faithful m f ctx :
    ok m -> (forall o, ctx = Some o -> dom o) ->
    exists m', should_skip_m mm st m f ctx = (should_skip st f ctx, m') /\ ok m'.
  Proof.
    intros Hok Hc. unfold should_skip_m, should_skip, filter_of.
    destruct (lookup f (fattr st)) as [c|]; cbn [option_map]; [|exists m; auto].
    destruct ctx as [o|]; [|exists m; auto].
    destruct (Hmm m c o Hok (Hc o eq_refl)) as (m' & E & Hok'). exists m'. rewrite E. auto.
  Qed.

  Lemma fired_faithful ctx fs :
    (forall o, ctx = Some o -> dom o) ->
    forall m, ok m -> exists m', fired_m mm st m ctx fs = (fired st ctx fs, m') /\ ok m'.
  Proof.
    intros Hc. induction fs as [|f fs IH]; intros m Hok; cbn [fired_m]; [exists m; auto|].
    destruct (should_skip_faithful m f ctx Hok Hc) as (m1 & E1 & Hok1). rewrite E1.
    destruct (IH m1 Hok1) as (m2 & E2 & Hok2). rewrite E2. exists m2. split; [|exact Hok2].
    unfold fired. cbn [filter]. destruct (should_skip st f ctx); reflexivity.
  Qed.

  Lemma container_faithful di t ctx ks :
    (forall o, ctx = Some o -> dom o) ->
    forall m, ok m ->
    exists m', container_m mm st m di t ctx ks
               = (flat_map (fun k => map (fun f => (k, f)) (fired st ctx (all_by_name st di (NGen k t)))) ks, m') /\ ok m'.
  Proof.
    intros Hc. induction ks as [|k ks IH]; intros m Hok; cbn [container_m flat_map]; [exists m; auto|].
    destruct (fired_faithful ctx (all_by_name st di (NGen k t)) Hc m Hok) as (m1 & E1 & Hok1). rewrite E1.
    destruct (IH m1 Hok1) as (m2 & E2 & Hok2). rewrite E2. exists m2. auto.
  Qed.

  Lemma apply_to_all_faithful g s t c ctx :
    (forall o, ctx = Some o -> dom o) ->
    forall m, ok m -> exists m', apply_to_all_m mm st m g s t c ctx = (apply_to_all st g s t c ctx, m') /\ ok m'.
  Proof.
    intros Hc m Hok. unfold apply_to_all_m, apply_to_all, apply_to_container.
    destruct (container_faithful g c ctx kinds Hc m Hok) as (m1 & E1 & Hok1). rewrite E1.
    destruct (container_faithful s c ctx kinds Hc m1 Hok1) as (m2 & E2 & Hok2). rewrite E2.
    destruct t as [ti|]; [|exists m2; auto].
    destruct (container_faithful ti c ctx kinds Hc m2 Hok2) as (m3 & E3 & Hok3). rewrite E3. exists m3. auto.
  Qed.

  Lemma generation_faithful g s t o cs :
    dom o ->
    forall m, ok m ->
    exists m', generation_m mm st m g s t o cs = (map (fun c => generation_hooks st g s t c o) cs, m') /\ ok m'.
  Proof.
    intros Ho. induction cs as [|c cs IH]; intros m Hok; cbn [generation_m map]; [exists m; auto|].
    assert (Hc : forall o', Some o = Some o' -> dom o') by (intros o' H; inversion H; subst; exact Ho).
    destruct (apply_to_all_faithful g s t c (Some o) Hc m Hok) as (m1 & E1 & Hok1). rewrite E1.
    destruct (IH m1 Hok1) as (m2 & E2 & Hok2). rewrite E2. exists m2. split; [|exact Hok2].
    rewrite generation_hooks_all. reflexivity.
  Qed.
End Faithful.

(* the code as it is never looks at the memory: Hmm of Section Faithful with no condition on memory or operation *)
Lemma plain_faithful st m c o :
  True -> True -> exists m', match_plain m c (hp (heap st) c) o = (fset_match (hp (heap st) c) o, m') /\ True.
Proof. intros _ _. exists m. split; [reflexivity | exact I]. Qed.

(* what the n-th evaluation applies, written without any memory *)
Fixpoint eval_pure (st : state) (evs : list qevent) : list (list (list (hk * N))) :=
  match evs with
  | [] => []
  | QOp o :: evs' => eval_pure (fst (step st o)) evs'
  | QEval s t o :: evs' => map (fun c => generation_hooks st 0 s t c o) all_targets :: eval_pure st evs'
  end.

Lemma eval_trace_plain evs : forall st m, eval_trace match_plain st m evs = eval_pure st evs.
Proof.
  induction evs as [|[o|s t o] evs IH]; intros st m; cbn [eval_trace eval_pure]; [reflexivity| |].
  - destruct (step st o) as [st' out]. cbn [fst]. apply IH.
  - destruct (generation_faithful match_plain st (fun _ => True) (fun _ => True) (plain_faithful st) 0 s t o all_targets I m I)
      as (m' & E & _).
    rewrite E, IH. reflexivity.
Qed.

Lemma eval_pure_app pre : forall st rest,
  eval_pure st (pre ++ rest) = eval_pure st pre ++ eval_pure (fst (run_gen true st (qops_of pre))) rest.
Proof.
  induction pre as [|[o|s t o] pre IH]; intros st rest; cbn [app eval_pure qops_of].
  - reflexivity.
  - rewrite fst_run_cons. apply IH.
  - rewrite IH. reflexivity.
Qed.

Lemma eval_pure_length evs : forall st, length (eval_pure st evs) = count_evals evs.
Proof. induction evs as [|[o|s t o] evs IH]; intros st; cbn; auto. Qed.

Lemma find_supplier_plain sets ps o : forall m,
  find_supplier_m match_plain sets m ps o = (find (fun p => provider_supplies sets p o) ps, m).
Proof.
  induction ps as [|p ps IH]; intros m; cbn [find_supplier_m find]; [reflexivity|].
  destruct p as [c|c w]; cbn [provider_supplies_m provider_supplies match_plain]; [reflexivity|].
  destruct (fset_match (hp sets w) o); [reflexivity | apply IH].
Qed.

Lemma storage_set_plain sets m ps o : storage_set_m match_plain sets m ps o = (storage_set sets ps o, m).
Proof.
  unfold storage_set_m, storage_set. destruct ps as [|p ps]; [reflexivity|].
  rewrite find_supplier_plain. destruct (find _ (p :: ps)); reflexivity.
Qed.

Lemma set_on_case_plain st m t s o : set_on_case_m match_plain st m t s o = (set_on_case st t s o, m).
Proof.
  unfold set_on_case_m, set_on_case.
  destruct (match t with Some t0 => lookup t0 (a_marks st) | None => None end); [apply storage_set_plain|].
  destruct (nth s (a_storages st) []); [|apply storage_set_plain].
  destruct (nth 0 (a_storages st) []); [reflexivity | apply storage_set_plain].
Qed.

Fixpoint auth_pure (st : astate) (evs : list aqevent) : list auth_result :=
  match evs with
  | [] => []
  | AQOp o :: evs' => auth_pure (fst (astep st o)) evs'
  | AQEval t s o :: evs' => set_on_case st t s o :: auth_pure st evs'
  end.

Lemma auth_trace_plain evs : forall st m, auth_trace match_plain st m evs = auth_pure st evs.
Proof.
  induction evs as [|[o|t s o] evs IH]; intros st m; cbn [auth_trace auth_pure]; [reflexivity| |].
  - destruct (astep st o) as [st' out]. cbn [fst]. apply IH.
  - rewrite set_on_case_plain. rewrite IH. reflexivity.
Qed.

Lemma fst_arun_cons st o ops : fst (arun_from st (o :: ops)) = fst (arun_from (fst (astep st o)) ops).
Proof.
  cbn [arun_from]. destruct (astep st o) as [st' out]. cbn [fst].
  destruct (arun_from st' ops) as [st'' outs]. reflexivity.
Qed.

Lemma auth_pure_app pre : forall st rest,
  auth_pure st (pre ++ rest) = auth_pure st pre ++ auth_pure (fst (arun_from st (aqops_of pre))) rest.
Proof.
  induction pre as [|[o|t s o] pre IH]; intros st rest; cbn [app auth_pure aqops_of].
  - reflexivity.
  - rewrite fst_arun_cons. apply IH.
  - rewrite IH. reflexivity.
Qed.

Lemma auth_pure_length evs : forall st, length (auth_pure st evs) = count_aevals evs.
Proof. induction evs as [|[o|t s o] evs IH]; intros st; cbn; auto. Qed.

Definition sADMIN : str := [97; 100; 109; 105; 110]%N.                  (* admin *)
Definition sPUBLIC : str := [112; 117; 98; 108; 105; 99]%N.             (* public *)
Definition sGET_USERS : str := [71; 69; 84; 32; 47; 117; 115; 101; 114; 115]%N.   (* GET /users *)
Definition sADMINLIST : str := [97; 100; 109; 105; 110; 76; 105; 115; 116]%N.     (* adminList *)
Definition sLIST : str := [108; 105; 115; 116]%N.                       (* list *)

Definition call_tag (v : str) : fcall :=
  {| c_func := None;
     c_crit := [(ALabel, None, None); (AMethod, None, None); (APath, None, None); (ATag, Some (EOne v), None); (AOpId, None, None)] |}.
Definition call_opid (v : str) : fcall :=
  {| c_func := None;
     c_crit := [(ALabel, None, None); (AMethod, None, None); (APath, None, None); (ATag, None, None); (AOpId, Some (EOne v), None)] |}.

(* GET /users of two schemas: the same label, other tags and operationId *)
Definition op_users_admin : oper :=
  {| o_idx := 0; o_label := sGET_USERS; o_method := [103; 101; 116]%N; o_path := sUSERS; o_tags := Some [sADMIN]; o_opid := Some sADMINLIST |}.
Definition op_users_public : oper :=
  {| o_idx := 1; o_label := sGET_USERS; o_method := [103; 101; 116]%N; o_path := sUSERS; o_tags := Some [sPUBLIC]; o_opid := Some sLIST |}.

(* a global hook for the operations tagged admin; dispatchers: global, schema A, schema B *)
Definition hist_admin_hook : list op := [OFilter 0 true (call_tag sADMIN); ORegFn 0 f_map_query].
Definition st_admin_hook : state := fst (run [Global; Schema; Schema] [0; 1; 2] hist_admin_hook).

Definition query_row (r : list (list (hk * N))) : list (hk * N) := nth 1 r [].

(* auth: a global provider for operationId adminList; storages: global, schema A, schema B *)
Definition auth_admin_hist : list aop := [ARegister 0; AFilter 0 true (call_opid sADMINLIST); ACall 0 7%N].
Definition ast_admin : astate := fst (arun 3 auth_admin_hist).

Lemma auth_label_cache_witness :
  auth_trace match_plain ast_admin [] [AQEval None 1 op_users_admin; AQEval None 2 op_users_public] = [AuthBy 7; AuthNone] /\
  auth_trace match_plain ast_admin [] [AQEval None 2 op_users_public; AQEval None 1 op_users_admin] = [AuthNone; AuthBy 7] /\
  auth_trace match_cached ast_admin [] [AQEval None 1 op_users_admin; AQEval None 2 op_users_public] = [AuthBy 7; AuthBy 7] /\
  auth_trace match_cached ast_admin [] [AQEval None 2 op_users_public; AQEval None 1 op_users_admin] = [AuthNone; AuthNone].
Proof. vm_compute. repeat split; reflexivity. Qed.

(* non-vacuity of the evaluation theorems: registrations between the evaluations, a filter added later *)
Example eval_trace_example :
  map query_row (eval_trace match_plain (init [Global; Schema; Schema] [0; 1; 2]) []
    [QEval 1 None op_users_admin; QOp (OFilter 0 true (call_tag sADMIN)); QOp (ORegFn 0 f_map_query);
     QEval 2 None op_users_public; QEval 1 None op_users_admin; QEval 2 None op_users_public;
     QOp (OUnregister 0 21%N); QEval 1 None op_users_admin])
  = [[]; []; [(KMap, 21%N)]; []; []].
Proof. vm_compute. reflexivity. Qed.

(* the region of the sentinel: the label determines the operation among those evaluated *)
Lemma opt_strs_eqb_eq a b : opt_strs_eqb a b = true -> a = b.
Proof. destruct a, b; cbn; intros H; try discriminate; [f_equal; apply strs_eqb_eq; exact H | reflexivity]. Qed.

Lemma opt_str_eqb_eq a b : opt_str_eqb a b = true -> a = b.
Proof. destruct a, b; cbn; intros H; try discriminate; [f_equal; apply str_eqb_spec; exact H | reflexivity]. Qed.

Lemma oper_eqb_eq a b : oper_eqb a b = true -> a = b.
Proof.
  destruct a as [i1 l1 m1 p1 t1 d1], b as [i2 l2 m2 p2 t2 d2]. unfold oper_eqb. cbn [o_idx o_label o_method o_path o_tags o_opid].
  rewrite !andb_true_iff. intros [[[[[H1 H2] H3] H4] H5] H6].
  apply N.eqb_eq in H1. apply str_eqb_spec in H2. apply str_eqb_spec in H3. apply str_eqb_spec in H4.
  apply opt_strs_eqb_eq in H5. apply opt_str_eqb_eq in H6. subst. reflexivity.
Qed.

Lemma labels_determine_eq all a b :
  labels_determine all = true -> In a all -> In b all -> o_label a = o_label b -> a = b.
Proof.
  unfold labels_determine. intros H Ha Hb Hl.
  rewrite forallb_forall in H. specialize (H a Ha). rewrite forallb_forall in H. specialize (H b Hb).
  rewrite Hl, str_eqb_refl in H. cbn [implb] in H. apply oper_eqb_eq. exact H.
Qed.

(* every remembered verdict is the verdict of the only operation with that label *)
Definition Good (st : state) (all : list oper) (m : memo) : Prop :=
  forall c l v, memo_get c l m = Some v -> forall o, In o all -> o_label o = l -> v = fset_match (hp (heap st) c) o.

Lemma good_nil st all : Good st all [].
Proof. intros c l v H. discriminate. Qed.

Lemma cached_step st all :
  labels_determine all = true ->
  forall m c o, Good st all m -> In o all ->
  exists m', match_cached m c (hp (heap st) c) o = (fset_match (hp (heap st) c) o, m') /\ Good st all m'.
Proof.
  intros Hall m c o HG Ho. unfold match_cached. destruct (memo_get c (o_label o) m) as [v|] eqn:E.
  - exists m. split; [|exact HG]. rewrite (HG c (o_label o) v E o Ho eq_refl). reflexivity.
  - eexists. split; [reflexivity|].
    intros c' l v. cbn [memo_get]. destruct (Nat.eqb c' c && str_eqb l (o_label o)) eqn:Ek.
    + apply andb_true_iff in Ek. destruct Ek as [Ec El]. apply Nat.eqb_eq in Ec. apply str_eqb_spec in El. subst c' l.
      intros Hv o' Ho' Hl. inversion Hv; subst v.
      rewrite (labels_determine_eq all o' o Hall Ho' Ho Hl). reflexivity.
    + apply HG.
Qed.

Definition qevals (qs : list (nat * option nat * oper)) : list qevent := map (fun '(s, t, o) => QEval s t o) qs.

Lemma eval_cached_in_region st all qs :
  labels_determine all = true -> (forall q, In q qs -> In (snd q) all) ->
  forall m, Good st all m -> eval_trace match_cached st m (qevals qs) = eval_pure st (qevals qs).
Proof.
  intros Hall. induction qs as [|[[s t] o] qs IH]; intros Hin m HG; cbn [qevals map eval_trace eval_pure]; [reflexivity|].
  destruct (generation_faithful match_cached st (Good st all) (fun o => In o all) (cached_step st all Hall)
              0 s t o all_targets (Hin (s, t, o) (or_introl eq_refl)) m HG) as (m1 & E1 & HG1).
  rewrite E1. f_equal. apply IH; [|exact HG1]. intros q Hq. apply Hin. right. exact Hq.
Qed.

Example label_cache_region_example :
  labels_determine [op_users_admin; op_get; op_users_admin] = true /\ labels_determine [op_users_admin; op_users_public] = false.
Proof. vm_compute. split; reflexivity. Qed.

(* several hooks under one name on one dispatcher: of_kind k reads off what one generated case runs under kind k *)
Lemma of_kind_app k l1 l2 : of_kind k (l1 ++ l2) = of_kind k l1 ++ of_kind k l2.
Proof. unfold of_kind. rewrite filter_app, map_app. reflexivity. Qed.

Lemma of_kind_tagged k k' (l : list N) :
  of_kind k (map (fun f => (k', f)) l) = if hk_eqb k' k then l else [].
Proof.
  unfold of_kind. induction l as [|a l IH]; cbn [map filter fst].
  - destruct (hk_eqb k' k); reflexivity.
  - destruct (hk_eqb k' k) eqn:E; cbn [map snd]; rewrite IH; reflexivity.
Qed.

Lemma count_n_filter (p : N -> bool) f l :
  count_n f (filter p l) = if p f then count_n f l else 0.
Proof.
  unfold count_n. induction l as [|a l IH]; cbn [filter].
  - destruct (p f); reflexivity.
  - destruct (p a) eqn:Pa; cbn [filter]; destruct (N.eqb f a) eqn:E; cbn [length].
    + apply N.eqb_eq in E; subst a. rewrite Pa in *. rewrite IH. reflexivity.
    + exact IH.
    + apply N.eqb_eq in E; subst a. rewrite Pa in *. exact IH.
    + exact IH.
Qed.

(* the sentinel inside its region: with at most one hook per name there is no later hook to be confused with *)
Lemma late_one_hook st ctx k fs : length fs <= 1 -> callbacks_late st ctx k fs = bound_callbacks st ctx fs.
Proof.
  (* the last hook of a list of one is that hook *)
  intros H. destruct fs as [|a [|b fs]]; [| |cbn in H; lia]; destruct k; try reflexivity;
    unfold callbacks_late, bound_callbacks_late, bound_callbacks, fired; cbn [filter last];
    destruct (negb (should_skip st a ctx)); reflexivity.
Qed.

(* witness: two map_case hooks on the schema dispatcher, the first for GET, the second for POST *)
Definition f_map_case2 : hookfn := {| h_id := 7; h_name := NGen KMap TCase; h_arity := 2 |}.
Definition hist_same_name : list op :=
  [OFilter 1 true (call_method sGET); ORegFn 1 f_map_case; OFilter 1 true (call_method sPOST); ORegFn 1 f_map_case2].

(* three hooks of one name, all selected: the code runs each once, the sentinel runs the last one three times *)
Example same_name_three :
  let ops := [ORegFn 1 f_map_case; OFilter 1 true (call_method sGET); ORegFn 1 f_map_case2;
              ORegName 1 (NGen KMap TCase); ODecApply 0 f_map_query] in
  let st := fst (run [Global; Schema] [0; 1] ops) in
  of_kind KMap (apply_case_hooks st 1 op_get) = [6%N; 7%N; 21%N] /\
  of_kind KMap (apply_case_hooks_late st 1 op_get) = [21%N; 21%N; 21%N] /\
  of_kind KMap (apply_case_hooks st 1 op_post) = [6%N; 21%N] /\
  one_per_case_name st 1 = false /\ one_per_case_name st 0 = true.
Proof. vm_compute. repeat split; reflexivity. Qed.
