(* C19 property theorems, each followed by Print Assumptions.  run = the code as it is now; run_prefix = the code
   before the fix commit; spec_run / own_chain = value semantics of registration expressions (no sharing): the filters
   a hook was given by its own (last) registration expression. *)
From Coq Require Import List NArith Bool Arith Lia.
From Verif Require Import Common.Str C19.Model_C19 C19.Proofs_C19.
Import ListNotations.

(* For every configuration of dispatchers and closures and every history of registration operations
   (both decorator forms, chained filters, lone filter calls, late decorator calls, direct registrations,
   unregistrations), the filter_set attribute of every function is exactly the value the value semantics gives its
   (last) registration expression - the chain written there when the closure had nothing pending (next two
   theorems): no FilterSet is shared between registrations.  F1..F6 are the findings of notes/C19.md. *)
Theorem C19_hook_gets_own_filter : forall scopes closures ops f,
  filter_of (fst (run scopes closures ops)) f = own_chain (spec_run closures ops) f.
Proof. exact hook_gets_own_filter. Qed.
Print Assumptions C19_hook_gets_own_filter.

(* declarative reading, function form: after ANY history that leaves the closure with nothing pending,
   register.apply_to(..).skip_for(..)...(f) gives f exactly the chain written in that expression *)
Theorem C19_function_form_gets_its_chain : forall scopes closures pre ri cs f,
  closure_clean (spec_run closures pre) ri = true ->
  (cs = [] \/ nonfilterable (h_name f) = false) ->
  filter_of (fst (run scopes closures (pre ++ filter_ops ri cs ++ [ORegFn ri f]))) (h_id f) = Some (chain_value cs).
Proof.
  intros scopes closures pre ri cs f Hclean Hnf. rewrite hook_gets_own_filter, spec_run_app.
  apply spec_function_form; [apply closure_clean_nth; exact Hclean | exact Hnf].
Qed.
Print Assumptions C19_function_form_gets_its_chain.

(* named form: register.apply_to(cs1)(name).skip_for(cs2)(f) gives f the chain cs1 followed by cs2 *)
Theorem C19_named_form_gets_its_chain : forall scopes closures pre ri cs1 n cs2 f,
  closure_clean (spec_run closures pre) ri = true ->
  nonfilterable n = false ->
  let d := length (s_decs (spec_run closures pre)) in
  filter_of (fst (run scopes closures
      (pre ++ filter_ops ri cs1 ++ [ORegName ri n] ++ dec_filter_ops d cs2 ++ [ODecApply d f]))) (h_id f)
  = Some (chain_value (cs1 ++ cs2)).
Proof.
  intros scopes closures pre ri cs1 n cs2 f Hclean Hnf d. rewrite hook_gets_own_filter, spec_run_app.
  apply spec_named_form; [apply closure_clean_nth; exact Hclean | right; exact Hnf].
Qed.
Print Assumptions C19_named_form_gets_its_chain.

(* the region hypothesis closure_clean holds initially and again after every accepted function-form registration *)
Theorem C19_closure_clean_initially : forall closures ri, ri < length closures -> closure_clean (spec_run closures []) ri = true.
Proof.
  intros closures ri H. apply closure_clean_nth. unfold spec_run, spec_init; cbn.
  rewrite nth_error_map. destruct (nth_error closures ri) eqn:E; [reflexivity|].
  apply nth_error_None in E. lia.
Qed.
Print Assumptions C19_closure_clean_initially.

Theorem C19_closure_clean_after_registration : forall closures pre ri cs f,
  closure_clean (spec_run closures pre) ri = true ->
  (cs = [] \/ nonfilterable (h_name f) = false) ->
  closure_clean (spec_run closures (pre ++ filter_ops ri cs ++ [ORegFn ri f])) ri = true.
Proof.
  intros closures pre ri cs f Hclean Hnf. rewrite spec_run_app. apply closure_clean_nth.
  apply spec_function_form; [apply closure_clean_nth; exact Hclean | exact Hnf].
Qed.
Print Assumptions C19_closure_clean_after_registration.

(* the behaviour before the fix, kept so that its return is recognised: history
   [apply_to A; register h1; apply_to B; register h2] gave h2 the filter A instead of B *)
Theorem C19_prefix_behaviour_refuted : exists scopes closures ops f,
  filter_of (fst (run_prefix scopes closures ops)) f <> own_chain (spec_run closures ops) f.
Proof. exists [Schema], [0], hist_two, (h_id f_filter_query). vm_compute. discriminate. Qed.
Print Assumptions C19_prefix_behaviour_refuted.

Theorem C19_prefix_behaviour_witness :
  filter_of (fst (run_prefix [Schema] [0] hist_two)) (h_id f_filter_query) = Some fs_get /\
  own_chain (spec_run [0] hist_two) (h_id f_filter_query) = Some fs_users /\
  filter_of (fst (run_prefix [Schema] [0] hist_two)) (h_id f_filter_query)
    <> own_chain (spec_run [0] hist_two) (h_id f_filter_query).
Proof. vm_compute. repeat split. discriminate. Qed.
Print Assumptions C19_prefix_behaviour_witness.

(* a hook whose own chain is empty, or that has no filter_set at all (direct registration), is never skipped *)
Theorem C19_unfiltered_applies_everywhere : forall scopes closures ops f ctx,
  own_chain (spec_run closures ops) f = Some fs_empty \/ own_chain (spec_run closures ops) f = None ->
  should_skip (fst (run scopes closures ops)) f ctx = false.
Proof.
  intros scopes closures ops f ctx H. unfold should_skip. rewrite hook_gets_own_filter.
  destruct H as [-> | ->]; [|reflexivity]. destruct ctx; reflexivity.
Qed.
Print Assumptions C19_unfiltered_applies_everywhere.

(* F4: ... but the chain a closure hands out is what is pending in it, and a registration refused by
   validate_filterable_hook leaves its filters pending: the next function has no filters of its own and is skipped *)
Theorem C19_unfiltered_applies_everywhere_refuted : exists scopes closures pre ri g f o,
  h_id g <> h_id f /\
  should_skip (fst (run scopes closures (pre ++ [ORegFn ri g; ORegFn ri f]))) (h_id f) (Some o) = true.
Proof.
  exists [Schema], [0], [OFilter 0 true (call_method sGET)], 0, f_bpp, f_map_query, op_post.
  split; [discriminate | vm_compute; reflexivity].
Qed.
Print Assumptions C19_unfiltered_applies_everywhere_refuted.

(* F3: filters chained on a decorator leave filter_used set: the next unfiltered registration of a
   non-filterable hook name on that closure is refused *)
Theorem C19_unfiltered_accepted_refuted : exists scopes closures pre d g ri f,
  last (snd (run scopes closures (pre ++ [ODecApply d g; ORegFn ri f]))) Done = RejectedFilter.
Proof.
  exists [Schema], [0], [ORegName 0 (NGen KMap TBody); ODecFilter 0 true (call_method sGET)], 0, f_map_body, 0, f_bpp.
  exact (f_equal (fun outs => last outs Done) unfiltered_accepted_refuted).
Qed.
Print Assumptions C19_unfiltered_accepted_refuted.

(* which hooks transform the strategy of a parameter container: exactly those registered under that name on the
   global, schema or test dispatcher whose own filters select the operation *)
Theorem C19_all_scopes_applied : forall scopes closures ops g s t c o k f,
  let st := fst (run scopes closures ops) in
  In (k, f) (apply_to_all st g s t c (Some o)) <->
  exists di, in_scope g s t di /\ In f (all_by_name st di (NGen k c)) /\
             match own_chain (spec_run closures ops) f with Some fs => fset_match fs o = true | None => True end.
Proof. exact all_scopes_applied. Qed.
Print Assumptions C19_all_scopes_applied.

Theorem C19_scope_order : forall st g s ti c ctx,
  apply_to_all st g s (Some ti) c ctx
  = apply_to_container st g c ctx ++ apply_to_container st s c ctx ++ apply_to_container st ti c ctx.
Proof. reflexivity. Qed.
Print Assumptions C19_scope_order.

(* what data generation applies, for ALL six targets (path_parameters, query, headers, cookies, body and case):
   exactly the hooks registered under that name on a dispatcher in scope whose own filters select the operation *)
Theorem C19_generation_hooks : forall scopes closures ops g s t c o k f,
  let st := fst (run scopes closures ops) in
  In (k, f) (generation_hooks st g s t c o) <->
  exists di, in_scope g s t di /\ In f (all_by_name st di (NGen k c)) /\
             match own_chain (spec_run closures ops) f with Some fs => fset_match fs o = true | None => True end.
Proof. intros. rewrite generation_hooks_all. apply all_scopes_applied. Qed.
Print Assumptions C19_generation_hooks.

(* the case level on its own (APIOperation.as_strategy._apply_hooks) *)
Theorem C19_case_hooks_respect_filters : forall scopes closures ops g s t o k f,
  let st := fst (run scopes closures ops) in
  In (k, f) (as_strategy_case_hooks st g s t o) <->
  exists di, in_scope g s t di /\ In f (all_by_name st di (NGen k TCase)) /\
             match own_chain (spec_run closures ops) f with Some fs => fset_match fs o = true | None => True end.
Proof. intros. rewrite case_hooks_eq. apply all_scopes_applied. Qed.
Print Assumptions C19_case_hooks_respect_filters.

(* F2, fixed by 4324b099: the behaviour before (as_strategy applied case hooks without looking at their filters),
   kept so that its return is recognised *)
Theorem C19_case_hooks_prefix_behaviour_refuted : exists scopes closures ops g s t o k f fs,
  own_chain (spec_run closures ops) f = Some fs /\ fset_match fs o = false /\
  In (k, f) (generation_hooks_prefix (fst (run scopes closures ops)) g s t TCase o).
Proof.
  exists [Global; Schema], [0; 1], [OFilter 0 true (call_method sGET); ORegFn 0 f_map_case], 0, 1, None, op_post, KMap, 6%N, fs_get.
  vm_compute. auto.
Qed.
Print Assumptions C19_case_hooks_prefix_behaviour_refuted.

(* histories with data generation interleaved with (un)registration on the same objects: what a generation applies is
   determined by the registration operations before it; earlier generations (how many, for which operations) do not matter *)
Theorem C19_generation_uses_current_registrations : forall st g s t pre o post,
  nth (count_generates pre) (gen_trace st g s t (pre ++ EGenerate o :: post)) []
  = map (fun c => generation_hooks (fst (run_gen true st (ops_of pre))) g s t c o) all_targets.
Proof.
  intros. rewrite gen_trace_app, app_nth2; rewrite gen_trace_length; [|lia].
  rewrite Nat.sub_diag. reflexivity.
Qed.
Print Assumptions C19_generation_uses_current_registrations.

(* ... hence, from the initial state: hook f is applied by that generation for target c iff it is registered at that
   moment under k_c on the global, schema or test dispatcher and the filters of its own expression select the operation *)
Theorem C19_generation_now : forall scopes closures g s t pre o post c k f,
  In c all_targets ->
  (exists l, nth_error (nth (count_generates pre)
                            (gen_trace (init scopes closures) g s t (pre ++ EGenerate o :: post)) [])
                       (match c with TPath => 0 | TQuery => 1 | THeaders => 2 | TCookies => 3 | TBody => 4 | TCase => 5 end) = Some l
             /\ (In (k, f) l <->
                 exists di, in_scope g s t di /\ In f (all_by_name (fst (run scopes closures (ops_of pre))) di (NGen k c)) /\
                            match own_chain (spec_run closures (ops_of pre)) f with Some fs => fset_match fs o = true | None => True end)).
Proof.
  intros scopes closures g s t pre o post c k f _. rewrite C19_generation_uses_current_registrations.
  eexists. split; [apply nth_error_all_targets | apply C19_generation_hooks].
Qed.
Print Assumptions C19_generation_now.

(* unregister removes exactly that function from every name of that dispatcher and touches nothing else *)
Theorem C19_unregister_exact : forall fixed st di f st',
  step_gen fixed st (OUnregister di f) = (st', Done) ->
  (forall n, all_by_name st' di n = filter (fun g => negb (N.eqb g f)) (all_by_name st di n)) /\
  (forall dj n, dj <> di -> all_by_name st' dj n = all_by_name st dj n) /\
  (forall g, filter_of st' g = filter_of st g) /\
  regs st' = regs st /\ decs st' = decs st.
Proof.
  intros fixed st di f st'. cbn [step_gen]. destruct (nth_error (disps st) di) as [d|] eqn:Ed; [|discriminate].
  intros H; inversion H; subst st'; clear H.
  assert (Hd : forall dj n, all_by_name {| heap := heap st; regs := regs st; decs := decs st; fattr := fattr st;
                                           disps := upd di (unregister_in f d) (disps st) |} dj n
                            = if Nat.eqb dj di then filter (fun g => negb (N.eqb g f)) (all_by_name st dj n) else all_by_name st dj n).
  { intros dj n. apply all_by_name_unregister. cbn [disps]. rewrite Ed. reflexivity. }
  repeat split.
  - intros n. rewrite Hd, Nat.eqb_refl. reflexivity.
  - intros dj n Hne. rewrite Hd. apply Nat.eqb_neq in Hne. rewrite Hne. reflexivity.
Qed.
Print Assumptions C19_unregister_exact.

Theorem C19_unregistered_not_applied : forall fixed st di f st' c ctx k,
  step_gen fixed st (OUnregister di f) = (st', Done) ->
  ~ In (k, f) (apply_to_container st' di c ctx) /\
  (forall g, g <> f -> (In (k, g) (apply_to_container st' di c ctx) <-> In (k, g) (apply_to_container st di c ctx))).
Proof.
  intros fixed st di f st' c ctx k H. destruct (C19_unregister_exact _ _ _ _ _ H) as (H1 & _ & H3 & _).
  assert (Hs : forall g, should_skip st' g ctx = should_skip st g ctx) by (intros g; unfold should_skip; rewrite H3; reflexivity).
  split.
  - rewrite in_apply_to_container, H1, filter_In, N.eqb_refl. cbn. intros [[_ ?] _]; discriminate.
  - intros g Hg. rewrite !in_apply_to_container, H1, filter_In, Hs.
    assert (negb (N.eqb g f) = true) by (apply negb_true_iff, N.eqb_neq; exact Hg). tauto.
Qed.
Print Assumptions C19_unregistered_not_applied.

Theorem C19_unregister_all_exact : forall fixed st di st',
  step_gen fixed st (OUnregisterAll di) = (st', Done) ->
  (forall n, all_by_name st' di n = []) /\
  (forall dj n, dj <> di -> all_by_name st' dj n = all_by_name st dj n) /\
  (forall g, filter_of st' g = filter_of st g).
Proof.
  intros fixed st di st'. cbn [step_gen]. destruct (nth_error (disps st) di) as [d|] eqn:Ed; [|discriminate].
  intros H; inversion H; subst st'; clear H.
  assert (Hd : forall dj n, all_by_name {| heap := heap st; regs := regs st; decs := decs st; fattr := fattr st;
                                           disps := upd di (unregister_all_in d) (disps st) |} dj n
                            = if Nat.eqb dj di then [] else all_by_name st dj n).
  { intros dj n. apply all_by_name_unregister_all. cbn [disps]. rewrite Ed. reflexivity. }
  repeat split.
  - intros n. rewrite Hd, Nat.eqb_refl. reflexivity.
  - intros dj n Hne. rewrite Hd. apply Nat.eqb_neq in Hne. rewrite Hne. reflexivity.
Qed.
Print Assumptions C19_unregister_all_exact.

(* F5: the filter set lives on the function object: a second registration of the same function replaces the
   filters of the first one too (the main theorem speaks of the LAST registration expression of f) *)
Theorem C19_registration_keeps_filter_refuted : exists scopes closures c r1 r2 f t o k,
  fset_match (chain_value [(true, c)]) o = false /\
  In (k, h_id f) (apply_to_container (fst (run scopes closures [OFilter r1 true c; ORegFn r1 f; ORegFn r2 f])) 0 t (Some o)).
Proof.
  exists [Global; Schema], [0; 1], (call_method sGET), 0, 1, f_flatmap_headers, THeaders, op_post, KFlatmap.
  vm_compute. auto.
Qed.
Print Assumptions C19_registration_keeps_filter_refuted.

(* auth providers: in every history that only names existing objects, the filter set of every wrapper (and of the
   SelectiveAuthProvider it registers) is exactly the chain of apply_to/skip_for calls written on that wrapper *)
Theorem C19_auth_provider_own_filter : forall n ops w,
  no_bad_index (snd (arun n ops)) = true ->
  hp (a_sets (fst (arun n ops))) w = chain_value (calls_on w ops).
Proof.
  intros n ops w H. unfold arun in *. rewrite (auth_sets_from ops (ainit n) eq_refl H w).
  unfold ainit, hp; cbn. destruct w; reflexivity.
Qed.
Print Assumptions C19_auth_provider_own_filter.

(* ... and the provider that authenticates an operation is the first one of the storage whose own chain selects it *)
Theorem C19_auth_first_matching : forall n ops ps o,
  no_bad_index (snd (arun n ops)) = true -> ps <> [] ->
  storage_set (a_sets (fst (arun n ops))) ps o =
  match find (fun p => match p with
                       | PPlain _ => true
                       | PSelective _ w => fset_match (chain_value (calls_on w ops)) o
                       end) ps with
  | Some p => AuthBy (provider_cls p)
  | None => AuthNone
  end.
Proof.
  intros n ops ps o H Hne. unfold storage_set. destruct ps as [|p ps]; [congruence|].
  erewrite find_ext'; [reflexivity|].
  intros [c|c w]; cbn; [reflexivity|]. rewrite (C19_auth_provider_own_filter n ops w H). reflexivity.
Qed.
Print Assumptions C19_auth_first_matching.

(* non-vacuity: the hypotheses are satisfiable by non-trivial histories *)
Theorem C19_hypotheses_satisfiable :
  (snd (run [Schema] [0] hist_two) = [Done; Done; Done; Done] /\
   filter_of (fst (run [Schema] [0] hist_two)) (h_id f_map_body) = Some fs_get /\
   filter_of (fst (run [Schema] [0] hist_two)) (h_id f_filter_query) = Some fs_users /\
   dispatch (fst (run [Schema] [0] hist_two)) 0 (NGen KFilter TQuery) (Some op_post) = [2%N] /\
   dispatch (fst (run [Schema] [0] hist_two)) 0 (NGen KMap TBody) (Some op_post) = []) /\
  (no_bad_index (snd (arun 2 auth_hist)) = true /\
   nth 1 (a_storages (fst (arun 2 auth_hist))) [] = [PSelective 7 0; PSelective 8 1; PPlain 9] /\
   set_on_case (fst (arun 2 auth_hist)) None 1 op_get = AuthBy 7 /\
   set_on_case (fst (arun 2 auth_hist)) None 1 op_post = AuthBy 8).
Proof. split; [exact hist_two_now | exact auth_example]. Qed.
Print Assumptions C19_hypotheses_satisfiable.

(* the ledger - one entry per accepted registration, computed from the specification state only, unregister(f) removes
   the entries of f on that dispatcher - lists exactly what HookDispatcher._hooks holds under every name, in order *)
Theorem C19_ledger_is_hooks : forall scopes closures ops di n,
  all_by_name (fst (run scopes closures ops)) di n = map e_fn (filter (entry_on di n) (ledger scopes closures ops)).
Proof. intros. apply (L_hooks _ _ _ _ _ (ledger_linv scopes closures ops)). Qed.
Print Assumptions C19_ledger_is_hooks.

(* a registration whose chain is the chain its function carries now is skipped exactly where its own chain says *)
Theorem C19_current_registration_own_chain : forall scopes closures ops e ctx,
  entry_current (spec_run closures ops) e = true ->
  should_skip (fst (run scopes closures ops)) (e_fn e) ctx = negb (entry_selects (spec_run closures ops) e ctx).
Proof.
  intros scopes closures ops e ctx H. unfold entry_current in H. apply fset_beq_eq in H.
  rewrite should_skip_opt, hook_gets_own_filter, <- H. destruct ctx; reflexivity.
Qed.
Print Assumptions C19_current_registration_own_chain.

(* THE PROPERTY per registration, for all histories (any number of registrations of one function object, on any
   dispatchers, in any form, with unregistrations in between): the hooks the code runs under a name on a dispatcher are
   exactly the registrations there whose OWN chain selects the operation - in the region where every registration under
   that name carries the chain its function object carries now (entry_current) *)
Theorem C19_each_registration_own_chain_partial : forall scopes closures ops di n ctx,
  forallb (entry_current (spec_run closures ops)) (filter (entry_on di n) (ledger scopes closures ops)) = true ->
  dispatch (fst (run scopes closures ops)) di n ctx
  = spec_dispatch (spec_run closures ops) (ledger scopes closures ops) di n ctx.
Proof.
  intros scopes closures ops di n ctx H. unfold dispatch, spec_dispatch. rewrite C19_ledger_is_hooks.
  apply fired_current; [|exact H]. intros e He. apply C19_current_registration_own_chain. exact He.
Qed.
Print Assumptions C19_each_registration_own_chain_partial.

(* the same for the strategy transformations of one container *)
Theorem C19_each_registration_own_chain_container_partial : forall scopes closures ops di t ctx,
  (forall k, forallb (entry_current (spec_run closures ops))
                     (filter (entry_on di (NGen k t)) (ledger scopes closures ops)) = true) ->
  apply_to_container (fst (run scopes closures ops)) di t ctx
  = spec_apply_to_container (spec_run closures ops) (ledger scopes closures ops) di t ctx.
Proof.
  intros scopes closures ops di t ctx H. unfold apply_to_container, spec_apply_to_container.
  apply flat_map_ext. intros k. f_equal. apply (C19_each_registration_own_chain_partial scopes closures ops di (NGen k t) ctx (H k)).
Qed.
Print Assumptions C19_each_registration_own_chain_container_partial.

(* F5 stated for registrations: outside the region the code deviates in both directions *)
Theorem C19_each_registration_own_chain_refuted : exists scopes closures ops di n o,
  dispatch (fst (run scopes closures ops)) di n (Some o)
  <> spec_dispatch (spec_run closures ops) (ledger scopes closures ops) di n (Some o).
Proof.
  exists [Global; Schema], [0; 1], [OFilter 0 true (call_method sGET); ORegFn 0 f_flatmap_headers; ORegFn 1 f_flatmap_headers],
         0, (NGen KFlatmap THeaders), op_post.
  vm_compute. discriminate.
Qed.
Print Assumptions C19_each_registration_own_chain_refuted.

Theorem C19_direct_registration_inherits_refuted : exists scopes closures ops di n o,
  dispatch (fst (run scopes closures ops)) di n (Some o) = [] /\
  spec_dispatch (spec_run closures ops) (ledger scopes closures ops) di n (Some o) <> [].
Proof.
  exists [Global; Schema], [0; 1],
         [OFilter 0 true (call_method sGET); ORegFn 0 f_flatmap_headers; OUnregister 0 3%N;
          ODirect 1 f_flatmap_headers (NGen KFlatmap THeaders)],
         1, (NGen KFlatmap THeaders), op_post.
  vm_compute. split; [reflexivity | discriminate].
Qed.
Print Assumptions C19_direct_registration_inherits_refuted.

(* what F5 does NOT touch: after ANY history (the same function registered before with filters, anywhere, in any form,
   unregistered or still registered) an UNFILTERED registration expression on a closure with nothing pending makes the
   function apply everywhere; both decorator forms *)
Theorem C19_unfiltered_reregistration_applies_everywhere : forall scopes closures pre ri f ctx,
  closure_clean (spec_run closures pre) ri = true ->
  should_skip (fst (run scopes closures (pre ++ [ORegFn ri f]))) (h_id f) ctx = false.
Proof.
  intros scopes closures pre ri f ctx H. apply C19_unfiltered_applies_everywhere. left. rewrite spec_run_app.
  apply (spec_function_form _ ri [] f); [apply closure_clean_nth; exact H | left; reflexivity].
Qed.
Print Assumptions C19_unfiltered_reregistration_applies_everywhere.

Theorem C19_unfiltered_named_reregistration_applies_everywhere : forall scopes closures pre ri n f ctx,
  closure_clean (spec_run closures pre) ri = true ->
  let d := length (s_decs (spec_run closures pre)) in
  should_skip (fst (run scopes closures (pre ++ [ORegName ri n; ODecApply d f]))) (h_id f) ctx = false.
Proof.
  intros scopes closures pre ri n f ctx H d. apply C19_unfiltered_applies_everywhere. left. rewrite spec_run_app.
  apply (spec_named_form _ ri [] n [] f); [apply closure_clean_nth; exact H | left; reflexivity].
Qed.
Print Assumptions C19_unfiltered_named_reregistration_applies_everywhere.

(* non-vacuity: one function registered with a filter, unregistered, registered again unfiltered on two dispatchers and
   under a second name - every entry is in the region and the unfiltered registrations fire for POST *)
Theorem C19_reregistration_satisfiable :
  let ops := [OFilter 0 true (call_method sGET); ORegFn 0 f_map_query; OUnregister 0 21%N; ORegFn 0 f_map_query;
              ORegFn 1 f_map_query; ORegName 1 (NGen KMap THeaders); ODecApply 0 f_map_query] in
  let ss := spec_run [0; 1] ops in
  let lg := ledger [Global; Schema] [0; 1] ops in
  map (fun e => (e_disp e, e_fn e, entry_current ss e)) lg = [(0, 21%N, true); (1, 21%N, true); (1, 21%N, true)] /\
  dispatch (fst (run [Global; Schema] [0; 1] ops)) 0 (NGen KMap TQuery) (Some op_post) = [21%N] /\
  spec_dispatch ss lg 0 (NGen KMap TQuery) (Some op_post) = [21%N] /\
  spec_dispatch ss lg 1 (NGen KMap THeaders) (Some op_post) = [21%N].
Proof. exact reregistration_example. Qed.
Print Assumptions C19_reregistration_satisfiable.

(* evaluation sequences: the same filter sets asked about operations of SEVERAL schemas, in any order *)
(* Filter evaluation is a pure function of the operation it is given.  Evaluation is written as a machine over an explicit
   memory (eval_trace, matcher match_plain = FilterSet.match as it is).  For every state st (any registration history),
   every memory m, every sequence pre of registrations and evaluations (operations of any number of schemas - equal labels
   included -, any order, repeated) and everything that follows: the hooks applied by the evaluation of operation o are
   those of generation_hooks for o in the state the REGISTRATIONS of pre lead to - the evaluations of pre are erased. *)
Theorem C19_filter_evaluation_pure : forall st m pre s t o post,
  nth (count_evals pre) (eval_trace match_plain st m (pre ++ QEval s t o :: post)) []
  = map (fun c => generation_hooks (fst (run_gen true st (qops_of pre))) 0 s t c o) all_targets.
Proof.
  intros. rewrite eval_trace_plain, eval_pure_app, app_nth2; rewrite eval_pure_length; [|lia].
  rewrite Nat.sub_diag. reflexivity.
Qed.
Print Assumptions C19_filter_evaluation_pure.

(* two evaluation sequences that contain the same registrations give the evaluation of o the same result *)
Theorem C19_filter_evaluation_order_independent : forall st m1 m2 pre1 pre2 s t o post1 post2,
  qops_of pre1 = qops_of pre2 ->
  nth (count_evals pre1) (eval_trace match_plain st m1 (pre1 ++ QEval s t o :: post1)) []
  = nth (count_evals pre2) (eval_trace match_plain st m2 (pre2 ++ QEval s t o :: post2)) [].
Proof. intros st m1 m2 pre1 pre2 s t o post1 post2 H. rewrite !C19_filter_evaluation_pure, H. reflexivity. Qed.
Print Assumptions C19_filter_evaluation_order_independent.

(* ... hence, from the initial state: hook f is applied for target c by the k-th evaluation iff it is registered at that
   moment under k_c on the global dispatcher, the dispatcher of the schema of o, or the test dispatcher, and the filters
   of its own expression select o (its attributes: label, method, path, tags, operationId, truth tables by o_idx) *)
Theorem C19_evaluation_sequence_own_chain : forall scopes closures m pre s t o post c k f,
  exists l, nth_error (nth (count_evals pre)
                           (eval_trace match_plain (init scopes closures) m (pre ++ QEval s t o :: post)) [])
                      (match c with TPath => 0 | TQuery => 1 | THeaders => 2 | TCookies => 3 | TBody => 4 | TCase => 5 end) = Some l
            /\ (In (k, f) l <->
                exists di, in_scope 0 s t di /\ In f (all_by_name (fst (run scopes closures (qops_of pre))) di (NGen k c)) /\
                           match own_chain (spec_run closures (qops_of pre)) f with Some fs => fset_match fs o = true | None => True end).
Proof.
  intros. rewrite C19_filter_evaluation_pure.
  eexists. split; [apply nth_error_all_targets | apply C19_generation_hooks].
Qed.
Print Assumptions C19_evaluation_sequence_own_chain.

(* the same for auth providers: the k-th case is authenticated as set_on_case says in the state the auth registrations
   before it lead to, whatever was authenticated before ... *)
Theorem C19_auth_evaluation_pure : forall st m pre t s o post,
  nth (count_aevals pre) (auth_trace match_plain st m (pre ++ AQEval t s o :: post)) AuthNone
  = set_on_case (fst (arun_from st (aqops_of pre))) t s o.
Proof.
  intros. rewrite auth_trace_plain, auth_pure_app, app_nth2; rewrite auth_pure_length; [|lia].
  rewrite Nat.sub_diag. reflexivity.
Qed.
Print Assumptions C19_auth_evaluation_pure.

(* ... by the first provider of the storage in charge (ps) whose OWN chain selects that operation *)
Theorem C19_auth_evaluation_first_matching : forall n m pre o post ps,
  no_bad_index (snd (arun n (aqops_of pre))) = true -> ps <> [] ->
  forall t s, set_on_case (fst (arun n (aqops_of pre))) t s o = storage_set (a_sets (fst (arun n (aqops_of pre)))) ps o ->
  nth (count_aevals pre) (auth_trace match_plain (ainit n) m (pre ++ AQEval t s o :: post)) AuthNone
  = match find (fun p => match p with
                         | PPlain _ => true
                         | PSelective _ w => fset_match (chain_value (calls_on w (aqops_of pre))) o
                         end) ps with
    | Some p => AuthBy (provider_cls p)
    | None => AuthNone
    end.
Proof.
  intros n m pre o post ps Hok Hne t s Hin. rewrite C19_auth_evaluation_pure. fold (arun n (aqops_of pre)). rewrite Hin.
  apply C19_auth_first_matching; assumption.
Qed.
Print Assumptions C19_auth_evaluation_first_matching.

(* regression sentinel (seed C19_d): FilterSet.match remembering its verdict per operation LABEL.  Witness: a global hook
   apply_to(tag=admin), GET /users of schema A tagged admin, GET /users of schema B tagged public - the verdict for the
   second operation depends on whether the first one was evaluated before *)
Theorem C19_label_cache_refuted : exists st s1 s2 o1 o2,
  o_label o1 = o_label o2 /\ o_tags o1 <> o_tags o2 /\
  nth 1 (eval_trace match_cached st [] [QEval s1 None o1; QEval s2 None o2]) []
  <> nth 0 (eval_trace match_cached st [] [QEval s2 None o2]) [].
Proof.
  exists st_admin_hook, 1, 2, op_users_admin, op_users_public.
  vm_compute. repeat split; discriminate.
Qed.
Print Assumptions C19_label_cache_refuted.

(* both directions: wrongly applied after the tagged operation, wrongly skipped after the untagged one; the code as it is
   (match_plain) applies the hook to the tagged operation only, in both orders (non-vacuity of C19_filter_evaluation_pure and
   C19_filter_evaluation_order_independent) *)
Theorem C19_label_cache_witness :
  o_label op_users_admin = o_label op_users_public /\ o_tags op_users_admin <> o_tags op_users_public /\
  map query_row (eval_trace match_plain st_admin_hook [] [QEval 1 None op_users_admin; QEval 2 None op_users_public])
    = [[(KMap, 21%N)]; []] /\
  map query_row (eval_trace match_plain st_admin_hook [] [QEval 2 None op_users_public; QEval 1 None op_users_admin])
    = [[]; [(KMap, 21%N)]] /\
  map query_row (eval_trace match_cached st_admin_hook [] [QEval 1 None op_users_admin; QEval 2 None op_users_public])
    = [[(KMap, 21%N)]; [(KMap, 21%N)]] /\
  map query_row (eval_trace match_cached st_admin_hook [] [QEval 2 None op_users_public; QEval 1 None op_users_admin])
    = [[]; []].
Proof. vm_compute. repeat split. discriminate. Qed.
Print Assumptions C19_label_cache_witness.

Theorem C19_auth_label_cache_refuted : exists st s1 s2 o1 o2,
  o_label o1 = o_label o2 /\
  nth 1 (auth_trace match_cached st [] [AQEval None s1 o1; AQEval None s2 o2]) AuthNone
  <> nth 0 (auth_trace match_cached st [] [AQEval None s2 o2]) AuthNone.
Proof.
  exists ast_admin, 1, 2, op_users_admin, op_users_public. split; [reflexivity | vm_compute; discriminate].
Qed.
Print Assumptions C19_auth_label_cache_refuted.

(* a region in which the sentinel cannot be told from the code, and the reason every single-schema stage is blind to it:
   as long as the label determines the operation among those evaluated (region labels_determine: all operations from one
   schema), the label-keyed memory gives the results of the code - for every state and every sequence of evaluations
   (no registration in between) starting from an empty memory *)
Theorem C19_label_cache_single_schema_partial : forall st qs,
  labels_determine (map snd qs) = true ->
  eval_trace match_cached st [] (qevals qs) = eval_trace match_plain st [] (qevals qs).
Proof.
  intros st qs Hall. rewrite eval_trace_plain.
  apply (eval_cached_in_region st (map snd qs) qs Hall); [|apply good_nil].
  intros q Hq. apply in_map. exact Hq.
Qed.
Print Assumptions C19_label_cache_single_schema_partial.

(* SEVERAL hooks registered under ONE name on one dispatcher (seed C19_g).  The callbacks for filter_case / map_case /
   flatmap_case are built in one loop and called by Hypothesis later, at draw time; of_kind k = the hook functions one
   generated case runs under kind k, in order.  For every state (hence after every registration history), dispatcher,
   kind and operation: exactly the hooks of that name which their own filter set selects, in registration order ... *)
Theorem C19_same_name_hooks_in_order : forall st di k o,
  of_kind k (apply_case_hooks st di o)
  = filter (fun f => negb (should_skip st f (Some o))) (all_by_name st di (NGen k TCase)).
Proof.
  intros st di k o. unfold apply_case_hooks, kinds, fired. cbn [flat_map].
  rewrite !of_kind_app, !of_kind_tagged. cbn [of_kind map filter].
  destruct k; cbn [hk_eqb]; rewrite ?app_nil_r; reflexivity.
Qed.
Print Assumptions C19_same_name_hooks_in_order.

(* ... each selected hook as often as it is registered under that name (once per registration; none skipped), a hook that
   is filtered out for the operation never *)
Theorem C19_same_name_hooks_each_once : forall st di k o f,
  count_n f (of_kind k (apply_case_hooks st di o))
  = if should_skip st f (Some o) then 0 else count_n f (all_by_name st di (NGen k TCase)).
Proof.
  intros. rewrite C19_same_name_hooks_in_order, count_n_filter. destruct (should_skip st f (Some o)); reflexivity.
Qed.
Print Assumptions C19_same_name_hooks_each_once.

(* ... and over the three scopes: global, then schema, then test *)
Theorem C19_same_name_hooks_all_scopes : forall st g s t k o,
  of_kind k (as_strategy_case_hooks st g s t o)
  = fired st (Some o) (all_by_name st g (NGen k TCase)) ++ fired st (Some o) (all_by_name st s (NGen k TCase))
    ++ match t with Some ti => fired st (Some o) (all_by_name st ti (NGen k TCase)) | None => [] end.
Proof.
  intros. unfold as_strategy_case_hooks. rewrite !of_kind_app, !C19_same_name_hooks_in_order.
  destruct t; [rewrite C19_same_name_hooks_in_order|]; reflexivity.
Qed.
Print Assumptions C19_same_name_hooks_all_scopes.

(* sentinel: callbacks that look their hook up when they are CALLED (a closure over the loop variable of an exhausted
   generator) all run the last hook of the list.  Two map_case hooks on the schema dispatcher, the first for GET, the second
   for POST, operation GET /users: the filtered-out second hook runs, the selected first one never does *)
Theorem C19_late_binding_refuted : exists scopes closures ops di k o f_out f_in,
  let st := fst (run scopes closures ops) in
  should_skip st f_out (Some o) = true /\
  count_n f_out (of_kind k (apply_case_hooks_late st di o)) = 1 /\
  should_skip st f_in (Some o) = false /\
  count_n f_in (all_by_name st di (NGen k TCase)) = 1 /\
  count_n f_in (of_kind k (apply_case_hooks_late st di o)) = 0.
Proof.
  exists [Global; Schema], [0; 1], hist_same_name, 1, KMap, op_get, 7%N, 6%N. vm_compute. repeat split; reflexivity.
Qed.
Print Assumptions C19_late_binding_refuted.

Theorem C19_late_binding_witness :
  let st := fst (run [Global; Schema] [0; 1] hist_same_name) in
  all_by_name st 1 (NGen KMap TCase) = [6%N; 7%N] /\
  should_skip st 6%N (Some op_get) = false /\ should_skip st 7%N (Some op_get) = true /\
  generation_hooks st 0 1 None TCase op_get = [(KMap, 6%N)] /\
  generation_hooks st 0 1 None TCase op_post = [(KMap, 7%N)] /\
  generation_hooks_late st 0 1 None TCase op_get = [(KMap, 7%N)] /\
  generation_hooks_late st 0 1 None TCase op_post = [(KMap, 7%N)].
Proof. vm_compute. repeat split; reflexivity. Qed.
Print Assumptions C19_late_binding_witness.

(* a region in which the sentinel cannot be told from the code, and the reason stages with one hook per name are blind to it *)
Theorem C19_late_binding_single_hook_partial : forall st di o,
  one_per_case_name st di = true -> apply_case_hooks_late st di o = apply_case_hooks st di o.
Proof.
  intros st di o. unfold one_per_case_name, kinds. cbn [forallb]. rewrite !andb_true_iff, !Nat.leb_le.
  intros (H1 & H2 & H3 & H4 & _).
  unfold apply_case_hooks_late, apply_case_hooks, kinds. cbn [flat_map].
  rewrite !late_one_hook by assumption. reflexivity.
Qed.
Print Assumptions C19_late_binding_single_hook_partial.
