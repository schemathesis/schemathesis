(* Lemmas behind the C01 theorems.  First a few list facts and what the statements of Properties_C01.v are written with
   beside the model (specifications, witnesses, example documents).  Then, in the order of Model_C01: the matching relation
   (inversions, framing by anchors, unit width) and the soundness of the executable matcher (sections 1-2); the arithmetic
   of the rewriter, its soundness inside the regions and the lemma behind the length witnesses outside (3-5); key sets (6);
   the nullable conversion (7); equality of generation settings (8); the aliasing invariant of the converter - a conversion
   only touches containers it allocated itself (9); where the rewriter runs in the pipeline of a parameter location (10);
   the value chain (11). *)
From Coq Require Import List NArith ZArith Bool Lia.
From Verif Require Import Common.Str Common.Json Common.Lists C01.Model_C01.
Import ListNotations.
Open Scope Z_scope.

Lemma split_last_app (l : list node) b : split_last (l ++ [b]) = Some (l, b).
Proof.
  induction l as [|x l IH]; [reflexivity|].
  cbn [app split_last]. rewrite IH. destruct (l ++ [b]) eqn:E; [destruct l; discriminate|reflexivity].
Qed.

Lemma split_last_some l m b : split_last l = Some (m, b) -> l = m ++ [b].
Proof.
  revert m b; induction l as [|x l IH]; intros m b H; [discriminate|].
  cbn [split_last] in H. destruct l as [|y l'].
  - inversion H; reflexivity.
  - destruct (split_last (y :: l')) as [[m' b']|] eqn:E; [|discriminate].
    inversion H; subst. rewrite (IH m' b eq_refl). reflexivity.
Qed.

Lemma length_app_Z {A} (a b : list A) : Z.of_nat (length (a ++ b)) = Z.of_nat (length a) + Z.of_nat (length b).
Proof. rewrite app_length; lia. Qed.

Lemma forallb_between {A} (f : A -> bool) a l b : forallb f (a :: l ++ [b]) = true -> forallb f l = true.
Proof. cbn [forallb]. rewrite forallb_app, !andb_true_iff. tauto. Qed.

(* what the statements of Properties_C01.v are written with *)
Fixpoint sum_lo (d : list (Z * Z)) : Z := match d with [] => 0 | x :: d' => fst x + sum_lo d' end.
Fixpoint sum_hi (d : list (Z * Z)) : Z := match d with [] => 0 | x :: d' => snd x + sum_hi d' end.

(* a distributed pair d lies inside the original quantifier bounds b; MAXREPEAT as upper bound means unbounded *)
Definition bound_rel (b d : Z * Z) : Prop :=
  fst b <= fst d /\ fst d <= snd d /\ (snd d <= snd b \/ MAXREPEAT <= snd b).
Definition wf_b (b : Z * Z) : Prop := 0 <= fst b <= snd b.

(* a string is accepted by one dict of the generation schema / by the declared keywords, with the matching relation
   (Model_C01.kw_accepts_b / decl_accepts_b decide the same with the executable matcher) *)
Definition kw_accepts catp (k : kw) (s : str) : Prop :=
  (match k_pattern k with Some p => search catp p s | None => True end) /\ len_in (k_min k) (k_max k) s = true.
Definition decl_accepts catp (d : decl) (s : str) : Prop :=
  (match d_pattern d with Some p => search catp p s | None => True end) /\ len_in (d_min d) (d_max d) s = true.
Definition no_rewrite_step (steps : list pstep) : bool := negb (existsb is_rewrite_step steps).

(* the chain of the code, location by location, as one map over the generated container *)
Definition chain_fun (l : ploc) (g : gval) : gval :=
  match l with
  | LHeader | LCookie => GStr (py_str g)
  | LPath => jsonify_val (quote_val g)
  | LQuery => jsonify_val g
  end.

Definition s_a6 : str := [97; 97; 97; 97; 97; 97]%N.                  (* aaaaaa *)
Definition s_abcde_nl : str := [97; 98; 99; 100; 101; 10]%N.          (* abcde + newline *)
Definition s_ababab : str := [97; 98; 97; 98; 97; 98]%N.
Definition s_abb : str := [97; 98; 98]%N.
Definition s_abc : str := [97; 98; 99]%N.
Definition s_plus12 : str := [43; 49; 50]%N.

(* the seven region predicates of the soundness theorem as a list, in the order of its hypotheses:
   wf_pattern, max_small, anchored_for_max, dollar_newline_ok, unit_bodies, not_max_zero_multi, not_single_char_anchored *)
Definition other_regions (p : pattern) (mn mx : option Z) (s : str) : list bool :=
  [wf_pattern p; max_small mx; anchored_for_max p mx; dollar_newline_ok p mx s; unit_bodies p;
   not_max_zero_multi p mn mx; not_single_char_anchored p mx].

(* the rewriter rewrites p, the regions evaluate to the given list, and the new pattern accepts s although the old
   pattern and the length keywords together do not *)
Definition refutes catp (p : pattern) (mn mx : option Z) (s : str) (regions : list bool) : Prop :=
  exists p', update_quantifier p mn mx = Rewritten p' /\ other_regions p mn mx s = regions /\
             search catp p' s /\ ~ (search catp p s /\ len_in mn mx s = true).

Definition o_example : oas :=
  OObj NFalse NAbsent [([97]%N, OPrim NTrue NFalse PString); ([98]%N, OArr NAbsent NTrue (OPrim NFalse NAbsent PInteger))] [[97]%N].

(* a User component with a readOnly id, a name and a REQUIRED writeOnly password, referenced by
   a response and by the request body of another operation *)
Definition k_u : str := [35; 117]%N.
Definition ex_user : json :=
  JObj [(s_type, JStr s_object);
        (s_properties, JObj [([105]%N, JObj [(s_readOnly, JBool true)]); ([110]%N, JObj []); ([112]%N, JObj [(s_writeOnly, JBool true)])]);
        (s_required, JArr [JStr [110]%N; JStr [112]%N])].
Definition ex_store : pv := fst (label 1%N (JObj [(k_u, ex_user)])).
Definition ex_body : json := JObj [(s_ref, JStr k_u)].
Definition gen_erased (fuel : nat) (copy : bool) (store : pv) (body : json) : option json :=
  match gen_schema fuel copy store body with Some (r, _, _) => Some (erase r) | None => None end.
Definition j_required_has (k : str) (j : option json) : bool :=
  match j with
  | Some (JObj kvs) =>
      match assoc_get s_required kvs with
      | Some (JArr l) => existsb (fun x => match x with JStr s => str_eqb k s | _ => false end) l
      | _ => false
      end
  | _ => false
  end.

(* \A[a-z]+\Z with minLength 2, maxLength 5 and an explicit nullable: false *)
Definition d_ok : decl := mkDecl (Some TyString) NFalse false (Some w_ok) (Some 2) (Some 5).

Section Sem.
Variable catp : N -> N -> bool.
Notation M := (M catp).
Notation MSeq := (MSeq catp).
Notation MPow := (MPow catp).
Notation search := (search catp).
Notation at_okb := (at_okb catp).

Lemma MSeq_cons_inv x xs pre s post : MSeq (x :: xs) pre s post ->
  exists s1 s2, s = s1 ++ s2 /\ M x pre s1 (s2 ++ post) /\ MSeq xs (pre ++ s1) s2 post.
Proof. intros H; inversion H; subst; eauto. Qed.

Lemma MSeq_nil_inv pre s post : MSeq [] pre s post -> s = [].
Proof. intros H; inversion H; reflexivity. Qed.

Lemma MSeq_app xs ys : forall pre s post, MSeq (xs ++ ys) pre s post <->
  exists s1 s2, s = s1 ++ s2 /\ MSeq xs pre s1 (s2 ++ post) /\ MSeq ys (pre ++ s1) s2 post.
Proof.
  induction xs as [|x xs IH]; intros pre s post; cbn [app].
  - split.
    + intros H. exists [], s. rewrite app_nil_r. repeat split; [constructor | exact H].
    + intros (s1 & s2 & -> & H1 & H2). apply MSeq_nil_inv in H1; subst s1.
      rewrite app_nil_r in H2. exact H2.
  - split.
    + intros H. apply MSeq_cons_inv in H. destruct H as (a1 & s' & -> & Hx & Hr).
      apply IH in Hr. destruct Hr as (b1 & b2 & -> & Hb1 & Hb2).
      exists (a1 ++ b1), b2. rewrite app_assoc. repeat split.
      * constructor; [rewrite app_assoc; exact Hx | exact Hb1].
      * rewrite app_assoc. exact Hb2.
    + intros (s1 & s2 & -> & H1 & H2). apply MSeq_cons_inv in H1.
      destruct H1 as (a1 & b1 & -> & Hx & Hr).
      rewrite <- app_assoc. constructor.
      * rewrite <- app_assoc. exact Hx.
      * apply IH. exists b1, s2. rewrite app_assoc in H2. repeat split; assumption.
Qed.

Lemma MSeq_single x pre s post : MSeq [x] pre s post <-> M x pre s post.
Proof.
  split.
  - intros H. apply MSeq_cons_inv in H. destruct H as (s1 & s2 & -> & Hx & Hn).
    apply MSeq_nil_inv in Hn; subst. cbn [app] in Hx. rewrite app_nil_r. exact Hx.
  - intros H. rewrite <- (app_nil_r s). constructor; [exact H | constructor].
Qed.

Lemma MSeq_ctx A x B pre s post : MSeq (A ++ x :: B) pre s post <->
  exists sa sx sb, s = sa ++ sx ++ sb /\ MSeq A pre sa ((sx ++ sb) ++ post) /\
                   M x (pre ++ sa) sx (sb ++ post) /\ MSeq B ((pre ++ sa) ++ sx) sb post.
Proof.
  rewrite MSeq_app. split.
  - intros (s1 & s2 & -> & HA & HB). apply MSeq_cons_inv in HB.
    destruct HB as (sx & sb & -> & Hx & HB). exists s1, sx, sb. repeat split; assumption.
  - intros (sa & sx & sb & -> & HA & Hx & HB). exists sa, (sx ++ sb). repeat split; [exact HA|].
    constructor; assumption.
Qed.

Lemma M_at_inv k pre s post : M (NAt k) pre s post -> s = [] /\ at_okb k pre post = true.
Proof. intros H; inversion H; subst; auto. Qed.

Lemma ats_empty A : forallb is_at A = true -> forall pre s post, MSeq A pre s post -> s = [].
Proof.
  induction A as [|a A IH]; intros HA pre s post H.
  - eapply MSeq_nil_inv; eauto.
  - cbn [forallb] in HA. apply andb_true_iff in HA. destruct HA as [Ha HA].
    apply MSeq_cons_inv in H. destruct H as (s1 & s2 & -> & Hx & Hr).
    destruct a; try discriminate. apply M_at_inv in Hx. destruct Hx as [-> _].
    cbn [app]. eapply IH; eauto.
Qed.

(* anchors consume nothing: a match between two of them is a match of what is between *)
Lemma anchors_frame a l b pre s post : is_at a = true -> is_at b = true ->
  (MSeq (a :: l ++ [b]) pre s post <-> M a pre [] (s ++ post) /\ MSeq l pre s post /\ M b (pre ++ s) [] post).
Proof.
  intros Ha Hb. split.
  - intros H. apply MSeq_cons_inv in H. destruct H as (sa & s' & -> & HMa & H).
    apply MSeq_app in H. destruct H as (sm & sb & -> & HMm & HMb). apply MSeq_single in HMb.
    destruct a; try discriminate Ha. destruct b; try discriminate Hb.
    destruct (M_at_inv _ _ _ _ HMa) as [-> _]. destruct (M_at_inv _ _ _ _ HMb) as [-> _].
    cbn [app] in *. rewrite app_nil_r in *. auto.
  - intros (HMa & HMm & HMb). apply (MS_cons catp a (l ++ [b]) pre [] s post); [exact HMa|].
    rewrite app_nil_r. apply MSeq_app. exists s, []. rewrite !app_nil_r.
    repeat split; [exact HMm | apply MSeq_single; exact HMb].
Qed.

(* ... and so is the match of a node between two lists of anchors *)
Lemma anchors_ctx A x B pre s post : forallb is_at A = true -> forallb is_at B = true ->
  MSeq (A ++ x :: B) pre s post -> MSeq A pre [] (s ++ post) /\ M x pre s post /\ MSeq B (pre ++ s) [] post.
Proof.
  intros HA HB H. apply MSeq_ctx in H. destruct H as (sa & sx & sb & -> & HMA & Hx & HMB).
  pose proof (ats_empty A HA _ _ _ HMA). pose proof (ats_empty B HB _ _ _ HMB). subst sa sb.
  rewrite ?app_nil_r in *. cbn [app] in *. auto.
Qed.

Lemma MSeq_weaken A x y B :
  (forall pre s post, M y pre s post -> M x pre s post) ->
  forall pre s post, MSeq (A ++ y :: B) pre s post -> MSeq (A ++ x :: B) pre s post.
Proof.
  intros Hw pre s post H. apply MSeq_ctx in H. apply MSeq_ctx.
  destruct H as (sa & sx & sb & -> & HA & Hy & HB). exists sa, sx, sb. repeat split; auto.
Qed.

Lemma M_rep_inv lo hi body pre s post : M (NRep lo hi body) pre s post ->
  exists n, rep_ok lo hi n /\ MPow body n pre s post.
Proof. intros H; inversion H; subst; eauto. Qed.

Lemma MPow_S_inv b n pre s post : MPow b (S n) pre s post ->
  exists s1 s2, s = s1 ++ s2 /\ MSeq b pre s1 (s2 ++ post) /\ MPow b n (pre ++ s1) s2 post.
Proof. intros H; inversion H; subst; eauto. Qed.
Lemma MPow_0_inv b pre s post : MPow b 0 pre s post -> s = [].
Proof. intros H; inversion H; reflexivity. Qed.

Lemma rep_narrow lo hi l h body pre s post :
  lo <= l -> (h <= hi \/ MAXREPEAT <= hi) ->
  M (NRep l h body) pre s post -> M (NRep lo hi body) pre s post.
Proof.
  intros Hl Hh H. apply M_rep_inv in H. destruct H as (n & [H1 H2] & HP). econstructor; [|exact HP].
  split; [lia|]. destruct Hh as [Hh|Hh]; [|left; exact Hh].
  destruct H2 as [H2|H2]; [left; lia | right; lia].
Qed.

(* Minimality: the predicates below speak of the indices of a derivation, not of the derivation *)
Scheme M_mut := Minimality for Model_C01.M Sort Prop
  with MSeq_mut := Minimality for Model_C01.MSeq Sort Prop
  with MPow_mut := Minimality for Model_C01.MPow Sort Prop.
Combined Scheme M_comb from M_mut, MSeq_mut, MPow_mut.

Lemma unit_branch_in alts a : unit_node (NBranch alts) = true -> In a alts -> unit_seq a = true.
Proof.
  cbn [unit_node]. induction alts as [|b alts IH]; intros H Hin; [destruct Hin|].
  apply andb_true_iff in H. destruct H as [H1 H2].
  destruct Hin as [->|Hin]; [exact H1 | exact (IH H2 Hin)].
Qed.

Lemma unit_width_all :
  (forall x pre s post, M x pre s post -> unit_node x = true -> length s = 1%nat) /\
  (forall xs pre s post, MSeq xs pre s post -> unit_seq xs = true -> length s = 1%nat) /\
  (forall b n pre s post, MPow b n pre s post -> unit_seq b = true -> length s = n).
Proof.
  apply (M_comb catp
    (fun x pre s post => unit_node x = true -> length s = 1%nat)
    (fun xs pre s post => unit_seq xs = true -> length s = 1%nat)
    (fun b n pre s post => unit_seq b = true -> length s = n)).
  (* M_Lit, M_NotLit, M_In, M_Any: one character by construction *)
  1-4: intros; reflexivity.
  - (* M_At: not a unit node *) intros k pre post _ Hu. discriminate Hu.
  - (* M_Sub *) intros body pre s post _ IH Hu. exact (IH Hu).
  - (* M_Branch *) intros alts a pre s post Hin _ IH Hu. apply IH. exact (unit_branch_in alts a Hu Hin).
  - (* M_Rep: not a unit node *) intros lo hi body n pre s post _ _ _ Hu. discriminate Hu.
  - (* MS_nil: not a unit sequence *) intros pre post Hu. discriminate Hu.
  - (* MS_cons: a unit sequence is a single node *)
    intros x xs pre s1 s2 post _ IHx Hxs _ Hu. destruct xs as [|z zs]; [|discriminate Hu].
    apply MSeq_nil_inv in Hxs. subst s2. rewrite app_nil_r. exact (IHx Hu).
  - (* MP_0 *) intros; reflexivity.
  - (* MP_S *) intros body n pre s1 s2 post _ IH1 _ IHn Hu. rewrite app_length, (IH1 Hu), (IHn Hu). reflexivity.
Qed.

Lemma rep_unit_len lo hi body pre s post :
  unit_seq body = true -> M (NRep lo hi body) pre s post ->
  lo <= Z.of_nat (length s) /\ (MAXREPEAT <= hi \/ Z.of_nat (length s) <= hi).
Proof.
  intros Hu H. apply M_rep_inv in H. destruct H as (n & Hn & HPow).
  destruct unit_width_all as (_ & _ & HP). rewrite (HP _ _ _ _ _ HPow Hu). exact Hn.
Qed.

(* character nodes do not look at their context *)
Definition char_ok (x : node) (c : N) : bool :=
  match x with
  | NLit d => N.eqb c d
  | NNotLit d => negb (N.eqb c d)
  | NIn neg items => cls_match catp neg items c
  | NAny => negb (N.eqb c NL)
  | _ => false
  end.

Lemma char_node_spec x pre s post : is_char_node x = true ->
  (M x pre s post <-> exists c, s = [c] /\ char_ok x c = true).
Proof.
  intros Hx. destruct x; try discriminate Hx; cbn [char_ok].
  - (* NLit *) split.
    + intros H; inversion H; subst. eexists; split; [reflexivity | apply N.eqb_refl].
    + intros (d & -> & E). apply N.eqb_eq in E; subst. constructor.
  - (* NNotLit *) split.
    + intros H; inversion H as [|? d ? ? E| | | | | |]; subst. exists d. rewrite E. auto.
    + intros (d & -> & E). constructor. destruct (N.eqb d c); [discriminate | reflexivity].
  - (* NIn *) split.
    + intros H; inversion H; subst. eexists; split; [reflexivity | assumption].
    + intros (d & -> & E). constructor; assumption.
  - (* NAny *) split.
    + intros H; inversion H as [| | |d ? ? E| | | |]; subst. exists d. rewrite E. auto.
    + intros (d & -> & E). constructor. destruct (N.eqb d NL); [discriminate | reflexivity].
Qed.

Lemma pow_chars x : is_char_node x = true -> forall n pre s post, MPow [x] n pre s post ->
  length s = n /\ Forall (fun c => char_ok x c = true) s.
Proof.
  intros Hx n; induction n as [|n IH]; intros pre s post H.
  - apply MPow_0_inv in H; subst. split; [reflexivity | constructor].
  - apply MPow_S_inv in H. destruct H as (s1 & s2 & -> & H1 & H2). apply MSeq_single in H1. apply (char_node_spec x _ _ _ Hx) in H1. destruct H1 as (c & -> & Hc).
    destruct (IH _ _ _ H2) as [Hl Hf]. split; [cbn; rewrite Hl; reflexivity | constructor; assumption].
Qed.

(* x is a state of the matcher started at (pre, rest): it consumed some s, and P holds of s in its context *)
Definition st_ok (P : str -> str -> str -> Prop) (pre rest : str) (x : st) : Prop :=
  exists s, fst x = pre ++ s /\ rest = s ++ snd x /\ P pre s (snd x).

Lemma st_ok_start (P : str -> str -> str -> Prop) pre rest : P pre [] rest -> st_ok P pre rest (pre, rest).
Proof. intros H. exists []. cbn [fst snd app]. rewrite app_nil_r. auto. Qed.

Lemma st_ok_step (P Q R : str -> str -> str -> Prop) pre rest z x :
  (forall s1 s2 post, P pre s1 (s2 ++ post) -> Q (pre ++ s1) s2 post -> R pre (s1 ++ s2) post) ->
  st_ok P pre rest z -> st_ok Q (fst z) (snd z) x -> st_ok R pre rest x.
Proof.
  intros HR (s1 & Hf1 & Hr1 & HP1) (s2 & Hf2 & Hr2 & HP2). exists (s1 ++ s2). repeat split.
  - rewrite Hf2, Hf1, app_assoc. reflexivity.
  - rewrite Hr1, Hr2, app_assoc. reflexivity.
  - apply HR; [rewrite <- Hr2; exact HP1 | rewrite <- Hf1; exact HP2].
Qed.

Lemma st_ok_impl (P Q : str -> str -> str -> Prop) pre rest x :
  (forall s post, P pre s post -> Q pre s post) -> st_ok P pre rest x -> st_ok Q pre rest x.
Proof. intros HPQ (s & Hf & Hr & HP). exists s. auto. Qed.

Lemma one_char_sound ok pre rest x : In x (one_char ok pre rest) ->
  exists d, ok d = true /\ fst x = pre ++ [d] /\ rest = d :: snd x.
Proof.
  unfold one_char. destruct rest as [|d rest]; [intros []|].
  destruct (ok d) eqn:E; [|intros []]. intros [<-|[]]. exists d. auto.
Qed.

Lemma dedup_incl l x : In x (dedup l) -> In x l.
Proof.
  induction l as [|y l IH]; [intros []|]. cbn [dedup].
  destruct (has_len (length (snd y)) l); [right; auto|]. intros [->|H]; [left; reflexivity | right; auto].
Qed.

Lemma rep_okb_sound lo hi n : rep_okb lo hi n = true -> rep_ok lo hi n.
Proof. unfold rep_okb, rep_ok. lia. Qed.

Lemma MPow_snoc body : forall n pre a b post,
  MPow body n pre a (b ++ post) -> MSeq body (pre ++ a) b post -> MPow body (S n) pre (a ++ b) post.
Proof.
  induction n as [|n IH]; intros pre a b post Hp Hs.
  - apply MPow_0_inv in Hp. subst a. rewrite app_nil_r in Hs. cbn [app]. rewrite <- (app_nil_r b).
    constructor; [cbn [app]; exact Hs | constructor].
  - apply MPow_S_inv in Hp. destruct Hp as (s1 & s2 & -> & H1 & H2).
    rewrite <- app_assoc. constructor; [rewrite <- app_assoc; exact H1|].
    apply IH; [exact H2 | rewrite <- app_assoc; exact Hs].
Qed.

Lemma rep_ends_sound (step : str -> str -> list st) body pre0 rest0 :
  (forall pre rest x, In x (step pre rest) -> st_ok (MSeq body) pre rest x) ->
  forall fuel j lo hi cur,
  (forall x, In x cur -> st_ok (MPow body j) pre0 rest0 x) ->
  forall x, In x (rep_ends step fuel j lo hi cur) ->
  exists n, rep_ok lo hi n /\ st_ok (MPow body n) pre0 rest0 x.
Proof.
  intros Hstep.
  assert (Hhere : forall j lo hi cur x, (forall x, In x cur -> st_ok (MPow body j) pre0 rest0 x) ->
            In x (if rep_okb lo hi j then cur else []) -> exists n, rep_ok lo hi n /\ st_ok (MPow body n) pre0 rest0 x).
  { intros j lo hi cur x Hcur Hin. destruct (rep_okb lo hi j) eqn:E; [|destruct Hin]. exists j. auto using rep_okb_sound. }
  induction fuel as [|f IH]; intros j lo hi cur Hcur x Hin; cbn [rep_ends] in Hin; [eauto|].
  destruct cur as [|c0 cur']; [destruct Hin|]. apply in_app_or in Hin. destruct Hin as [Hin|Hin]; [eauto|].
  apply IH in Hin; [exact Hin|]. intros y Hy. apply dedup_incl, in_flat_map in Hy. destruct Hy as (z & Hz & Hy).
  exact (st_ok_step _ _ _ _ _ _ _ (MPow_snoc body j pre0) (Hcur z Hz) (Hstep _ _ _ Hy)).
Qed.

Lemma ends_sub body pre rest : ends catp (NSub body) pre rest = ends_seq catp body pre rest.
Proof. reflexivity. Qed.
Lemma ends_branch alts pre rest :
  ends catp (NBranch alts) pre rest = flat_map (fun a => ends_seq catp a pre rest) alts.
Proof. induction alts as [|a alts IH]; [reflexivity|]. cbn [flat_map]. rewrite <- IH. reflexivity. Qed.
Lemma ends_rep lo hi body pre rest : ends catp (NRep lo hi body) pre rest =
  rep_ends (ends_seq catp body) (Z.to_nat lo + length rest + 1) 0 lo hi [(pre, rest)].
Proof. reflexivity. Qed.
Lemma ends_char x pre rest : is_char_node x = true -> ends catp x pre rest = one_char (char_ok x) pre rest.
Proof. destruct x; try discriminate; reflexivity. Qed.

Lemma ends_char_sound x : is_char_node x = true ->
  forall pre rest y, In y (ends catp x pre rest) -> st_ok (M x) pre rest y.
Proof.
  intros Hx pre rest y Hin. rewrite (ends_char x pre rest Hx) in Hin. apply one_char_sound in Hin.
  destruct Hin as (d & E & Hf & Hr). exists [d]. repeat split; auto. apply (char_node_spec x _ _ _ Hx). eauto.
Qed.

Lemma ends_seq_sound_rel (xs : list node) :
  Forall (fun y => forall pre rest x, In x (ends catp y pre rest) -> st_ok (M y) pre rest x) xs ->
  forall pre rest x, In x (ends_seq catp xs pre rest) -> st_ok (MSeq xs) pre rest x.
Proof.
  induction xs as [|y ys IH]; intros HF pre rest x Hin; cbn [ends_seq] in Hin.
  - destruct Hin as [<-|[]]. apply st_ok_start. constructor.
  - inversion HF; subst. apply in_flat_map in Hin. destruct Hin as (z & Hz & Hin).
    exact (st_ok_step _ _ _ _ _ _ _ (MS_cons catp y ys pre) (H1 _ _ _ Hz) (IH H2 _ _ _ Hin)).
Qed.

(* induction on nodes that goes through the nested lists (bodies, alternatives) *)
Fixpoint node_ind' (P : node -> Prop)
  (HLit : forall c, P (NLit c)) (HNot : forall c, P (NNotLit c)) (HIn : forall n i, P (NIn n i)) (HAny : P NAny)
  (HAt : forall k, P (NAt k))
  (HSub : forall b, Forall P b -> P (NSub b))
  (HBr : forall alts, Forall (Forall P) alts -> P (NBranch alts))
  (HRep : forall lo hi b, Forall P b -> P (NRep lo hi b)) (x : node) : P x :=
  let rec := node_ind' P HLit HNot HIn HAny HAt HSub HBr HRep in
  let fix seq (l : list node) : Forall P l :=
    match l with [] => Forall_nil P | y :: l' => Forall_cons y (rec y) (seq l') end in
  match x with
  | NLit c => HLit c | NNotLit c => HNot c | NIn n i => HIn n i | NAny => HAny | NAt k => HAt k
  | NSub b => HSub b (seq b)
  | NBranch alts =>
      HBr alts ((fix alt (l : list (list node)) : Forall (Forall P) l :=
                   match l with [] => Forall_nil _ | a :: l' => Forall_cons a (seq a) (alt l') end) alts)
  | NRep lo hi b => HRep lo hi b (seq b)
  end.

Lemma ends_sound : forall x pre rest y, In y (ends catp x pre rest) -> st_ok (M x) pre rest y.
Proof.
  induction x using node_ind'; intros pre rest y Hin.
  1-4: (* NLit, NNotLit, NIn, NAny *) apply ends_char_sound; [reflexivity | exact Hin].
  - (* NAt *) cbn [ends] in Hin. destruct (at_okb k pre rest) eqn:E; [|destruct Hin]. destruct Hin as [<-|[]].
    apply st_ok_start. constructor. exact E.
  - (* NSub *) rewrite ends_sub in Hin. apply (ends_seq_sound_rel b H) in Hin. revert Hin. apply st_ok_impl. intros s post. apply M_Sub.
  - (* NBranch *) rewrite ends_branch in Hin. apply in_flat_map in Hin. destruct Hin as (a & Ha & Hin).
    rewrite Forall_forall in H. apply (ends_seq_sound_rel a (H a Ha)) in Hin. revert Hin. apply st_ok_impl.
    intros s post. apply M_Branch. exact Ha.
  - (* NRep *) rewrite ends_rep in Hin. apply (rep_ends_sound _ b pre rest (ends_seq_sound_rel b H)) in Hin.
    + destruct Hin as (n & Hn & Hin). revert Hin. apply st_ok_impl. intros s post. apply M_Rep. exact Hn.
    + intros z [<-|[]]. apply st_ok_start. constructor.
Qed.

Lemma ends_seq_sound xs pre rest y : In y (ends_seq catp xs pre rest) -> st_ok (MSeq xs) pre rest y.
Proof. apply ends_seq_sound_rel. apply Forall_forall. intros x _. apply ends_sound. Qed.

Lemma search_from_sound p : forall rest pre, search_from catp p pre rest = true -> search p (pre ++ rest).
Proof.
  assert (Hhere : forall pre rest, nonempty (ends_seq catp p pre rest) = true -> search p (pre ++ rest)).
  { intros pre rest H. destruct (ends_seq catp p pre rest) as [|y l] eqn:E; [discriminate|].
    destruct (ends_seq_sound p pre rest y) as (s & Hf & Hr & HP); [rewrite E; left; reflexivity|].
    exists pre, s, (snd y). split; [rewrite <- Hr; reflexivity | exact HP]. }
  induction rest as [|c rest IH]; intros pre H; cbn [search_from] in H; apply orb_true_iff in H;
    destruct H as [H|H]; auto; [discriminate|].
  apply IH in H. rewrite <- app_assoc in H. exact H.
Qed.

Lemma search_b_sound p s : search_b catp p s = true -> search p s.
Proof. apply (search_from_sound p s []). Qed.

End Sem.

Lemma build_quantifier_spec m mx l h : build_quantifier m mx = Some (l, h) ->
  l = m /\ match mx with
           | None => h = MAXREPEAT
           | Some v => (v = MAXREPEAT /\ h = MAXREPEAT) \/ (m <= v /\ h = v)
           end.
Proof.
  unfold build_quantifier. destruct mx as [v|]; [|intros H; inversion H; auto].
  destruct (v =? MAXREPEAT) eqn:E1; [|destruct (m =? v) eqn:E2; [|destruct (m <=? v) eqn:E3; [|discriminate]]];
    intros H; inversion H; subst; lia.
Qed.

Lemma build_quantifier_some l h r : build_quantifier l (Some h) = Some r -> r = (l, h).
Proof. destruct r as [l' h']. intros H. apply build_quantifier_spec in H. destruct H as [-> [[-> ->]|[_ ->]]]; reflexivity. Qed.

Lemma build_quantifier_le l h : l <= h -> build_quantifier l (Some h) = Some (l, h).
Proof.
  intros Hle. unfold build_quantifier. destruct (h =? MAXREPEAT) eqn:E1.
  - apply Z.eqb_eq in E1; subst; reflexivity.
  - destruct (l =? h) eqn:E2; [apply Z.eqb_eq in E2; subst; reflexivity|].
    destruct (l <=? h) eqn:E3; [reflexivity | lia].
Qed.

Lemma build_size_spec lo hi mn mx l h : build_size lo hi mn mx = (l, h) ->
  l = match mn with Some m => Z.max lo m | None => lo end /\
  h = match mx with Some m => if hi =? MAXREPEAT then m else Z.min hi m | None => hi end.
Proof. unfold build_size. intros H; inversion H; split; reflexivity. Qed.

Lemma build_size_narrows lo hi mn mx l h : build_size lo hi mn mx = (l, h) ->
  lo <= l /\ (h <= hi \/ hi = MAXREPEAT) /\ (forall m, mn = Some m -> m <= l) /\ (forall m, mx = Some m -> h <= m).
Proof.
  intros H. apply build_size_spec in H. destruct H as [-> ->].
  destruct mn as [m1|], mx as [m2|]; destruct (Z.eqb_spec hi MAXREPEAT); repeat split; try lia;
    intros m Hm; inversion Hm; subst; lia.
Qed.

Definition mn_ok (mn : option Z) (n : Z) : Prop := match mn with Some m => m <= n | None => True end.
Definition mx_ok (mx : option Z) (h : Z) : Prop := match mx with Some m => h <= m /\ m < MAXREPEAT | None => True end.

Lemma handle_repeat_new lo hi body mn mx y : max_small mx = true ->
  handle_repeat lo hi body mn mx = UNew y ->
  exists l h, y = NRep l h body /\ lo <= l /\ (h <= hi \/ MAXREPEAT <= hi) /\ mn_ok mn l /\ mx_ok mx h.
Proof.
  intros Hs H. unfold handle_repeat in H.
  destruct (build_size lo hi mn mx) as [l h] eqn:Eb.
  destruct (l >? h) eqn:Eg; [discriminate|].
  destruct (build_quantifier l (Some h)) as [[l' h']|] eqn:Eq; [|discriminate].
  apply build_quantifier_some in Eq. inversion Eq; subst l' h'. inversion H; subst y.
  apply build_size_narrows in Eb. destruct Eb as (B1 & B2 & B3 & B4).
  exists l, h. repeat split; [exact B1 | destruct B2 as [B2|B2]; [left; exact B2 | right; lia] | |].
  - destruct mn; [apply B3; reflexivity | exact I].
  - destruct mx as [m|]; [|exact I]. split; [apply B4; reflexivity | apply Z.ltb_lt; exact Hs].
Qed.

Lemma handle_repeat_self l h b : l <= h -> handle_repeat l h b (Some l) (Some h) = UNew (NRep l h b).
Proof.
  intros Hle. unfold handle_repeat. destruct (build_size l h (Some l) (Some h)) as [l' h'] eqn:E.
  apply build_size_spec in E. destruct E as [-> ->].
  replace (Z.max l l) with l by lia. replace (if h =? MAXREPEAT then h else Z.min h h) with h by (destruct (h =? MAXREPEAT); lia).
  destruct (l >? h) eqn:Eg; [lia|]. rewrite build_quantifier_le by exact Hle. reflexivity.
Qed.

Lemma handle_literal_new x mn mx y : max_small mx = true ->
  handle_literal x mn mx = UNew y ->
  exists l h, y = NRep l h [x] /\ 1 <= l /\ mn_ok mn l /\ mx_ok mx h /\ (mx = Some 1 -> l = 1 /\ h = 1).
Proof.
  intros Hs H. unfold handle_literal in H.
  destruct (build_quantifier _ mx) as [[l h]|] eqn:Eq; [|discriminate]. inversion H; subst y.
  apply build_quantifier_spec in Eq. destruct Eq as [-> Hh].
  eexists. exists h. split; [reflexivity|]. unfold mn_ok, mx_ok, max_small in *.
  destruct mn as [m1|], mx as [m2|].
  - (* minLength and maxLength *) split; [lia|]. split; [lia|]. split; [lia|]. intros E. inversion E. subst m2. lia.
  - (* minLength only *) split; [lia|]. split; [lia|]. split; [exact I | discriminate].
  - (* maxLength only *) split; [lia|]. split; [exact I|]. split; [lia|]. intros E. inversion E. subst m2. lia.
  - (* neither *) split; [lia|]. split; [exact I|]. split; [exact I | discriminate].
Qed.

Lemma dist_range_spec : forall bounds rmin rmax r,
  Forall wf_b bounds -> dist_range bounds rmin rmax = Some r ->
  Forall2 bound_rel bounds r /\ rmin <= sum_lo r /\ (rmax < MAXREPEAT -> sum_hi r <= rmax).
Proof.
  induction bounds as [|[lo hi] bs IH]; intros rmin rmax r Hwf H; cbn [dist_range] in H.
  - destruct ((rmin >? 0) || (rmax <? 0)) eqn:E; [discriminate|]. inversion H; subst.
    split; [constructor|]. cbn [sum_lo sum_hi]. lia.
  - inversion Hwf as [|? ? [Hw1 Hw2] Hwf']; subst. cbn [fst snd] in *.
    remember (if rmin >? 0 then Z.min hi (Z.max lo rmin) else lo) as pmin eqn:Epmin.
    remember (if rmax <? MAXREPEAT then Z.min hi rmax else hi) as pmax eqn:Epmax.
    destruct (pmin >? pmax) eqn:E3; [discriminate|].
    remember (rmax - (if pmax =? MAXREPEAT then 0 else pmax)) as rmax' eqn:Ermax.
    destruct (dist_range bs (Z.max 0 (rmin - pmin)) rmax') as [r'|] eqn:E4; [|discriminate].
    inversion H; subst r. apply IH in E4; [|assumption]. destruct E4 as (F2 & Hlo & Hhi).
    assert (Hpmin : lo <= pmin) by (subst pmin; destruct (rmin >? 0); lia).
    assert (Hpmax : pmax <= hi) by (subst pmax; destruct (rmax <? MAXREPEAT); lia).
    split; [constructor; [unfold bound_rel; cbn [fst snd]; lia | exact F2] |].
    cbn [sum_lo sum_hi fst snd]. split; [lia|]. intros Hsm.
    assert (pmax <= rmax) by (subst pmax; destruct (rmax <? MAXREPEAT) eqn:E2; lia).
    assert (pmax =? MAXREPEAT = false) by lia. rewrite H1 in Ermax. lia.
Qed.

Lemma try_range_some f : forall n l r, try_range f l n = Some r ->
  exists l0 r0, r = l0 :: r0 /\ l <= l0 < l + Z.of_nat n /\ f l0 = Some r0.
Proof.
  induction n as [|n IH]; intros l r H; cbn [try_range] in H; [discriminate|].
  destruct (f l) as [r0|] eqn:E.
  - inversion H; subst. exists l, r0. repeat split; [lia | lia | exact E].
  - apply IH in H. destruct H as (l0 & r0 & -> & Hr & Hf). exists l0, r0. repeat split; [lia | lia | exact Hf].
Qed.

Lemma find_comb_spec : forall bounds t ls, find_comb bounds t = Some ls ->
  let d := map (fun l => (l, l)) ls in Forall2 bound_rel bounds d /\ sum_lo d = t /\ sum_hi d = t.
Proof.
  induction bounds as [|[lo hi] bs IH]; intros t ls H; cbn [find_comb] in H.
  - destruct (t =? 0) eqn:E; [|discriminate]. inversion H; subst. cbn. split; [constructor | lia].
  - apply try_range_some in H. destruct H as (l0 & r0 & -> & Hr & Hf). apply IH in Hf.
    destruct Hf as (F2 & Hlo & Hhi). cbn [map sum_lo sum_hi fst snd]. split; [|lia].
    constructor; [|exact F2]. unfold bound_rel. cbn [fst snd]. destruct (hi =? MAXREPEAT) eqn:E; lia.
Qed.

Lemma distribute_spec bounds mn mx dist :
  Forall wf_b bounds -> distribute bounds mn mx = Some dist ->
  Forall2 bound_rel bounds dist /\
  (forall m, mn = Some m -> m <= sum_lo dist) /\
  (forall m, mx = Some m -> m < MAXREPEAT -> (m <> 0 \/ opt_eqb mn mx = true) -> sum_hi dist <= m).
Proof.
  intros Hwf H. unfold distribute in H. destruct (opt_eqb mn mx) eqn:Eo.
  - destruct mn as [t|]; [|discriminate]. destruct mx as [t'|]; [|discriminate].
    cbn [opt_eqb] in Eo. apply Z.eqb_eq in Eo; subst t'.
    destruct (find_comb bounds t) as [ls|] eqn:Ef; [|discriminate]. cbn [option_map] in H. inversion H; subst dist.
    apply find_comb_spec in Ef. destruct Ef as (F2 & S1 & S2).
    split; [exact F2|split].
    + intros m Hm; inversion Hm; subst. lia.
    + intros m Hm _ _; inversion Hm; subst. lia.
  - apply dist_range_spec in H; [|exact Hwf]. destruct H as (F2 & Hlo & Hhi). split; [exact F2|]. split.
    + intros m Hm; subst mn. unfold py_or in Hlo. destruct m; lia.
    + intros m Hm Hsmall [Hnz|Hf]; [|discriminate]. subst mx. unfold py_or in Hhi. destruct m; try lia; apply Hhi; lia.
Qed.

Lemma sum_hi_nonneg dist : Forall (fun d => 0 <= snd d) dist -> 0 <= sum_hi dist.
Proof. induction 1 as [|d dist Hd _ IH]; cbn [sum_hi]; lia. Qed.

Lemma sum_hi_each K dist : Forall (fun d => 0 <= snd d) dist -> sum_hi dist < K -> Forall (fun d => snd d < K) dist.
Proof.
  induction dist as [|d dist IH]; intros HF Hs; [constructor|]. inversion HF; subst. cbn [sum_hi] in Hs.
  pose proof (sum_hi_nonneg dist H2). constructor; [lia | apply IH; [assumption | lia]].
Qed.

Section Sound.
Variable catp : N -> N -> bool.
Notation M := (M catp).
Notation MSeq := (MSeq catp).
Notation MPow := (MPow catp).
Notation search := (search catp).

Definition lit_or_rep (x : node) : bool := is_lit x || is_rep x.

Lemma unit_bodies_cons x l : unit_bodies (x :: l) = (match x with NRep _ _ b => unit_seq b | _ => true end) && unit_bodies l.
Proof. reflexivity. Qed.
Lemma unit_bodies_app l1 l2 : unit_bodies (l1 ++ l2) = unit_bodies l1 && unit_bodies l2.
Proof. unfold unit_bodies. apply forallb_app. Qed.
Lemma wf_pattern_cons x l : wf_pattern (x :: l) = (match x with NRep lo hi _ => (0 <=? lo) && (lo <=? hi) | _ => true end) && wf_pattern l.
Proof. reflexivity. Qed.
Lemma wf_pattern_app l1 l2 : wf_pattern (l1 ++ l2) = wf_pattern l1 && wf_pattern l2.
Proof. unfold wf_pattern. apply forallb_app. Qed.

Lemma last_node_snoc l b : last_node (l ++ [b]) = Some b.
Proof. unfold last_node. rewrite split_last_app. reflexivity. Qed.

Lemma no_trailing_newline_snoc front : no_trailing_newline (front ++ [NL]) = false.
Proof. unfold no_trailing_newline. rewrite rev_app_distr. reflexivity. Qed.

(* A pattern between a strict lead anchor and a trail anchor only matches the whole string.  The regions speak of the
   original pattern and the match is one of the rewritten pattern: the two have the same ends. *)
Lemma anchored_covers a l l' b m pre mid post :
  anchored_for_max (a :: l ++ [b]) (Some m) = true ->
  dollar_newline_ok (a :: l ++ [b]) (Some m) (pre ++ mid ++ post) = true ->
  MSeq (a :: l' ++ [b]) pre mid post -> pre = [] /\ post = [].
Proof.
  unfold anchored_for_max, dollar_newline_ok, trail_strict, trail_dollar.
  change (a :: l ++ [b]) with ((a :: l) ++ [b]). rewrite last_node_snoc, (app_assoc pre).
  intros Ha Hd HM. apply andb_true_iff in Ha as [Hlead Htrail]. cbn [app lead_strict] in Hlead.
  apply MSeq_cons_inv in HM as (sa & s' & -> & HMa & HM).
  apply MSeq_app in HM as (sm & sb & -> & _ & HMb). apply MSeq_single in HMb.
  split.
  - destruct a as [| | | |[]| | |]; try discriminate Hlead; apply M_at_inv in HMa as [_ E];
      (destruct pre; [reflexivity | discriminate E]).
  - destruct b as [| | | |[]| | |]; try discriminate Htrail; apply M_at_inv in HMb as [_ E]; cbn [at_okb] in E.
    + destruct post as [|c [|]]; try discriminate E; [reflexivity|].
      apply N.eqb_eq in E. subst c. rewrite no_trailing_newline_snoc in Hd. discriminate Hd.
    + destruct post; [reflexivity | discriminate E].
Qed.

Lemma count_lit_nonneg l : 0 <= count_lit l.
Proof. induction l as [|x l IH]; cbn [count_lit]; [lia | destruct (is_lit x); lia]. Qed.

Lemma len_in_intro mn mx (s : str) :
  mn_ok mn (Z.of_nat (length s)) -> (forall m, mx = Some m -> Z.of_nat (length s) <= m) -> len_in mn mx s = true.
Proof.
  intros H1 H2. unfold len_in, mn_ok in *. apply andb_true_iff. split.
  - destruct mn; [lia | reflexivity].
  - destruct mx as [m|]; [specialize (H2 m eq_refl); lia | reflexivity].
Qed.

Lemma rebuild_sound : forall mid dist mid',
  forallb lit_or_rep mid = true ->
  rebuild mid dist = Some mid' ->
  Forall2 bound_rel (rep_bounds mid) dist ->
  forall pre s post, MSeq mid' pre s post ->
    MSeq mid pre s post /\
    (unit_bodies mid = true -> count_lit mid + sum_lo dist <= Z.of_nat (length s) /\
       (Forall (fun d => snd d < MAXREPEAT) dist -> Z.of_nat (length s) <= count_lit mid + sum_hi dist)).
Proof.
  induction mid as [|x mid IH]; intros dist mid' Hk Hr HF pre s post HM.
  - cbn in Hr. inversion Hr; subst. cbn [rep_bounds] in HF. inversion HF; subst.
    apply MSeq_nil_inv in HM; subst. split; [constructor|]. intros _. cbn. split; [lia | intros _; lia].
  - cbn [forallb] in Hk. apply andb_true_iff in Hk. destruct Hk as [Hx Hk].
    destruct x; try discriminate.
    + (* a literal is copied *)
      cbn [rebuild] in Hr. destruct (rebuild mid dist) as [r|] eqn:Er; [|discriminate]. inversion Hr; subst mid'.
      cbn [rep_bounds] in HF. apply MSeq_cons_inv in HM. destruct HM as (s1 & s2 & -> & Hx1 & Hr2).
      destruct (IH _ _ Hk Er HF _ _ _ Hr2) as [HS HL].
      split; [constructor; assumption|]. intros Hu. rewrite unit_bodies_cons in Hu. cbn [andb] in Hu.
      specialize (HL Hu). destruct HL as [HL1 HL2].
      apply (char_node_spec catp (NLit c) _ _ _ eq_refl) in Hx1. destruct Hx1 as (d & -> & _).
      cbn [count_lit is_lit]. rewrite length_app_Z. cbn [length]. split; [lia | intros HF3; specialize (HL2 HF3); lia].
    + (* a repeat takes the next pair, which lies inside its bounds *)
      cbn [rep_bounds] in HF. inversion HF as [|? d0 ? ds Hbd HF']; subst. destruct d0 as [l h].
      unfold bound_rel in Hbd; cbn [fst snd] in Hbd. destruct Hbd as (Hb1 & Hb2 & Hb3).
      cbn [rebuild update_node] in Hr. rewrite (handle_repeat_self l h body Hb2) in Hr.
      destruct (rebuild mid ds) as [r|] eqn:Er; [|discriminate]. inversion Hr; subst mid'.
      apply MSeq_cons_inv in HM. destruct HM as (s1 & s2 & -> & Hx1 & Hr2).
      destruct (IH _ _ Hk Er HF' _ _ _ Hr2) as [HS HL].
      split; [constructor; [eapply rep_narrow; eauto | assumption]|].
      intros Hu. rewrite unit_bodies_cons in Hu. apply andb_true_iff in Hu. destruct Hu as [Hub Hu].
      specialize (HL Hu). destruct HL as [HL1 HL2].
      destruct (rep_unit_len catp _ _ _ _ _ _ Hub Hx1) as [R1 R2].
      cbn [count_lit is_lit sum_lo sum_hi fst snd]. rewrite length_app_Z. split; [lia|].
      intros HF3. inversion HF3 as [|? ? Hh3 HF4]; subst. cbn [snd] in Hh3. specialize (HL2 HF4). lia.
Qed.

Lemma wf_bounds mid : wf_pattern mid = true -> Forall wf_b (rep_bounds mid).
Proof.
  induction mid as [|x mid IH]; intros H; [constructor|]. rewrite wf_pattern_cons in H.
  apply andb_true_iff in H. destruct H as [Hx H]. destruct x; cbn [rep_bounds]; auto.
  constructor; [unfold wf_b; cbn [fst snd]; lia | auto].
Qed.

Lemma bound_rel_nonneg bs ds : Forall wf_b bs -> Forall2 bound_rel bs ds -> Forall (fun d => 0 <= snd d) ds.
Proof.
  intros Hw HF. induction HF as [|b d bs ds Hbd HF IH]; [constructor|]. inversion Hw; subst.
  constructor; [unfold wf_b, bound_rel in *; lia | auto].
Qed.

Lemma handle_anchored_rewritten a mid b mn mx p' : handle_anchored a mid b mn mx = Rewritten p' ->
  exists dist mid', distribute (rep_bounds mid) (sub_fixed mn (count_lit mid)) (sub_fixed mx (count_lit mid)) = Some dist /\
                    rebuild mid dist = Some mid' /\ p' = a :: mid' ++ [b].
Proof.
  unfold handle_anchored. intros H.
  destruct (is_neg (sub_fixed mn _)); [discriminate|]. destruct (is_neg (sub_fixed mx _)); [discriminate|].
  destruct (rep_bounds mid) as [|b0 bs] eqn:Eb; [discriminate|]. rewrite <- Eb in H |- *.
  destruct (distribute _ _ _) as [[|d dist]|]; try discriminate.
  destruct (rebuild mid (d :: dist)) as [mid'|] eqn:Er; [|discriminate]. inversion H.
  exists (d :: dist), mid'. auto.
Qed.

Lemma multi_sound a mid b mn mx s p' :
  is_at a = true -> is_at b = true -> forallb lit_or_rep mid = true ->
  handle_anchored a mid b mn mx = Rewritten p' ->
  wf_pattern mid = true -> max_small mx = true ->
  anchored_for_max (a :: mid ++ [b]) mx = true -> dollar_newline_ok (a :: mid ++ [b]) mx s = true ->
  unit_bodies mid = true ->
  negb (is_some_zero (sub_fixed mx (count_lit mid))) || opt_eqb (sub_fixed mn (count_lit mid)) (sub_fixed mx (count_lit mid)) = true ->
  search p' s -> search (a :: mid ++ [b]) s /\ len_in mn mx s = true.
Proof.
  intros Ha Hb Hk H Hwf Hsmall Hanch Hdoll Hunit Hzero (pre & ms & post & -> & HM).
  apply handle_anchored_rewritten in H. destruct H as (dist & mid' & Ed & Hreb & ->).
  set (fixed := count_lit mid) in *.
  pose proof (wf_bounds mid Hwf) as Hwb.
  destruct (distribute_spec _ _ _ _ Hwb Ed) as (F2 & Dlo & Dhi).
  pose proof HM as HM0. apply (anchors_frame catp _ _ _ _ _ _ Ha Hb) in HM. destruct HM as (HMa & HMm & HMb).
  destruct (rebuild_sound _ _ _ Hk Hreb F2 _ _ _ HMm) as [HMo [HL1 HL2]]; [exact Hunit|].
  pose proof (count_lit_nonneg mid) as Hfix. fold fixed in Hfix, HL1, HL2.
  split.
  - exists pre, ms, post. split; [reflexivity|]. apply (anchors_frame catp _ _ _ _ _ _ Ha Hb). auto.
  - apply len_in_intro.
    + unfold mn_ok. destruct mn as [m|]; [|exact I]. specialize (Dlo (m - fixed) eq_refl).
      rewrite !length_app_Z.
      (* lia is slow on the whole context (regions, matches): it gets the arithmetic facts only *)
      clear - Dlo HL1 Hfix. lia.
    + intros m ->. cbn [sub_fixed] in *. cbn [max_small] in Hsmall.
      destruct (anchored_covers _ _ _ _ _ _ _ _ Hanch Hdoll HM0) as [-> ->].
      assert (Hsum : sum_hi dist <= m - fixed).
      { apply Dhi; [reflexivity | clear - Hsmall Hfix; lia |]. apply orb_true_iff in Hzero. destruct Hzero as [Hz|Hz]; [left | right; exact Hz].
        cbn [is_some_zero] in Hz. clear - Hz. destruct (m - fixed); [discriminate | lia | lia]. }
      assert (HF3 : Forall (fun d => snd d < MAXREPEAT) dist).
      { apply sum_hi_each; [eapply bound_rel_nonneg; eauto | clear - Hsum Hsmall Hfix; lia]. }
      specialize (HL2 HF3). cbn [app]. rewrite app_nil_r. clear - HL2 Hsum. lia.
Qed.

(* the single-node paths: one node x between at most one anchor on each side *)
Definition lit_or_in (x : node) : bool := match x with NLit _ | NIn _ _ => true | _ => false end.

Lemma update_node_new x mn mx y : max_small mx = true -> update_node x mn mx = UNew y ->
  exists l h body, y = NRep l h body /\ mn_ok mn l /\ mx_ok mx h /\
    ((exists lo hi, x = NRep lo hi body /\ lo <= l /\ (h <= hi \/ MAXREPEAT <= hi)) \/
     (lit_or_in x = true /\ body = [x] /\ 1 <= l /\ (mx = Some 1 -> l = 1 /\ h = 1) /\ is_some_zero mx = false)).
Proof.
  intros Hs H. destruct x; cbn [update_node] in H; try discriminate H.
  1, 2: destruct (is_some_zero mx) eqn:Ez; [discriminate H|];
    destruct (handle_literal_new _ _ _ _ Hs H) as (l & h & -> & Hl & Hmn & Hmx & H1);
    exists l, h; eexists; split; [reflexivity|]; split; [exact Hmn|]; split; [exact Hmx|]; right; auto.
  destruct (handle_repeat_new _ _ _ _ _ _ Hs H) as (l & h & -> & Hl & Hh & Hmn & Hmx).
  exists l, h, body. repeat split; [exact Hmn | exact Hmx | left; eauto].
Qed.

Lemma anchored_shape A x B m : is_at x = false -> (length A <= 1)%nat -> (length B <= 1)%nat ->
  anchored_for_max (A ++ x :: B) (Some m) = true -> exists a b, A = [a] /\ B = [b].
Proof.
  intros Hx LA LB H. unfold anchored_for_max in H. apply andb_true_iff in H. destruct H as [Hl Ht].
  destruct A as [|a [|a' A]]; [destruct x; cbn in Hx, Hl; discriminate | | cbn in LA; lia].
  destruct B as [|b [|b' B]]; [ | eauto | cbn in LB; lia].
  unfold trail_strict, trail_dollar, last_node in Ht. cbn in Ht. destruct x; discriminate.
Qed.

Lemma rep_len A x B l h body mn mx pre mid post :
  is_at x = false -> forallb is_at A = true -> forallb is_at B = true -> (length A <= 1)%nat -> (length B <= 1)%nat ->
  unit_seq body = true -> mn_ok mn l -> mx_ok mx h ->
  anchored_for_max (A ++ x :: B) mx = true -> dollar_newline_ok (A ++ x :: B) mx (pre ++ mid ++ post) = true ->
  MSeq (A ++ NRep l h body :: B) pre mid post -> len_in mn mx (pre ++ mid ++ post) = true.
Proof.
  intros Hx HA HB LA LB Hu Hmn Hmx Hanch Hdoll HM.
  destruct (anchors_ctx catp A _ B _ _ _ HA HB HM) as (_ & HMy & _).
  pose proof (rep_unit_len catp _ _ _ _ _ _ Hu HMy) as Hmid.
  apply len_in_intro.
  - unfold mn_ok in *. destruct mn; [|exact I]. rewrite !length_app_Z. clear - Hmn Hmid. lia.
  - intros m ->. destruct (anchored_shape A x B m Hx LA LB Hanch) as (a & b & -> & ->).
    destruct (anchored_covers a [x] [NRep l h body] b m _ _ _ Hanch Hdoll HM) as [-> ->].
    rewrite app_nil_r. cbn [app mx_ok] in *. clear - Hmx Hmid. lia.
Qed.

(* a repeat of a character node put in its place: one of its characters matches the node itself *)
Lemma lit_search A x B l h pre mid post :
  is_char_node x = true -> forallb is_at A = true -> forallb is_at B = true ->
  1 <= l -> (A <> [] -> B <> [] -> l = 1 /\ h = 1) ->
  MSeq (A ++ NRep l h [x] :: B) pre mid post -> search (A ++ x :: B) (pre ++ mid ++ post).
Proof.
  intros Hx HA HB Hl Hboth HM.
  destruct (anchors_ctx catp A _ B _ _ _ HA HB HM) as (HMA & HMy & HMB). rename mid into sy.
  apply M_rep_inv in HMy. destruct HMy as (n & [Hn1 Hn2] & HP).
  destruct (pow_chars catp x Hx _ _ _ _ HP) as [Hlen Hchars].
  assert (Hc : forall c pre' post', In c sy -> M x pre' [c] post').
  { intros c pre' post' Hin. apply (char_node_spec catp x _ _ _ Hx). exists c. split; [reflexivity|].
    rewrite Forall_forall in Hchars. exact (Hchars c Hin). }
  destruct A as [|a A].
  - (* no lead anchor: the last character *)
    destruct (@exists_last _ sy) as (s0 & c & ->); [intros ->; cbn in Hlen; lia|].
    exists (pre ++ s0), [c], post. split; [rewrite <- !app_assoc; reflexivity|].
    apply (MS_cons catp x B (pre ++ s0) [c] [] post); [apply Hc, in_or_app; right; left; reflexivity|].
    rewrite <- app_assoc. exact HMB.
  - destruct sy as [|c s1]; [cbn in Hlen; lia|].
    destruct B as [|b B].
    + (* no trail anchor: the first character *)
      exists pre, [c], (s1 ++ post). split; [reflexivity|]. apply MSeq_ctx. exists [], [c], [].
      rewrite !app_nil_r. repeat split; [exact HMA | apply Hc; left; reflexivity | constructor].
    + (* both anchors: the repeat is {1} *)
      destruct Hboth as [-> ->]; try discriminate.
      assert (s1 = []) as -> by (destruct s1; [reflexivity | cbn in Hlen; unfold MAXREPEAT in Hn2; lia]).
      exists pre, [c], post. split; [reflexivity|]. apply MSeq_ctx. exists [], [c], [].
      rewrite !app_nil_r. repeat split; [exact HMA | apply Hc; left; reflexivity | exact HMB].
Qed.

Lemma single_sound A x B y mn mx s :
  forallb is_at A = true -> forallb is_at B = true -> (length A <= 1)%nat -> (length B <= 1)%nat ->
  update_node x mn mx = UNew y ->
  max_small mx = true ->
  anchored_for_max (A ++ x :: B) mx = true -> dollar_newline_ok (A ++ x :: B) mx s = true ->
  unit_bodies (A ++ x :: B) = true ->
  not_single_char_anchored (A ++ x :: B) mx = true ->
  search (A ++ y :: B) s -> search (A ++ x :: B) s /\ len_in mn mx s = true.
Proof.
  intros HA HB LA LB Hup Hsm Hanch Hdoll Hunit Hsingle (pre & mid & post & -> & HM).
  destruct (update_node_new _ _ _ _ Hsm Hup) as (l & h & body & -> & Hmn & Hmx & [(lo & hi & -> & Hl & Hh)|(Hli & -> & Hl & H1 & Hz)]).
  - split.
    + exists pre, mid, post. split; [reflexivity|]. revert HM. apply MSeq_weaken.
      intros pre' s' post'. apply rep_narrow; assumption.
    + rewrite unit_bodies_app, unit_bodies_cons in Hunit.
      apply andb_true_iff in Hunit. destruct Hunit as [_ Hunit]. apply andb_true_iff in Hunit. destruct Hunit as [Hub _].
      apply (rep_len A (NRep lo hi body) B l h body); auto.
  - assert (Hch : is_char_node x = true) by (destruct x; try discriminate Hli; reflexivity).
    split.
    + apply (lit_search A x B l h); auto. intros HAn HBn. apply H1.
      (* between two anchors the region leaves maxLength 1 (and update_node does nothing for 0) *)
      destruct A as [|a [|a' A]]; [contradiction | | cbn in LA; lia]. destruct B as [|b [|b' B]]; [contradiction | | cbn in LB; lia].
      cbn [forallb] in HA, HB. rewrite andb_true_r in HA, HB.
      cbn [app not_single_char_anchored] in Hsingle. unfold lit_or_in in Hli. rewrite HA, HB, Hli in Hsingle.
      destruct mx as [[|[| |]|]|]; try discriminate Hsingle; [discriminate Hz | reflexivity].
    + apply (rep_len A x B l h [x]); auto; destruct x; try discriminate Hch; reflexivity.
Qed.

Lemma lift_rewritten f r p' : lift f r = Rewritten p' -> exists y, r = UNew y /\ p' = f y.
Proof. destruct r; try discriminate. intros H. inversion H. eauto. Qed.

Lemma count_lit_frame a mid b : is_at a = true -> is_at b = true -> count_lit (a :: mid ++ [b]) = count_lit mid.
Proof.
  intros Ha Hb. cbn [count_lit]. destruct a; try discriminate. cbn [is_lit].
  induction mid as [|x mid IH]; cbn [app count_lit]; [destruct b; try discriminate; reflexivity | lia].
Qed.

Theorem rewrite_sound p mn mx s p' :
  update_quantifier p mn mx = Rewritten p' ->
  wf_pattern p = true -> max_small mx = true ->
  anchored_for_max p mx = true -> dollar_newline_ok p mx s = true ->
  unit_bodies p = true -> not_max_zero_multi p mn mx = true -> not_single_char_anchored p mx = true ->
  search p' s -> search p s /\ len_in mn mx s = true.
Proof.
  intros H Hwf Hsm Hanch Hdoll Hunit Hzero Hsingle Hs.
  unfold update_quantifier in H. destruct p as [|n0 p0]; [discriminate|].
  destruct (none_or_zero mn && is_none mx); [discriminate|].
  destruct p0 as [|n1 [|n2 [|n3 rest]]].
  - (* [x]; the single-node paths use neither wf_pattern nor not_max_zero_multi *)
    clear Hwf Hzero. apply lift_rewritten in H. destruct H as (y & E & ->). apply (single_sound [] n0 [] y); auto.
  - clear Hwf Hzero. cbn [handle_parsed] in H. destruct (is_at n0) eqn:Ea.
    + (* [a; x] *) apply lift_rewritten in H. destruct H as (y & E & ->).
      apply (single_sound [n0] n1 [] y); auto. cbn. rewrite Ea. reflexivity.
    + (* [x; b] *) destruct (is_at n1) eqn:Eb; [|discriminate].
      apply lift_rewritten in H. destruct H as (y & E & ->).
      apply (single_sound [] n0 [n1] y); auto. cbn. rewrite Eb. reflexivity.
  - (* [a; x; b] *) clear Hwf Hzero. cbn [handle_parsed] in H. destruct (is_at n0 && is_at n2) eqn:Eab; [|discriminate].
    apply andb_true_iff in Eab. destruct Eab as [Ea Eb].
    apply lift_rewritten in H. destruct H as (y & E & ->).
    apply (single_sound [n0] n1 [n2] y); auto; cbn; rewrite ?Ea, ?Eb; reflexivity.
  - (* a :: mid ++ [b], four nodes or more; the multi-quantifier path does not use not_single_char_anchored *)
    clear Hsingle. cbn [not_max_zero_multi] in Hzero. cbn [handle_parsed] in H.
    destruct (split_last (n1 :: n2 :: n3 :: rest)) as [[mid b]|] eqn:Esl; [|discriminate].
    apply split_last_some in Esl. rewrite Esl in *.
    destruct (is_at n0 && is_at b && forallb (fun x => is_lit x || is_rep x) mid) eqn:Ec; [|discriminate].
    apply andb_true_iff in Ec. destruct Ec as [Ec Hk]. apply andb_true_iff in Ec. destruct Ec as [Ea Eb].
    rewrite (count_lit_frame n0 mid b Ea Eb) in Hzero.
    apply forallb_between in Hwf. apply forallb_between in Hunit.
    eapply multi_sound; eauto.
Qed.

End Sound.

(* four of the five witnesses are too long for maxLength; every premise is closed and is evaluated *)
Lemma refutes_by_length catp p mn mx s regions p' :
  update_quantifier p mn mx = Rewritten p' -> other_regions p mn mx s = regions ->
  search_b catp p' s = true -> len_in mn mx s = false -> refutes catp p mn mx s regions.
Proof.
  intros Hu Hr Hs Hl. exists p'. repeat split; [exact Hu | exact Hr | apply search_b_sound; exact Hs |].
  intros [_ H]. congruence.
Qed.

Lemma has_key_In k l : has_key k l = true <-> In k l.
Proof.
  unfold has_key. rewrite existsb_exists. split.
  - intros (x & Hx & E). apply str_eqb_spec in E. subst x. exact Hx.
  - intros H. exists k. split; [exact H | apply str_eqb_refl].
Qed.

(* induction on schemas that goes through the property lists *)
Fixpoint oas_ind' (P : oas -> Prop)
  (HP : forall n xn t, P (OPrim n xn t))
  (HA : forall n xn it, P it -> P (OArr n xn it))
  (HO : forall n xn props req, Forall (fun kp => P (snd kp)) props -> P (OObj n xn props req))
  (s : oas) : P s :=
  match s with
  | OPrim n xn t => HP n xn t
  | OArr n xn it => HA n xn it (oas_ind' P HP HA HO it)
  | OObj n xn props req =>
      HO n xn props req
        ((fix go (l : list (str * oas)) : Forall (fun kp => P (snd kp)) l :=
            match l with
            | [] => Forall_nil _
            | kp :: l' => Forall_cons kp (oas_ind' P HP HA HO (snd kp)) (go l')
            end) props)
  end.

Lemma wrap_nonnull st j v : v <> VNull -> jvalid (wrap st j) v = jvalid j v.
Proof.
  intros Hv. unfold wrap. destruct (wraps st); [|reflexivity]. cbn [jvalid].
  destruct v; try contradiction; rewrite orb_false_r; reflexivity.
Qed.

Lemma wrap_null st j : jvalid j VNull = false -> jvalid (wrap st j) VNull = wraps st.
Proof. intros Hj. unfold wrap. destruct (wraps st); [cbn [jvalid]; rewrite Hj; reflexivity | exact Hj]. Qed.

Lemma conv_unfold d s : conv d s = wrap (eff d s)
  match s with
  | OPrim _ _ t => JsPrim t
  | OArr _ _ it => JsArr (conv d it)
  | OObj _ _ props req => JsObj (map (fun kp => (fst kp, conv d (snd kp))) props) req
  end.
Proof.
  destruct s; cbn [conv]; try reflexivity. f_equal. f_equal.
  induction props as [|[k p] l IH]; [reflexivity|]. cbn [map fst snd]. rewrite <- IH. reflexivity.
Qed.

Lemma gs_eqb_eq a b : gs_eqb a b = true -> a = b.
Proof.
  destruct a as [a1 a2], b as [b1 b2]. unfold gs_eqb. cbn [fst snd]. intros H. apply andb_true_iff in H. destruct H as [H1 H2].
  apply Bool.eqb_prop in H1. subst. destruct a2, b2; try discriminate; reflexivity.
Qed.

(* induction on Python values that goes through the nested lists *)
Section PvInd.
  Variable P : pv -> Prop.
  Hypothesis Ha : forall a, P (PA a).
  Hypothesis Hd : forall i kv, Forall (fun e => P (snd e)) kv -> P (PD i kv).
  Hypothesis Hl : forall i xs, Forall P xs -> P (PL i xs).
  Fixpoint pv_ind' (t : pv) : P t :=
    match t with
    | PA a => Ha a
    | PD i kv => Hd i kv ((fix go (l : list (str * pv)) : Forall (fun e => P (snd e)) l :=
                             match l with [] => Forall_nil _ | x :: r => Forall_cons _ (pv_ind' (snd x)) (go r) end) kv)
    | PL i xs => Hl i xs ((fix go (l : list pv) : Forall P l :=
                             match l with [] => Forall_nil _ | x :: r => Forall_cons _ (pv_ind' x) (go r) end) xs)
    end.
End PvInd.

Lemma all_ids_PD P i kv : all_ids P (PD i kv) = P i && forallb (fun e => all_ids P (snd e)) kv.
Proof.
  cbn [all_ids]. apply f_equal. induction kv as [|[k v] r IH]; [reflexivity|]. cbn [forallb snd]. rewrite <- IH. reflexivity.
Qed.
Lemma all_ids_PL P i xs : all_ids P (PL i xs) = P i && forallb (all_ids P) xs.
Proof.
  cbn [all_ids]. apply f_equal. induction xs as [|v r IH]; [reflexivity|]. cbn [forallb]. rewrite <- IH. reflexivity.
Qed.
Definition upd_kv (i : N) (m : mutn) (kv : list (str * pv)) := map (fun e => (fst e, upd i m (snd e))) kv.
Lemma upd_PD i m j kv : upd i m (PD j kv) = if N.eqb j i then do_mut m (PD j (upd_kv i m kv)) else PD j (upd_kv i m kv).
Proof.
  cbn [upd]. assert (E : (fix go (l : list (str * pv)) : list (str * pv) :=
            match l with [] => [] | (k, v) :: r => (k, upd i m v) :: go r end) kv = upd_kv i m kv).
  { induction kv as [|[k v] r IH]; [reflexivity|]. cbn [upd_kv map fst snd]. rewrite IH. reflexivity. }
  rewrite E. reflexivity.
Qed.
Lemma upd_PL i m j xs : upd i m (PL j xs) = if N.eqb j i then do_mut m (PL j (map (upd i m) xs)) else PL j (map (upd i m) xs).
Proof.
  cbn [upd]. assert (E : (fix go (l : list pv) : list pv :=
            match l with [] => [] | v :: r => upd i m v :: go r end) xs = map (upd i m) xs).
  { induction xs as [|v r IH]; [reflexivity|]. cbn [map]. rewrite IH. reflexivity. }
  rewrite E. reflexivity.
Qed.
Lemma shift_PD n i kv : shift n (PD i kv) = PD (i + n)%N (map (fun e => (fst e, shift n (snd e))) kv).
Proof.
  cbn [shift]. apply f_equal. induction kv as [|[k v] r IH]; [reflexivity|]. cbn [map fst snd]. rewrite IH. reflexivity.
Qed.
Lemma shift_PL n i xs : shift n (PL i xs) = PL (i + n)%N (map (shift n) xs).
Proof.
  cbn [shift]. apply f_equal. induction xs as [|v r IH]; [reflexivity|]. cbn [map]. rewrite IH. reflexivity.
Qed.
Lemma bound_PD i kv : bound (PD i kv) = N.max (i + 1)%N (fold_right (fun e acc => N.max (bound (snd e)) acc) 0%N kv).
Proof.
  cbn [bound]. apply f_equal. induction kv as [|[k v] r IH]; [reflexivity|]. cbn [fold_right snd]. rewrite IH. reflexivity.
Qed.
Lemma bound_PL i xs : bound (PL i xs) = N.max (i + 1)%N (fold_right (fun v acc => N.max (bound v) acc) 0%N xs).
Proof.
  cbn [bound]. apply f_equal. induction xs as [|v r IH]; [reflexivity|]. cbn [fold_right]. rewrite IH. reflexivity.
Qed.

Lemma all_ids_impl (P Q : N -> bool) t : (forall j, P j = true -> Q j = true) -> all_ids P t = true -> all_ids Q t = true.
Proof.
  intros HPQ. induction t as [a|i kv IH|i xs IH] using pv_ind'; [reflexivity| |].
  - rewrite !all_ids_PD. intros H. apply andb_true_iff in H. destruct H as [H1 H2].
    apply andb_true_iff. split; [apply HPQ; exact H1|].
    rewrite forallb_forall in *. intros e He. rewrite Forall_forall in IH. apply (IH e He). apply H2. exact He.
  - rewrite !all_ids_PL. intros H. apply andb_true_iff in H. destruct H as [H1 H2].
    apply andb_true_iff. split; [apply HPQ; exact H1|].
    rewrite forallb_forall in *. intros e He. rewrite Forall_forall in IH. apply (IH e He). apply H2. exact He.
Qed.
Lemma lt_ids_mono a b t : (a <= b)%N -> lt_ids a t = true -> lt_ids b t = true.
Proof.
  intros Hab. apply all_ids_impl. intros j Hj. apply N.ltb_lt in Hj. apply N.ltb_lt. lia.
Qed.
Lemma ge_ids_mono a b t : (b <= a)%N -> ge_ids a t = true -> ge_ids b t = true.
Proof.
  intros Hab. apply all_ids_impl. intros j Hj. apply N.leb_le in Hj. apply N.leb_le. lia.
Qed.

Lemma upd_frame i m t : all_ids (fun j => negb (N.eqb j i)) t = true -> upd i m t = t.
Proof.
  induction t as [a|j kv IH|j xs IH] using pv_ind'; [reflexivity| |].
  - rewrite all_ids_PD, upd_PD. intros H. apply andb_true_iff in H. destruct H as [H1 H2].
    apply negb_true_iff in H1. rewrite H1.
    f_equal. unfold upd_kv. rewrite forallb_forall in H2. rewrite Forall_forall in IH.
    rewrite <- (map_id kv) at 2. apply map_ext_in. intros [k v] He. cbn [fst snd]. f_equal. apply (IH _ He). apply (H2 _ He).
  - rewrite all_ids_PL, upd_PL. intros H. apply andb_true_iff in H. destruct H as [H1 H2].
    apply negb_true_iff in H1. rewrite H1.
    f_equal. rewrite forallb_forall in H2. rewrite Forall_forall in IH.
    rewrite <- (map_id xs) at 2. apply map_ext_in. intros v He. apply (IH _ He). apply (H2 _ He).
Qed.
Lemma upd_frame_lt n i m t : lt_ids n t = true -> (n <= i)%N -> upd i m t = t.
Proof.
  intros H Hi. apply upd_frame. revert H. apply all_ids_impl. intros j Hj. apply N.ltb_lt in Hj.
  apply negb_true_iff. apply N.eqb_neq. lia.
Qed.
Lemma apply_log_frame n lg : forall t, lt_ids n t = true -> targets_ge n lg = true -> apply_log lg t = t.
Proof.
  unfold apply_log, targets_ge. induction lg as [|[i m] lg IH]; intros t Ht Hl; [reflexivity|].
  cbn [fold_left forallb fst snd] in *. apply andb_true_iff in Hl. destruct Hl as [H1 H2]. apply N.leb_le in H1.
  rewrite (upd_frame_lt n i m t Ht H1). apply IH; assumption.
Qed.

Lemma fold_max_ge {A} (f : A -> N) l x :
  In x l -> (f x <= fold_right (fun e acc => N.max (f e) acc) 0 l)%N.
Proof.
  induction l as [|y l IH]; [intros []|]. cbn [fold_right].
  intros [->|H]; [apply N.le_max_l | exact (N.le_trans _ _ _ (IH H) (N.le_max_r _ _))].
Qed.

Lemma lt_bound t : lt_ids (bound t) t = true.
Proof.
  assert (Hroot : forall i b, (i <? N.max (i + 1) b)%N = true).
  { intros i b. apply N.ltb_lt. apply (N.lt_le_trans _ (i + 1)); [apply N.lt_add_pos_r; reflexivity | apply N.le_max_l]. }
  unfold lt_ids. induction t as [a|i kv IH|i xs IH] using pv_ind'; [reflexivity| |].
  - rewrite all_ids_PD, bound_PD, Hroot. apply forallb_forall. intros e He. rewrite Forall_forall in IH.
    apply (lt_ids_mono (bound (snd e))); [|apply (IH e He)].
    exact (N.le_trans _ _ _ (fold_max_ge (fun e => bound (snd e)) kv e He) (N.le_max_r _ _)).
  - rewrite all_ids_PL, bound_PL, Hroot. apply forallb_forall. intros e He. rewrite Forall_forall in IH.
    apply (lt_ids_mono (bound e)); [|apply (IH e He)].
    exact (N.le_trans _ _ _ (fold_max_ge bound xs e He) (N.le_max_r _ _)).
Qed.

Lemma ge_shift n t : ge_ids n (shift n t) = true.
Proof.
  unfold ge_ids. induction t as [a|i kv IH|i xs IH] using pv_ind'; [reflexivity| |].
  - rewrite shift_PD, all_ids_PD. apply andb_true_iff. split; [apply N.leb_le; lia|].
    rewrite forallb_forall. intros e He. apply in_map_iff in He. destruct He as [e0 [<- He0]]. cbn [snd].
    rewrite Forall_forall in IH. apply (IH e0 He0).
  - rewrite shift_PL, all_ids_PL. apply andb_true_iff. split; [apply N.leb_le; lia|].
    rewrite forallb_forall. intros e He. apply in_map_iff in He. destruct He as [e0 [<- He0]].
    rewrite Forall_forall in IH. apply (IH e0 He0).
Qed.

(* every container a mutation brings in is new *)
Definition mut_ge (n : N) (m : mutn) : bool :=
  match m with MSet _ v => ge_ids n v | MExtend ys => forallb (ge_ids n) ys | _ => true end.
Definition log_ok (n : N) (lg : wlog) : bool := forallb (fun e => N.leb n (fst e) && mut_ge n (snd e)) lg.

Lemma forallb_assoc_remove {A} (f : str * A -> bool) k l : forallb f l = true -> forallb f (assoc_remove k l) = true.
Proof.
  induction l as [|[k' v] r IH]; [reflexivity|]. cbn [forallb assoc_remove]. intros H. apply andb_true_iff in H. destruct H as [H1 H2].
  destruct (str_eqb k k'); [apply IH; exact H2|]. cbn [forallb]. rewrite H1. apply IH. exact H2.
Qed.
Lemma forallb_assoc_set {A} (f : str * A -> bool) k v l : (forall k', f (k', v) = true) -> forallb f l = true -> forallb f (assoc_set k v l) = true.
Proof.
  intros Hv. induction l as [|[k' v'] r IH]; [intros _; cbn [assoc_set forallb]; rewrite Hv; reflexivity|].
  cbn [forallb assoc_set]. intros H. apply andb_true_iff in H. destruct H as [H1 H2].
  destruct (str_eqb k k'); cbn [forallb]; [rewrite Hv, H2; reflexivity | rewrite H1; apply IH; exact H2].
Qed.
Lemma forallb_remove_first (f : pv -> bool) x l : forallb f l = true -> forallb f (remove_first x l) = true.
Proof.
  induction l as [|v r IH]; [reflexivity|]. cbn [forallb remove_first]. intros H. apply andb_true_iff in H. destruct H as [H1 H2].
  destruct (atom_is_str x v); [exact H2|]. cbn [forallb]. rewrite H1. apply IH. exact H2.
Qed.

Lemma ge_do_mut n m t : ge_ids n t = true -> mut_ge n m = true -> ge_ids n (do_mut m t) = true.
Proof.
  unfold ge_ids. intros Ht Hm. destruct m as [k|k v|x|ys], t as [a|i kv|i xs]; cbn [do_mut]; try exact Ht.
  - rewrite all_ids_PD in *. apply andb_true_iff in Ht. destruct Ht as [H1 H2]. rewrite H1. apply forallb_assoc_remove. exact H2.
  - rewrite all_ids_PD in *. apply andb_true_iff in Ht. destruct Ht as [H1 H2]. rewrite H1. apply forallb_assoc_set; [intros; exact Hm | exact H2].
  - rewrite all_ids_PL in *. apply andb_true_iff in Ht. destruct Ht as [H1 H2]. rewrite H1. apply forallb_remove_first. exact H2.
  - rewrite all_ids_PL in *. apply andb_true_iff in Ht. destruct Ht as [H1 H2]. rewrite H1. rewrite forallb_app, H2. exact Hm.
Qed.

Lemma ge_upd n i m t : ge_ids n t = true -> mut_ge n m = true -> ge_ids n (upd i m t) = true.
Proof.
  intros Ht Hm. revert Ht. induction t as [a|j kv IH|j xs IH] using pv_ind'; [intros; reflexivity| |].
  - intros Ht. rewrite upd_PD.
    assert (H' : ge_ids n (PD j (upd_kv i m kv)) = true).
    { unfold ge_ids in *. rewrite all_ids_PD in *. apply andb_true_iff in Ht. destruct Ht as [H1 H2]. rewrite H1. cbn [andb].
      rewrite forallb_forall in *. intros e He. unfold upd_kv in He. apply in_map_iff in He. destruct He as [e0 [<- He0]]. cbn [snd].
      rewrite Forall_forall in IH. apply (IH e0 He0). apply (H2 e0 He0). }
    destruct (N.eqb j i); [apply ge_do_mut; assumption | exact H'].
  - intros Ht. rewrite upd_PL.
    assert (H' : ge_ids n (PL j (map (upd i m) xs)) = true).
    { unfold ge_ids in *. rewrite all_ids_PL in *. apply andb_true_iff in Ht. destruct Ht as [H1 H2]. rewrite H1. cbn [andb].
      rewrite forallb_forall in *. intros e He. apply in_map_iff in He. destruct He as [e0 [<- He0]].
      rewrite Forall_forall in IH. apply (IH e0 He0). apply (H2 e0 He0). }
    destruct (N.eqb j i); [apply ge_do_mut; assumption | exact H'].
Qed.

Lemma ge_assoc_get n k kv v : forallb (fun e : str * pv => ge_ids n (snd e)) kv = true -> assoc_get k kv = Some v -> ge_ids n v = true.
Proof.
  induction kv as [|[k' v'] r IH]; [discriminate|]. cbn [forallb assoc_get snd]. intros H. apply andb_true_iff in H. destruct H as [H1 H2].
  destruct (str_eqb k k'); [intros E; inversion E; subst; exact H1 | apply IH; exact H2].
Qed.
Lemma ge_d_get n k t v : ge_ids n t = true -> d_get k t = Some v -> ge_ids n v = true.
Proof.
  destruct t as [a|i kv|i xs]; cbn [d_get]; try discriminate. unfold ge_ids at 1. rewrite all_ids_PD. intros H. apply andb_true_iff in H.
  destruct H as [_ H]. apply ge_assoc_get. exact H.
Qed.
Lemma ge_root n t i : ge_ids n t = true -> root_id t = Some i -> (n <= i)%N.
Proof.
  destruct t as [a|j kv|j xs]; cbn [root_id]; try discriminate; unfold ge_ids; [rewrite all_ids_PD | rewrite all_ids_PL];
    intros H E; inversion E; subst; apply andb_true_iff in H; destruct H as [H _]; apply N.leb_le in H; exact H.
Qed.
Lemma ge_d_get_id n k t i : ge_ids n t = true -> d_get_id k t = Some i -> (n <= i)%N.
Proof.
  unfold d_get_id. destruct (d_get k t) as [v|] eqn:E; [|discriminate]. intros H. apply (ge_root n v). apply (ge_d_get n k t v H E).
Qed.

Lemma ge_apply_log n lg : forall t, ge_ids n t = true -> log_ok n lg = true -> ge_ids n (apply_log lg t) = true.
Proof.
  unfold apply_log, log_ok. induction lg as [|[i m] lg IH]; intros t Ht Hl; [exact Ht|].
  cbn [fold_left forallb fst snd] in *. apply andb_true_iff in Hl. destruct Hl as [H1 H2]. apply andb_true_iff in H1. destruct H1 as [_ H1].
  apply IH; [apply ge_upd; assumption | exact H2].
Qed.
Lemma log_ok_targets n lg : log_ok n lg = true -> targets_ge n lg = true.
Proof.
  unfold log_ok, targets_ge. rewrite !forallb_forall. intros H e He. specialize (H e He). apply andb_true_iff in H. destruct H as [H _]. exact H.
Qed.
Lemma log_ok_app n a b : log_ok n a = true -> log_ok n b = true -> log_ok n (a ++ b) = true.
Proof. unfold log_ok. intros Ha Hb. rewrite forallb_app, Ha, Hb. reflexivity. Qed.
Lemma mut_ge_mono a b m : (b <= a)%N -> mut_ge a m = true -> mut_ge b m = true.
Proof.
  intros Hab. destruct m as [k|k v|x|ys]; cbn [mut_ge]; try (intros; reflexivity).
  - apply ge_ids_mono. exact Hab.
  - rewrite !forallb_forall. intros H e He. apply (ge_ids_mono a b); [exact Hab | apply H; exact He].
Qed.
Lemma log_ok_mono a b lg : (b <= a)%N -> log_ok a lg = true -> log_ok b lg = true.
Proof.
  intros Hab. unfold log_ok. rewrite !forallb_forall. intros H e He. specialize (H e He). apply andb_true_iff in H. destruct H as [H1 H2].
  apply andb_true_iff. split; [apply N.leb_le in H1; apply N.leb_le; lia | apply (mut_ge_mono a b); assumption].
Qed.

(* the invariant of a conversion whose working value was allocated at or after n: it only touches such containers *)
Definition inv (n : N) (s : cst) : Prop :=
  ge_ids n (cst_w s) = true /\ log_ok n (snd (fst s)) = true /\ (n <= snd s)%N.

Lemma inv_w n s : inv n s -> ge_ids n (cst_w s) = true.
Proof. intros [H _]. exact H. Qed.
Lemma inv_counter n s : inv n s -> (n <= snd s)%N.
Proof. intros [_ [_ H]]. exact H. Qed.
Lemma inv_bump n w lg c : inv n (w, lg, c) -> inv n (w, lg, (c + 1)%N).
Proof. unfold inv, cst_w. cbn [fst snd]. intros [H1 [H2 H3]]. repeat split; [exact H1|exact H2|lia]. Qed.

Lemma emit_inv n i m s : inv n s -> (n <= i)%N -> mut_ge n m = true -> inv n (emit i m s).
Proof.
  destruct s as [[w lg] c]. unfold inv, emit, cst_w. cbn [fst snd]. intros [H1 [H2 H3]] Hi Hm. repeat split.
  - apply ge_upd; assumption.
  - apply log_ok_app; [exact H2|]. unfold log_ok. cbn [forallb fst snd]. rewrite Hm. apply N.leb_le in Hi. rewrite Hi. reflexivity.
  - exact H3.
Qed.
Lemma emit_opt_inv n i m s : inv n s -> (forall j, i = Some j -> (n <= j)%N) -> mut_ge n m = true -> inv n (emit_opt i m s).
Proof.
  intros Hs Hi Hm. destruct i as [j|]; cbn [emit_opt]; [apply emit_inv; auto | exact Hs].
Qed.

Lemma rw_step_inv n pred rid pid s forb item :
  inv n s -> (forall j, rid = Some j -> (n <= j)%N) -> (forall j, pid = Some j -> (n <= j)%N) ->
  inv n (fst (rw_step pred rid pid (s, forb) item)).
Proof.
  intros Hs Hr Hp. unfold rw_step. destruct item as [name sub]. destruct (pred sub); cbn [fst]; [|exact Hs].
  apply emit_opt_inv; [|exact Hp|reflexivity].
  destruct (list_has name (d_get s_required (cst_w s))); [apply emit_opt_inv; [exact Hs|exact Hr|reflexivity] | exact Hs].
Qed.
Lemma ge_fresh_dict n c : (n <= c)%N -> ge_ids n (PD c []) = true.
Proof. intros H. unfold ge_ids. cbn [all_ids]. apply N.leb_le in H. rewrite H. reflexivity. Qed.
Lemma ge_fresh_list n c xs : (n <= c)%N -> forallb (ge_ids n) xs = true -> ge_ids n (PL c xs) = true.
Proof. intros H Hx. unfold ge_ids in *. rewrite all_ids_PL. apply N.leb_le in H. rewrite H. exact Hx. Qed.
Lemma ge_strs n (l : list str) : forallb (ge_ids n) (map (fun x => PA (AStr x)) l) = true.
Proof. induction l as [|x r IH]; [reflexivity|]. cbn [map forallb]. exact IH. Qed.
Lemma ge_dedup n l : forall seen, forallb (ge_ids n) l = true -> forallb (ge_ids n) (dedup_strs seen l) = true.
Proof.
  induction l as [|v r IH]; intros seen H; [reflexivity|]. cbn [forallb] in H. apply andb_true_iff in H. destruct H as [H1 H2].
  cbn [dedup_strs]. destruct v as [[| | |s]|i kv|i xs]; try (cbn [forallb]; rewrite H1; apply IH; exact H2).
  destruct (has_key s seen); [apply IH; exact H2 | cbn [forallb]; rewrite H1; apply IH; exact H2].
Qed.

(* schema.setdefault(k, <new container>): the identity it returns is at or after n either way *)
Lemma setdefault_inv n (found : option N) tgt k (fresh : N -> pv) s r :
  inv n s -> (forall i, found = Some i -> (n <= i)%N) -> (n <= tgt)%N -> (forall c, (n <= c)%N -> ge_ids n (fresh c) = true) ->
  match found with
  | Some i => (s, i)
  | None => let '(w, lg, c) := s in (emit tgt (MSet k (fresh c)) (w, lg, (c + 1)%N), c)
  end = r -> inv n (fst r) /\ (n <= snd r)%N.
Proof.
  intros Hs Hf Ht Hv <-. destruct found as [i|]; [split; [exact Hs | apply Hf; reflexivity]|].
  destruct s as [[w lg] c]. pose proof (inv_counter _ _ Hs) as Hc. cbn [fst snd] in *.
  split; [apply emit_inv; [apply inv_bump; exact Hs | exact Ht | apply Hv; exact Hc] | exact Hc].
Qed.

Definition cur_not (x : cst) : pv := match d_get s_not (cst_w x) with Some d => d | None => PA ANull end.
Lemma forbid_inv n wid forb s : inv n s -> (n <= wid)%N -> inv n (forbid wid forb s).
Proof.
  intros Hs Hw.
  assert (Hcur : forall x, inv n x -> ge_ids n (cur_not x) = true).
  { intros x Hx. unfold cur_not. destruct (d_get s_not (cst_w x)) as [d|] eqn:E; [|reflexivity].
    exact (ge_d_get n _ _ _ (inv_w _ _ Hx) E). }
  unfold forbid.
  (* not_schema *)
  destruct (match d_get_id s_not (cst_w s) with Some i => _ | None => _ end) as [s1 nid] eqn:E1.
  apply (setdefault_inv n _ wid s_not (fun c => PD c [])) in E1;
    [| exact Hs | intros i; apply ge_d_get_id, inv_w, Hs | exact Hw | exact (ge_fresh_dict n)].
  destruct E1 as [Hs1 Hnid]. cbn [fst snd] in Hs1, Hnid.
  (* already_forbidden *)
  destruct (match d_get_id s_required _ with Some i => _ | None => _ end) as [s2 lid] eqn:E2.
  apply (setdefault_inv n _ nid s_required (fun c => PL c [])) in E2;
    [| exact Hs1 | intros i; apply ge_d_get_id, (Hcur s1 Hs1) | exact Hnid | intros c Hc; apply ge_fresh_list; [exact Hc | reflexivity]].
  destruct E2 as [Hs2 Hlid]. cbn [fst snd] in Hs2, Hlid.
  (* extend, then the new de-duplicated list *)
  assert (Hs3 : inv n (emit lid (MExtend (map (fun x => PA (AStr x)) forb)) s2)).
  { apply emit_inv; [exact Hs2 | exact Hlid | cbn [mut_ge]; apply ge_strs]. }
  set (s3 := emit lid (MExtend (map (fun x => PA (AStr x)) forb)) s2) in *.
  assert (Hal : forallb (ge_ids n) (match d_get s_required (cur_not s3) with Some (PL _ xs) => xs | _ => [] end) = true).
  { destruct (d_get s_required (cur_not s3)) as [[a|i kv|i xs]|] eqn:E; try reflexivity.
    pose proof (ge_d_get n _ _ _ (Hcur s3 Hs3) E) as H. unfold ge_ids in H. rewrite all_ids_PL in H.
    apply andb_true_iff in H. apply H. }
  unfold cur_not in Hal. destruct s3 as [[w lg] c]. pose proof (inv_counter _ _ Hs3) as Hc. cbn [snd] in Hc.
  apply emit_inv; [apply inv_bump; exact Hs3 | exact Hnid |]. cbn [mut_ge]. apply ge_fresh_list; [exact Hc|]. apply ge_dedup. exact Hal.
Qed.

Lemma rewrite_properties_inv n pred wid s : inv n s -> (n <= wid)%N -> inv n (rewrite_properties pred wid s).
Proof.
  intros Hs Hw. unfold rewrite_properties.
  pose proof (fun k j => ge_d_get_id n k (cst_w s) j (inv_w _ _ Hs)) as Hid.
  destruct (fold_left _ _ (s, [])) as [s1 forb] eqn:E.
  assert (H1 : inv n s1).
  { change s1 with (fst (s1, forb)). rewrite <- E. apply (fold_left_inv _ (fun acc => inv n (fst acc))); [|exact Hs].
    intros [s0 f0] item H0. apply rw_step_inv; [exact H0 | apply Hid | apply Hid]. }
  assert (H2 : inv n (match forb with [] => s1 | _ => forbid wid forb s1 end)).
  { destruct forb; [exact H1 | apply forbid_inv; assumption]. }
  set (s2 := match forb with [] => s1 | _ => forbid wid forb s1 end) in *.
  assert (H3 : inv n (if get_truthy s_required (cst_w s2) then s2 else emit wid (MDel s_required) s2)).
  { destruct (get_truthy s_required (cst_w s2)); [exact H2 | apply emit_inv; [exact H2|exact Hw|reflexivity]]. }
  set (s3 := if get_truthy s_required (cst_w s2) then s2 else emit wid (MDel s_required) s2) in *.
  destruct (get_truthy s_properties (cst_w s3)); [exact H3 | apply emit_inv; [exact H3|exact Hw|reflexivity]].
Qed.

Lemma to_json_schema_inv m copy resp n t :
  (copy = true \/ ge_ids m t = true) -> (m <= n)%N -> inv m (to_json_schema copy resp n t).
Proof.
  intros Hc Hmn. unfold to_json_schema.
  assert (H0 : exists w n1, (if copy then deepclone n t else (t, n)) = (w, n1) /\ ge_ids m w = true /\ (m <= n1)%N).
  { destruct copy.
    - eexists. eexists. split; [reflexivity|]. split; [apply (ge_ids_mono n m); [exact Hmn | apply ge_shift] | lia].
    - exists t, n. split; [reflexivity|]. destruct Hc as [Hc|Hc]; [discriminate|]. split; assumption. }
  destruct H0 as [w [n1 [E [Hw Hn1]]]]. rewrite E.
  assert (Hbase : inv m (w, [], n1)). { unfold inv, cst_w. cbn [fst snd]. repeat split; [exact Hw | exact Hn1]. }
  destruct w as [a|wid kv|i xs]; try exact Hbase.
  destruct (match d_get s_type (PD wid kv) with Some v => atom_is_str s_object v | None => false end); [|exact Hbase].
  apply rewrite_properties_inv; [exact Hbase|]. apply (ge_root m (PD wid kv)); [exact Hw | reflexivity].
Qed.

(* the two inner loops of transform *)
Definition tr_list (tr : N -> pv -> option cst) : N -> list pv -> option (list pv * wlog * N) :=
  fix go (n : N) (l : list pv) : option (list pv * wlog * N) :=
  match l with
  | [] => Some ([], [], n)
  | x :: r =>
      match tr n x with
      | None => None
      | Some (x', lx, n1) =>
          match go n1 r with
          | None => None
          | Some (r', lr, n2) => Some (x' :: r', lx ++ lr, n2)
          end
      end
  end.
Definition tr_items (tr : N -> pv -> option cst) (wid : N) : pv -> wlog -> N -> list (str * pv) -> option cst :=
  fix go (w : pv) (lg : wlog) (n : N) (items : list (str * pv)) : option cst :=
  match items with
  | [] => Some (w, lg, n)
  | (k, _) :: r =>
      match d_get k w with
      | None => go w lg n r
      | Some sub =>
          match tr n sub with
          | None => None
          | Some (c, lgc, n1) => go (upd wid (MSet k c) (apply_log lgc w)) (lg ++ lgc ++ [(wid, MSet k c)]) n1 r
          end
      end
  end.
Lemma transform_S f copy resp n t :
  transform (S f) copy resp n t =
  match t with
  | PA _ => Some (t, [], n)
  | PL _ xs => match tr_list (transform f copy resp) (n + 1)%N xs with
               | None => None
               | Some (xs', lg, n') => Some (PL n xs', lg, n')
               end
  | PD _ _ => let '(w, lg0, n1) := to_json_schema copy resp n t in
              match w with
              | PD wid kv => tr_items (transform f copy resp) wid w lg0 n1 kv
              | _ => Some (w, lg0, n1)
              end
  end.
Proof. destruct t; reflexivity. Qed.

Section TransformInv.
  Variables (m : N) (copy : bool) (tr : N -> pv -> option cst).
  Hypothesis Htr : forall n t r, (copy = true \/ ge_ids m t = true) -> (m <= n)%N -> tr n t = Some r -> inv m r.

  Lemma tr_list_inv : forall l n0 xs' lg n2,
    (m <= n0)%N -> (copy = true \/ forallb (ge_ids m) l = true) -> tr_list tr n0 l = Some (xs', lg, n2) ->
    forallb (ge_ids m) xs' = true /\ log_ok m lg = true /\ (m <= n2)%N.
  Proof.
    induction l as [|x r IH]; intros n0 xs' lg n2 Hn Hc E.
    - cbn [tr_list] in E. inversion E; subst. repeat split; try reflexivity; exact Hn.
    - cbn [tr_list] in E. destruct (tr n0 x) as [[[x' lx] n1]|] eqn:Ex; [|discriminate].
      destruct (tr_list tr n1 r) as [[[r' lr] n2']|] eqn:Er; [|discriminate]. inversion E; subst. clear E.
      assert (Hx : inv m (x', lx, n1)).
      { apply (Htr n0 x); [|exact Hn|exact Ex]. destruct Hc as [Hc|Hc]; [left; exact Hc|right]. cbn [forallb] in Hc. apply andb_true_iff in Hc. apply Hc. }
      destruct Hx as [Hx1 [Hx2 Hx3]]. unfold cst_w in Hx1. cbn [fst snd] in *.
      destruct (IH n1 r' lr n2 Hx3) as [Hr1 [Hr2 Hr3]]; [|exact Er|].
      { destruct Hc as [Hc|Hc]; [left; exact Hc|right]. cbn [forallb] in Hc. apply andb_true_iff in Hc. apply Hc. }
      repeat split; [cbn [forallb]; rewrite Hx1; exact Hr1 | apply log_ok_app; assumption | exact Hr3].
  Qed.

  Lemma tr_items_inv wid : forall items w lg n0 r,
    inv m (w, lg, n0) -> (m <= wid)%N -> tr_items tr wid w lg n0 items = Some r -> inv m r.
  Proof.
    induction items as [|[k v0] items IH]; intros w lg n0 r Hs Hw E.
    - cbn [tr_items] in E. inversion E; subst. exact Hs.
    - cbn [tr_items] in E. destruct (d_get k w) as [sub|] eqn:Eg; [|apply (IH w lg n0 r Hs Hw E)].
      destruct (tr n0 sub) as [[[c lgc] n1]|] eqn:Et; [|discriminate].
      destruct Hs as [Hs1 [Hs2 Hs3]]. unfold cst_w in Hs1. cbn [fst snd] in *.
      assert (Hc : inv m (c, lgc, n1)).
      { apply (Htr n0 sub); [right; apply (ge_d_get m k w); assumption | exact Hs3 | exact Et]. }
      destruct Hc as [Hc1 [Hc2 Hc3]]. unfold cst_w in Hc1. cbn [fst snd] in *.
      apply (IH (upd wid (MSet k c) (apply_log lgc w)) (lg ++ lgc ++ [(wid, MSet k c)]) n1 r); [|exact Hw|exact E]. unfold inv, cst_w. cbn [fst snd]. repeat split.
      + apply ge_upd; [apply ge_apply_log; assumption | exact Hc1].
      + apply log_ok_app; [exact Hs2|]. apply log_ok_app; [exact Hc2|]. unfold log_ok. cbn [forallb fst snd mut_ge].
        rewrite Hc1. apply N.leb_le in Hw. rewrite Hw. reflexivity.
      + exact Hc3.
  Qed.
End TransformInv.

Lemma transform_inv m copy resp : forall fuel n t r,
  (copy = true \/ ge_ids m t = true) -> (m <= n)%N -> transform fuel copy resp n t = Some r -> inv m r.
Proof.
  induction fuel as [|f IH]; intros n t r Hc Hn E; [discriminate|].
  rewrite transform_S in E. destruct t as [a|i kv|i xs].
  - inversion E; subst. unfold inv, cst_w. cbn [fst snd]. repeat split; try reflexivity; exact Hn.
  - pose proof (to_json_schema_inv m copy resp n (PD i kv) Hc Hn) as Hl.
    destruct (to_json_schema copy resp n (PD i kv)) as [[w lg0] n1].
    destruct w as [a|wid kv'|j xs]; try (inversion E; subst; exact Hl).
    apply (tr_items_inv m copy (transform f copy resp) IH wid kv' (PD wid kv') lg0 n1 r Hl); [|exact E].
    apply (ge_root m (PD wid kv')); [apply (inv_w _ _ Hl) | reflexivity].
  - destruct (tr_list (transform f copy resp) (n + 1)%N xs) as [[[xs' lg] n']|] eqn:El; [|discriminate]. inversion E; subst. clear E.
    destruct (tr_list_inv m copy (transform f copy resp) IH xs (n + 1)%N xs' lg n') as [H1 [H2 H3]]; [lia| |exact El|].
    { destruct Hc as [Hc|Hc]; [left; exact Hc|right]. unfold ge_ids in Hc. rewrite all_ids_PL in Hc. apply andb_true_iff in Hc. apply Hc. }
    unfold inv, cst_w. cbn [fst snd]. repeat split; [apply ge_fresh_list; assumption | exact H2 | exact H3].
Qed.

Lemma inv_frame n s o : inv n s -> lt_ids n o = true -> apply_log (snd (fst s)) o = o.
Proof. intros [_ [H _]] Ho. apply (apply_log_frame n); [exact Ho | apply log_ok_targets; exact H]. Qed.

Lemma transform_frame m copy resp fuel n t r lg n' o :
  (copy = true \/ ge_ids m t = true) -> (m <= n)%N -> transform fuel copy resp n t = Some (r, lg, n') ->
  lt_ids m o = true -> apply_log lg o = o.
Proof. intros Hc Hn E. exact (inv_frame m _ o (transform_inv m copy resp fuel n t _ Hc Hn E)). Qed.

(* every event is a conversion that copies first, or the in-place conversion of a clone
   (rewritten_components: transform(deepclone(schema), callback with copy = False)) *)
Lemma step_pure fuel store ev s' : step fuel true store ev = Some s' -> s' = store.
Proof.
  pose proof (lt_bound store) as Hlt.
  destruct ev as [loc resp|body|loc]; cbn [step].
  - destruct (d_get loc store) as [doc|]; [|intros E; inversion E; reflexivity].
    destruct (transform fuel true resp (bound store) doc) as [[[r lg] n']|] eqn:Et; [|discriminate].
    intros E. inversion E; subst.
    exact (transform_frame _ _ _ _ _ _ _ _ _ _ (or_introl eq_refl) (N.le_refl _) Et Hlt).
  - unfold gen_schema. destruct (label (bound store) body) as [b n1].
    destruct (inline fuel store n1 b) as [[b' n2]|]; [|intros E; inversion E; reflexivity].
    destruct (transform fuel true false (N.max (N.max n2 (bound b')) (bound store)) b') as [[[r lg] n']|] eqn:Et;
      [|intros E; inversion E; reflexivity].
    intros E. inversion E; subst.
    exact (transform_frame _ _ _ _ _ _ _ _ _ _ (or_introl eq_refl) (N.le_max_r _ _) Et Hlt).
  - destruct (d_get loc store) as [doc|]; [|intros E; inversion E; reflexivity]. unfold deepclone.
    destruct (transform fuel false false (bound store + bound doc)%N (shift (bound store) doc)) as [[[r lg] n']|] eqn:Et; [|discriminate].
    intros E. inversion E; subst.
    exact (transform_frame _ _ _ _ _ _ _ _ _ _ (or_intror (ge_shift _ _)) (N.le_add_r _ _) Et Hlt).
Qed.

Lemma no_rewrite_cons s steps :
  no_rewrite_step (s :: steps) = true -> is_rewrite_step s = false /\ no_rewrite_step steps = true.
Proof. unfold no_rewrite_step. cbn [existsb]. rewrite negb_orb, andb_true_iff, negb_true_iff. auto. Qed.

(* rewrite_kw is update_pattern_in_schema of section 3 on the three keywords of the dict *)
Lemma rewrite_kw_spec k k' p : rewrite_kw k = Some k' -> k_pattern k = Some p ->
  exists p', k_pattern k' = Some p' /\ update_pattern_in_schema p (k_min k) (k_max k) = Some (p', k_min k', k_max k').
Proof.
  intros H Hp. unfold rewrite_kw in H. rewrite Hp in H. unfold update_pattern_in_schema.
  destruct p as [|x p0]; [inversion H; subst; eauto|].
  destruct (py_truthy (k_min k) || py_truthy (k_max k)); [|inversion H; subst; eauto].
  destruct (update_quantifier (x :: p0) (k_min k) (k_max k)) as [|q|]; [inversion H; subst; eauto | | discriminate].
  inversion H; subst. cbn. eauto.
Qed.

Lemma rewrite_kw_idle k : py_truthy (k_min k) || py_truthy (k_max k) = false -> rewrite_kw k = Some k.
Proof.
  intros H. unfold rewrite_kw. destruct (k_pattern k) as [[|x p]|]; try reflexivity. rewrite H. reflexivity.
Qed.

Lemma rewrite_kw_changed k k' : rewrite_kw k = Some k' ->
  k' = k \/ py_truthy (k_min k) || py_truthy (k_max k) = true.
Proof.
  intros H. unfold rewrite_kw in H. destruct (k_pattern k) as [[|x p]|]; try (inversion H; auto; fail).
  destruct (py_truthy (k_min k) || py_truthy (k_max k)) eqn:E; [|inversion H; auto].
  right. reflexivity.
Qed.

(* What the steps other than the rewriter may do to a property: pattern, rewritten flag and maxLength stay,
   minLength stays or goes from absent to 1. *)
Definition kept (g g' : gprop) : Prop :=
  g_pattern g' = g_pattern g /\ g_rewritten g' = g_rewritten g /\ k_max (g_kw g') = k_max (g_kw g) /\
  (k_min (g_kw g') = k_min (g_kw g) \/ (k_min (g_kw g) = None /\ k_min (g_kw g') = Some 1)).

Lemma kept_refl g : kept g g.
Proof. unfold kept. repeat split. left. reflexivity. Qed.

Lemma kept_trans g1 g2 g3 : kept g1 g2 -> kept g2 g3 -> kept g1 g3.
Proof.
  unfold kept. intros (P1 & R1 & X1 & M1) (P2 & R2 & X2 & M2). rewrite P2, R2, X2, P1, R1, X1. repeat split.
  destruct M2 as [M2|[M2a M2b]], M1 as [M1|[M1a M1b]]; [left | right; split | right; split | ]; congruence.
Qed.

Lemma apply_step_keeps l s g : is_rewrite_step s = false -> exists g', apply_step l s g = Some g' /\ kept g g'.
Proof.
  intros Hs. destruct s; try discriminate Hs; cbn [apply_step].
  - destruct (is_header_loc l); eexists; (split; [reflexivity|]); [|apply kept_refl].
    destruct g; unfold kept; cbn; repeat split; auto.
  - destruct (is_path_loc l); eexists; (split; [reflexivity|]); [|apply kept_refl].
    destruct g as [k|t m k]; [destruct (is_string (k_type k)) | destruct (is_string t)]; try apply kept_refl; unfold kept; cbn; repeat split; auto.
    destruct (k_min k); cbn; auto.
  - destruct (is_header_loc l); eexists; (split; [reflexivity|]); [|apply kept_refl].
    destruct g as [k|t m k]; [destruct (only_type_string k)|]; try apply kept_refl. unfold kept; cbn; repeat split; auto.
Qed.

Lemma run_steps_keeps l steps : forall g, no_rewrite_step steps = true ->
  exists g', run_steps l steps g = Some g' /\ kept g g'.
Proof.
  induction steps as [|s steps IH]; intros g Hn; cbn [run_steps].
  - exists g. split; [reflexivity | apply kept_refl].
  - apply no_rewrite_cons in Hn. destruct Hn as [Hs Hn].
    destruct (apply_step_keeps l s g Hs) as (g1 & -> & K1). destruct (IH g1 Hn) as (g' & -> & K2).
    exists g'. split; [reflexivity | exact (kept_trans _ _ _ K1 K2)].
Qed.

(* the dict update_pattern_in_schema is given: the keywords the author wrote *)
Definition decl_kw (d : decl) : kw :=
  mkKw (d_type d) (d_pattern d) false (d_min d) (d_max d) (d_other d || is_nfalse (d_nullable d)) false.

(* with a declared length, pipeline_region is the premise list of the rewriter's soundness on the declared bounds *)
Lemma pipeline_region_declared d p s :
  d_pattern d = Some p -> declared_length d = true -> pipeline_region d s = true ->
  wf_pattern p = true /\ max_small (d_max d) = true /\ anchored_for_max p (d_max d) = true /\
  dollar_newline_ok p (d_max d) s = true /\ unit_bodies p = true /\
  not_max_zero_multi p (d_min d) (d_max d) = true /\ not_single_char_anchored p (d_max d) = true.
Proof. unfold pipeline_region. intros -> ->. cbn [negb orb]. rewrite !andb_true_iff. tauto. Qed.

(* The generation schema of a parameter is what update_pattern_in_schema makes of the declared keywords, up to [kept];
   the only step that can raise is that call. *)
Lemma gen_prop_with_spec steps l d : no_rewrite_step steps = true ->
  match rewrite_kw (decl_kw d) with
  | Some k' => exists g, gen_prop_with steps l d = Some g /\ kept (GPlain k') g
  | None => gen_prop_with steps l d = None
  end.
Proof.
  intros Hn. unfold gen_prop_with, as_json_schema, convert, decl_kw. cbv zeta.
  destruct (rewrite_kw _) as [k'|]; [|reflexivity].
  set (g0 := if is_ntrue (d_nullable d) then GNullable None None k' else GPlain k').
  assert (K0 : kept (GPlain k') g0) by (unfold g0; destruct (is_ntrue _); unfold kept; cbn; repeat split; auto).
  destruct (apply_step_keeps l SHeaderType g0 eq_refl) as (g1 & E1 & K1).
  destruct (run_steps_keeps l steps g1 Hn) as (g & E2 & K2).
  exists g. split; [cbv iota; rewrite E1; exact E2 | exact (kept_trans _ _ _ (kept_trans _ _ _ K0 K1) K2)].
Qed.

Lemma assoc_get_map_steps l steps : forall props props' name g', map_steps l steps props = Some props' ->
  assoc_get name props' = Some g' -> exists g, assoc_get name props = Some g /\ run_steps l steps g = Some g'.
Proof.
  induction props as [|[n g] props IH]; intros props' name g' H Hg.
  - inversion H; subst. discriminate.
  - cbn [map_steps] in H. destruct (run_steps l steps g) as [g1|] eqn:E1; [|discriminate].
    destruct (map_steps l steps props) as [r|] eqn:E2; [|discriminate]. inversion H; subst.
    cbn [assoc_get] in *. destruct (str_eqb name n); [inversion Hg; subst; eauto|]. eapply IH; eauto.
Qed.

Lemma map_steps_keys l steps : forall props props', map_steps l steps props = Some props' -> map fst props' = map fst props.
Proof.
  induction props as [|[n g] props IH]; intros props' H; [inversion H; reflexivity|].
  cbn [map_steps] in H. destruct (run_steps l steps g); [|discriminate]. destruct (map_steps l steps props) eqn:E; [|discriminate].
  inversion H; subst. cbn. f_equal. apply IH; reflexivity.
Qed.

Lemma params_to_schema_get l : forall ps props req props' req' name g,
  params_to_schema l ps props req = Some (props', req') -> assoc_get name props' = Some g ->
  assoc_get name props = Some g \/ exists p, In p ps /\ p_name p = name /\ as_json_schema l (p_decl p) = Some g.
Proof.
  induction ps as [|p ps IH]; intros props req props' req' name g H Hg.
  - inversion H; subst. auto.
  - cbn [params_to_schema] in H. destruct (as_json_schema l (p_decl p)) as [g0|] eqn:E; [|discriminate].
    destruct (IH _ _ _ _ _ _ H Hg) as [Hin|(q & Hq & Hn & Hs)].
    + destruct (str_eqb name (p_name p)) eqn:En.
      * apply str_eqb_spec in En. subst name. rewrite assoc_get_set_same in Hin. inversion Hin; subst.
        right. exists p. split; [left; reflexivity|auto].
      * rewrite assoc_get_set_other in Hin by exact En. auto.
    + right. exists q. split; [right; exact Hq|auto].
Qed.

Lemma assoc_set_has {A} k (v : A) l k' : has_key k' (map fst (assoc_set k v l)) = has_key k' (map fst l) || str_eqb k' k.
Proof.
  induction l as [|[k0 v0] l IH]; cbn [assoc_set map fst has_key existsb].
  - rewrite orb_false_r. reflexivity.
  - destruct (str_eqb k k0) eqn:E; cbn [map fst existsb].
    + apply str_eqb_spec in E. subst k0. destruct (str_eqb k' k); cbn; [reflexivity|]. rewrite orb_false_r. reflexivity.
    + unfold has_key in IH. rewrite IH. rewrite orb_assoc. reflexivity.
Qed.

Lemma params_to_schema_keys l : forall ps props req props' req',
  params_to_schema l ps props req = Some (props', req') ->
  forall name, has_key name (map fst props') = has_key name (map fst props) || existsb (fun p => str_eqb name (p_name p)) ps.
Proof.
  induction ps as [|p ps IH]; intros props req props' req' H name.
  - inversion H; subst. cbn. rewrite orb_false_r. reflexivity.
  - cbn [params_to_schema] in H. destruct (as_json_schema l (p_decl p)) as [g0|]; [|discriminate].
    rewrite (IH _ _ _ _ H name). rewrite assoc_set_has. cbn [existsb]. rewrite orb_assoc. reflexivity.
Qed.

(* digits 0-9 go to '0'-'9' and 10-15 to 'A'-'F', which hex_val reads as digits and as upper case letters *)
Lemma hex_roundtrip n : (n < 16)%N -> hex_val (hex_digit n) = n.
Proof.
  intros H. unfold hex_val, hex_digit, is_digit, is_upper. destruct (N.ltb_spec n 10) as [Hd|Hd].
  - replace (48 <=? 48 + n)%N with true by (symmetry; apply N.leb_le; lia).
    replace (48 + n <=? 57)%N with true by (symmetry; apply N.leb_le; lia). cbn [andb]. lia.
  - replace (55 + n <=? 57)%N with false by (symmetry; apply N.leb_gt; lia). rewrite andb_false_r.
    replace (65 <=? 55 + n)%N with true by (symmetry; apply N.leb_le; lia).
    replace (55 + n <=? 90)%N with true by (symmetry; apply N.leb_le; lia). cbn [andb]. lia.
Qed.

Lemma unquote_quote_byte b rest : (b < 256)%N ->
  unquote_plus_bytes (quote_byte b ++ rest) = b :: unquote_plus_bytes rest.
Proof.
  intros Hb. unfold quote_byte.
  destruct (quote_safe b) eqn:Hs.
  - cbn [app unquote_plus_bytes].
    destruct (b =? 43)%N eqn:E1; [apply N.eqb_eq in E1; subst; discriminate Hs|].
    destruct (b =? 37)%N eqn:E2; [apply N.eqb_eq in E2; subst; discriminate Hs|]. reflexivity.
  - destruct (b =? 32)%N eqn:E3.
    + apply N.eqb_eq in E3; subst. reflexivity.
    + cbn [app unquote_plus_bytes]. change (37 =? 43)%N with false. change (37 =? 37)%N with true. cbv iota.
      rewrite !hex_roundtrip.
      * f_equal. pose proof (N.div_mod' b 16). lia.
      * apply N.mod_lt; lia.
      * apply N.div_lt_upper_bound; lia.
Qed.

Lemma unquote_quote_bytes bs : Forall (fun b => (b < 256)%N) bs ->
  unquote_plus_bytes (flat_map quote_byte bs) = bs.
Proof.
  induction 1 as [|b bs Hb _ IH]; [reflexivity|].
  cbn [flat_map]. rewrite unquote_quote_byte by exact Hb. rewrite IH. reflexivity.
Qed.

(* every byte of the encoding is a marker plus a residue that fits under it *)
Lemma mod_byte k x m : ((0 <? m) && (k + m <=? 256))%N = true -> (k + x mod m < 256)%N.
Proof.
  intros H. apply andb_true_iff in H. destruct H as [H1 H2]. apply N.ltb_lt in H1. apply N.leb_le in H2.
  pose proof (N.mod_lt x m). lia.
Qed.

Lemma utf8_c_bytes c : Forall (fun b => (b < 256)%N) (utf8_c c).
Proof.
  unfold utf8_c. change (c mod 128)%N with (0 + c mod 128)%N.   (* the one byte without a marker, in the shape of mod_byte *)
  destruct (c <? 128)%N; [|destruct (c <? 2048)%N; [|destruct (c <? 65536)%N]]; repeat constructor; apply mod_byte; reflexivity.
Qed.

Lemma utf8_bytes s : Forall (fun b => (b < 256)%N) (utf8 s).
Proof.
  induction s as [|c s IH]; [constructor|]. unfold utf8 in *. cbn [flat_map].
  apply Forall_app. split; [apply utf8_c_bytes|exact IH].
Qed.

Lemma unquote_quote_plus s : unquote_plus_bytes (quote_plus s) = utf8 s.
Proof. unfold quote_plus. apply unquote_quote_bytes, utf8_bytes. Qed.

Lemma coerced_path g : coerced LPath g (jsonify_val (quote_val g)) = true.
Proof.
  destruct g as [s|[|]| |z]; [|reflexivity|reflexivity|reflexivity|cbn; apply Z.eqb_refl].
  cbn [quote_val].
  destruct (str_eqb s [46%N]) eqn:E1; [apply str_eqb_spec in E1; subst; reflexivity|].
  destruct (str_eqb s [46; 46]%N) eqn:E2; [apply str_eqb_spec in E2; subst; reflexivity|].
  cbn [jsonify_val coerced]. rewrite unquote_quote_plus. apply str_eqb_refl.
Qed.
Lemma all_coerced_map l f c : (forall g, coerced l g (f g) = true) -> all_coerced l c (map_vals f c) = true.
Proof.
  intros Hf. induction c as [|[n g] c IH]; [reflexivity|].
  cbn [map_vals map all_coerced fst snd]. rewrite str_eqb_refl, Hf. exact IH.
Qed.

Lemma run_filter l rest c c' : run_vsteps (VFilter l :: rest) c = Some c' -> run_vsteps rest c = Some c'.
Proof. cbn [run_vsteps apply_vstep]. destruct (forallb (entry_valid l) c); [auto | discriminate]. Qed.

Lemma value_chain_is_map l skip c c' :
  run_vsteps (value_chain l skip) c = Some c' -> c' = map_vals (chain_fun l) c.
Proof.
  destruct l; cbn [value_chain]; intros H.
  - apply run_filter in H. cbn [run_vsteps apply_vstep] in H. inversion H. unfold map_vals. rewrite map_map. reflexivity.
  - apply run_filter in H. cbn [run_vsteps apply_vstep] in H. inversion H. reflexivity.
  - cbn [run_vsteps apply_vstep] in H. destruct skip; [|apply run_filter in H]; inversion H; reflexivity.
  - cbn [run_vsteps apply_vstep] in H. destruct skip; [|apply run_filter in H]; inversion H; reflexivity.
Qed.

Lemma chain_fun_coerced l g : coerced l g (chain_fun l g) = true.
Proof.
  destruct l; cbn [chain_fun].
  - apply coerced_path.
  - destruct g as [s|[|]| |z]; [cbn; apply str_eqb_refl|reflexivity|reflexivity|reflexivity|cbn; apply Z.eqb_refl].
  - cbn [coerced]. apply str_eqb_refl.
  - cbn [coerced]. apply str_eqb_refl.
Qed.
