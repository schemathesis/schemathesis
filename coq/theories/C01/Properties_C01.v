(* C01 property theorems, each followed by Print Assumptions.  catp (the Unicode tables behind \d \s \w) is
   universally quantified: the statements hold for every category table. *)
From Coq Require Import List NArith ZArith Bool.
From Verif Require Import Common.Str Common.Json C01.Model_C01 C01.Proofs_C01.
Import ListNotations.
Open Scope Z_scope.

(* Pattern / length merging is sound inside the regions: whenever update_quantifier rewrites the
   pattern (so that update_pattern_in_schema drops minLength / maxLength), every string the new
   pattern accepts under re.search semantics is accepted by the original pattern AND respects both
   length bounds. *)
Theorem C01_rewrite_sound_partial : forall catp p mn mx s p',
  update_quantifier p mn mx = Rewritten p' ->
  wf_pattern p = true -> max_small mx = true ->
  anchored_for_max p mx = true -> dollar_newline_ok p mx s = true ->
  unit_bodies p = true -> not_max_zero_multi p mn mx = true -> not_single_char_anchored p mx = true ->
  search catp p' s -> search catp p s /\ len_in mn mx s = true.
Proof. exact rewrite_sound. Qed.
Print Assumptions C01_rewrite_sound_partial.

(* the same at the level of the schema keywords (converter.update_pattern_in_schema) *)
Theorem C01_schema_keywords_sound_partial : forall catp p mn mx s p' mn' mx',
  update_pattern_in_schema p mn mx = Some (p', mn', mx') ->
  wf_pattern p = true -> max_small mx = true ->
  anchored_for_max p mx = true -> dollar_newline_ok p mx s = true ->
  unit_bodies p = true -> not_max_zero_multi p mn mx = true -> not_single_char_anchored p mx = true ->
  search catp p' s -> len_in mn' mx' s = true -> search catp p s /\ len_in mn mx s = true.
Proof.
  intros catp p mn mx s p' mn' mx' H Hwf Hsm Hanch Hdoll Hunit Hzero Hsingle Hs Hl. unfold update_pattern_in_schema in H.
  destruct p as [|x p0]; [inversion H; subst; auto|].
  destruct (py_truthy mn || py_truthy mx); [|inversion H; subst; auto].
  destruct (update_quantifier (x :: p0) mn mx) as [|q|] eqn:E; [inversion H; subst; auto | | discriminate].
  inversion H; subst. eapply C01_rewrite_sound_partial; eauto.
Qed.
Print Assumptions C01_schema_keywords_sound_partial.

(* ... and the unrestricted statement is false of the code as it is: one witness per region, every
   OTHER region predicate true (other_regions lists them in the order of the hypotheses above) *)
Theorem C01_rewrite_sound_refuted_unanchored : forall catp,
  refutes catp w_unanchored None (Some 5) s_a6 [true; true; false; true; true; true; true].
Proof. intros catp. eapply refutes_by_length; [vm_compute; reflexivity ..]. Qed.
Print Assumptions C01_rewrite_sound_refuted_unanchored.

Theorem C01_rewrite_sound_refuted_dollar_newline : forall catp,
  refutes catp w_dollar None (Some 5) s_abcde_nl [true; true; true; false; true; true; true].
Proof. intros catp. eapply refutes_by_length; [vm_compute; reflexivity ..]. Qed.
Print Assumptions C01_rewrite_sound_refuted_dollar_newline.

Theorem C01_rewrite_sound_refuted_multichar_body : forall catp,
  refutes catp w_multichar None (Some 5) s_ababab [true; true; true; true; false; true; true].
Proof. intros catp. eapply refutes_by_length; [vm_compute; reflexivity ..]. Qed.
Print Assumptions C01_rewrite_sound_refuted_multichar_body.

Theorem C01_rewrite_sound_refuted_max_zero : forall catp,
  refutes catp w_maxzero None (Some 1) s_abb [true; true; true; true; true; false; true].
Proof. intros catp. eapply refutes_by_length; [vm_compute; reflexivity ..]. Qed.
Print Assumptions C01_rewrite_sound_refuted_max_zero.

(* here the lengths are fine: the ORIGINAL pattern does not match the generated value *)
Theorem C01_rewrite_sound_refuted_single_char : forall catp,
  refutes catp w_single None (Some 5) s_abc [true; true; true; true; true; true; false].
Proof.
  intros catp. eexists. split; [vm_compute; reflexivity|]. split; [vm_compute; reflexivity|].
  split; [apply search_b_sound; vm_compute; reflexivity|].
  intros [(pre & mid & post & Hs & HM) _]. unfold w_single in HM.
  (* between ^ and $ stands one character node: mid is one character, pre is empty, post is empty or a newline *)
  apply (anchors_frame catp (NAt AtBeg) [cls_az] (NAt AtEnd) _ _ _ eq_refl eq_refl) in HM. destruct HM as (Ha & Hx & Hb).
  apply MSeq_single, (char_node_spec catp cls_az _ _ _ eq_refl) in Hx. destruct Hx as (d & -> & _).
  apply M_at_inv in Ha. destruct Ha as [_ Ea]. apply M_at_inv in Hb. destruct Hb as [_ Eb]. cbn [at_okb] in Ea, Eb.
  destruct pre; [|discriminate Ea]. destruct post as [|c [|c' post]]; discriminate.
Qed.
Print Assumptions C01_rewrite_sound_refuted_single_char.

(* _distribute_length_constraints: the pairs it returns stay inside the original quantifier bounds,
   their minima add up to at least minLength and their maxima to at most maxLength (unless the
   remaining maxLength is 0, which the code reads as absent) *)
Theorem C01_distribute_sound : forall bounds mn mx dist,
  Forall wf_b bounds -> is_neg mn = false -> is_neg mx = false ->
  distribute bounds mn mx = Some dist ->
  Forall2 bound_rel bounds dist /\
  (forall m, mn = Some m -> m <= sum_lo dist) /\
  (forall m, mx = Some m -> m < MAXREPEAT -> (m <> 0 \/ opt_eqb mn mx = true) -> sum_hi dist <= m).
Proof. intros bounds mn mx dist Hwf _ _. apply distribute_spec. exact Hwf. Qed.
Print Assumptions C01_distribute_sound.

(* patterns._build_size: the new bounds lie inside the quantifier's own and inside minLength / maxLength *)
Theorem C01_build_size_narrows : forall lo hi mn mx l h, build_size lo hi mn mx = (l, h) ->
  lo <= l /\ (h <= hi \/ hi = MAXREPEAT) /\ (forall m, mn = Some m -> m <= l) /\ (forall m, mx = Some m -> h <= m).
Proof. exact build_size_narrows. Qed.
Print Assumptions C01_build_size_narrows.

(* the executable matcher used for the witnesses and compared with re.search on every run is sound *)
Theorem C01_matcher_sound : forall catp p s, search_b catp p s = true -> search catp p s.
Proof. exact search_b_sound. Qed.
Print Assumptions C01_matcher_sound.

(* non-vacuity of the partial theorem on both rewriting paths, with the table ascii_cat (the theorem holds for every table) *)
Theorem C01_hypotheses_satisfiable_single :
  exists p', update_quantifier w_ok (Some 2) (Some 5) = Rewritten p' /\
  other_regions w_ok (Some 2) (Some 5) s_abc = [true; true; true; true; true; true; true] /\
  search ascii_cat p' s_abc /\ p' <> w_ok.
Proof.
  eexists. split; [vm_compute; reflexivity|]. split; [vm_compute; reflexivity|].
  split; [apply search_b_sound; vm_compute; reflexivity | discriminate].
Qed.
Print Assumptions C01_hypotheses_satisfiable_single.

Theorem C01_hypotheses_satisfiable_multi :
  exists p', update_quantifier w_ok_multi (Some 3) (Some 6) = Rewritten p' /\
  other_regions w_ok_multi (Some 3) (Some 6) s_plus12 = [true; true; true; true; true; true; true] /\
  search ascii_cat p' s_plus12 /\ p' <> w_ok_multi.
Proof.
  eexists. split; [vm_compute; reflexivity|]. split; [vm_compute; reflexivity|].
  split; [apply search_b_sound; vm_compute; reflexivity | discriminate].
Qed.
Print Assumptions C01_hypotheses_satisfiable_multi.

(* converter.forbid_properties: not: {required: [names]} keeps read-only properties out of the
   request when there is exactly one of them; with two it lets one through (the next theorem) *)
Theorem C01_forbid_readonly_partial : forall names keys,
  readonly_le1 names = true -> forbid_valid names keys = sends_no_readonly names keys.
Proof.
  intros [|n [|n' names]] keys H; try discriminate H.
  unfold forbid_valid, sends_no_readonly. cbn [forallb existsb]. rewrite andb_true_r, orb_false_r. reflexivity.
Qed.
Print Assumptions C01_forbid_readonly_partial.

Theorem C01_forbid_readonly_refuted : exists names keys,
  forbid_valid names keys = true /\ sends_no_readonly names keys = false.
Proof. exists [[97]; [98]]%N, [[99]; [97]]%N. split; reflexivity. Qed.
Print Assumptions C01_forbid_readonly_refuted.

(* converter.rewrite_properties as a whole (properties / required / not.required / additionalProperties) on key sets:
   with at most one read-only property the converted request schema accepts exactly what a client may send;
   and a closed object (additionalProperties: false) never lets a read-only property through, whatever their number *)
Theorem C01_rewrite_properties_partial : forall props required ro closed keys,
  readonly_le1' ro = true ->
  converted_accepts props required ro closed keys = request_view_accepts props required ro closed keys.
Proof.
  intros props required ro closed keys H. unfold converted_accepts, request_view_accepts.
  destruct ro as [|n [|n' ro]]; try discriminate H; [reflexivity|].
  rewrite (C01_forbid_readonly_partial [n] keys eq_refl). reflexivity.
Qed.
Print Assumptions C01_rewrite_properties_partial.

Theorem C01_rewrite_properties_closed_clean : forall props required ro keys,
  converted_accepts props required ro true keys = true -> sends_no_readonly ro keys = true.
Proof.
  (* closed objects cannot leak: the extra key would have to be a remaining property name *)
  intros props required ro keys H. unfold converted_accepts in H. apply andb_true_iff in H. destruct H as [_ H].
  cbn [negb orb] in H. unfold subset_keys in H. rewrite forallb_forall in H.
  unfold sends_no_readonly. apply negb_true_iff, not_true_iff_false. intros E.
  apply existsb_exists in E. destruct E as (n & Hn & Hk). apply has_key_In in Hk.
  specialize (H n Hk). apply has_key_In, filter_In in H. destruct H as [_ H].
  apply negb_true_iff in H. apply has_key_In in Hn. congruence.
Qed.
Print Assumptions C01_rewrite_properties_closed_clean.

(* converter.to_json_schema, nullable (3.x) / x-nullable (2.0), tri-state absent / true / false, applied to every nested schema:
   the converted JSON Schema accepts null exactly when the effective keyword is true ... *)
Theorem C01_nullable_null_iff : forall use_x s, jvalid (conv use_x s) VNull = true <-> eff use_x s = NTrue.
Proof.
  intros d s. rewrite conv_unfold, wrap_null.
  - destruct (eff d s); cbn; split; congruence.
  - destruct s as [? ? t| |]; [destruct t|..]; reflexivity.
Qed.
Print Assumptions C01_nullable_null_iff.

(* ... and at every depth: Draft 4 validity of the converted schema is the Open API meaning, for all values *)
Theorem C01_nullable_conversion_preserves : forall use_x s v, jvalid (conv use_x s) v = oas_valid use_x s v.
Proof.
  intros d. induction s as [n xn t | n xn it IH | n xn props req IH] using oas_ind'; intros v; rewrite conv_unfold.
  - destruct v; try (rewrite wrap_nonnull by discriminate; reflexivity).
    rewrite wrap_null by (destruct t; reflexivity). reflexivity.
  - destruct v; try (rewrite wrap_nonnull by discriminate; reflexivity).
    + rewrite wrap_null by reflexivity. reflexivity.
    + rewrite wrap_nonnull by discriminate. cbn [jvalid oas_valid].
      induction l as [|x l IHl]; [reflexivity|]. cbn [forallb]. rewrite IH, IHl. reflexivity.
  - destruct v; try (rewrite wrap_nonnull by discriminate; reflexivity).
    + rewrite wrap_null by reflexivity. reflexivity.
    + rewrite wrap_nonnull by discriminate. cbn [jvalid oas_valid]. f_equal.
      induction IH as [|[k p] ps Hp _ IHps]; [reflexivity|]. cbn [map fst snd] in *.
      rewrite IHps. destruct (vget k l); [rewrite Hp|]; reflexivity.
Qed.
Print Assumptions C01_nullable_conversion_preserves.

Theorem C01_nullable_examples :
  jvalid (conv false o_example) (VObj [([97]%N, VNull); ([98]%N, VArr [VInt])]) = true /\
  jvalid (conv false o_example) (VObj [([97]%N, VStr); ([98]%N, VArr [VNull])]) = false /\
  jvalid (conv false o_example) VNull = false /\
  jvalid (conv true o_example) (VObj [([97]%N, VNull)]) = false /\
  jvalid (conv true o_example) (VObj [([97]%N, VStr); ([98]%N, VNull)]) = true.
Proof. vm_compute. repeat split. Qed.
Print Assumptions C01_nullable_examples.

(* generation settings.  The alphabet of generated header / cookie values respects every codec except ascii ... *)
Theorem C01_header_alphabet_codec_partial : forall allow_x00 cd c,
  cd <> CodecAscii -> header_char_ok allow_x00 c = true -> codec_ok cd c = true.
Proof.
  intros a cd c Hcd H. unfold header_char_ok in H. rewrite !andb_true_iff in H. destruct H as [[[H _] _] _].
  destruct cd; [contradiction | exact H | reflexivity].
Qed.
Print Assumptions C01_header_alphabet_codec_partial.

Theorem C01_header_alphabet_codec_refuted : exists c, header_char_ok false c = true /\ codec_ok CodecAscii c = false.
Proof. exists 200%N. split; reflexivity. Qed.
Print Assumptions C01_header_alphabet_codec_refuted.

(* ... and the strategy caches hand out the strategy that was requested only while every parameter is always asked for with the
   same settings (the settings are not part of the cache key) *)
Theorem C01_strategy_cache_partial : forall calls c, consistent_calls c calls = true -> run_calls c calls = map snd calls.
Proof.
  induction calls as [|[k g] rest IH]; intros c H; [reflexivity|].
  cbn [run_calls consistent_calls map snd] in *. unfold get_strategy.
  destruct (cache_find k c) as [old|] eqn:E.
  - apply andb_true_iff in H. destruct H as [H1 H2]. apply gs_eqb_eq in H1. subst old. rewrite (IH c H2). reflexivity.
  - rewrite (IH _ H). reflexivity.
Qed.
Print Assumptions C01_strategy_cache_partial.

Theorem C01_strategy_cache_refuted : exists calls,
  run_calls [] calls <> map snd calls /\ nth 1 (run_calls [] calls) (false, CodecAscii) = (true, CodecUtf8).
Proof.
  exists [(0%N, (true, CodecUtf8)); (0%N, (false, CodecAscii))]. split; [vm_compute; discriminate | reflexivity].
Qed.
Print Assumptions C01_strategy_cache_refuted.

(* Aliasing (Model_C01 section 9: Python containers with identities, every modelled function returns the log of the mutations it
   performed; apply_log log o is what a live object o looks like after the call).
   to_json_schema_recursive as the code calls it (copy = true: deepclone first) does not change ANY object that was alive when the
   call started (identities below the allocation counter n) - in particular not the schema it was given, nor the raw document that
   contains it.  All schemas (any nesting, any keywords), both directions (readOnly / writeOnly rewriting), every fuel. *)
Theorem C01_conversion_leaves_live_objects_unchanged : forall fuel resp n t r lg n' o,
  transform fuel true resp n t = Some (r, lg, n') -> lt_ids n o = true -> apply_log lg o = o.
Proof.
  intros fuel resp n t r lg n' o E.
  exact (transform_frame n true resp fuel n t r lg n' o (or_introl eq_refl) (N.le_refl n) E).
Qed.
Print Assumptions C01_conversion_leaves_live_objects_unchanged.

(* converter.to_json_schema itself, one level *)
Theorem C01_to_json_schema_leaves_live_objects_unchanged : forall resp n t o,
  lt_ids n o = true -> apply_log (snd (fst (to_json_schema true resp n t))) o = o.
Proof.
  intros resp n t o. exact (inv_frame n _ o (to_json_schema_inv n true resp n t (or_introl eq_refl) (N.le_refl n))).
Qed.
Print Assumptions C01_to_json_schema_leaves_live_objects_unchanged.

(* the one call site with copy = False (rewritten_components) converts a deepclone in place: the raw document is not touched either *)
Theorem C01_inplace_conversion_of_a_clone_leaves_live_objects_unchanged : forall fuel resp n t r lg n' o,
  transform fuel false resp (snd (deepclone n t)) (fst (deepclone n t)) = Some (r, lg, n') -> lt_ids n o = true -> apply_log lg o = o.
Proof.
  intros fuel resp n t r lg n' o E.
  exact (transform_frame n false resp fuel _ _ r lg n' o (or_intror (ge_shift n t)) (N.le_add_r n (bound t)) E).
Qed.
Print Assumptions C01_inplace_conversion_of_a_clone_leaves_live_objects_unchanged.

(* A history on ONE loaded schema: response-side conversions of objects of the raw document (ConvertingResolver.resolve while a
   response is validated, get_response_schema), lazy initialisation of operations (resolve_all + request-side conversion) and the
   lazy construction of rewritten_components (in-place conversion of a deepclone), in any order and number.  The raw document after the history is the raw document before it ... *)
Theorem C01_raw_document_unchanged_by_history : forall fuel h store store',
  run fuel true store h = Some store' -> store' = store.
Proof.
  intros fuel. induction h as [|ev h IH]; intros store s' E; cbn [run] in E; [inversion E; reflexivity|].
  destruct (step fuel true store ev) as [s1|] eqn:Es; [|discriminate]. apply step_pure in Es. subst s1. apply IH. exact E.
Qed.
Print Assumptions C01_raw_document_unchanged_by_history.

(* ... hence the schema an operation generates its positive bodies from does not depend on what was converted or validated
   before the operation was initialised *)
Theorem C01_generation_schema_history_independent : forall fuel h store store' body,
  run fuel true store h = Some store' -> gen_schema fuel true store' body = gen_schema fuel true store body.
Proof.
  intros fuel h store store' body E. rewrite (C01_raw_document_unchanged_by_history fuel h store store' E). reflexivity.
Qed.
Print Assumptions C01_generation_schema_history_independent.

(* non-vacuity / sensitivity: on a User component with a required writeOnly password the response-side conversion does rewrite
   (non-empty mutation log, password dropped from the RESULT), the document is unchanged and an operation initialised afterwards
   still requires password; with an in-place conversion instead (copy = false) the same one-step history changes the document and
   the generation schema loses the required property.  Fuel 20 is ample: the documents nest three levels deep. *)
Theorem C01_history_examples :
  (exists r lg n', transform 20 true true (bound ex_store) (match d_get k_u ex_store with Some d => d | None => PA ANull end) = Some (r, lg, n')
                   /\ lg <> [] /\ j_required_has [112]%N (Some (erase r)) = false) /\
  run 20 true ex_store [EvConvert k_u true; EvInit ex_body] = Some ex_store /\
  j_required_has [112]%N (gen_erased 20 true ex_store ex_body) = true /\
  (exists s', run 20 false ex_store [EvConvert k_u true] = Some s' /\ erase s' <> erase ex_store /\
              j_required_has [112]%N (gen_erased 20 true s' ex_body) = false).
Proof.
  split; [|split; [|split]].
  - eexists. eexists. eexists. split; [vm_compute; reflexivity|]. split; [discriminate | vm_compute; reflexivity].
  - vm_compute. reflexivity.
  - vm_compute. reflexivity.
  - eexists. split; [vm_compute; reflexivity|]. split; [vm_compute; discriminate | vm_compute; reflexivity].
Qed.
Print Assumptions C01_history_examples.

(* Where the pattern rewriter runs (Model_C01 section 10).  The conversion pipeline of one parameter location: as_json_schema (keyword filter, nullable wrapping,
   update_pattern_in_schema on the keywords the author wrote, type: string for headers), parameters_to_json_schema,
   the path defaults of get_schema_for_location (all path parameters required, minLength 1), the header format of
   make_positive_strategy.  The theorems quantify over EVERY list of later steps that does not call the rewriter. *)

(* The pattern of a parameter schema is rewritten only if the DECLARED schema carries a truthy minLength or maxLength:
   all locations, all declared schemas *)
Theorem C01_pattern_rewritten_only_under_declared_length : forall steps l d g,
  no_rewrite_step steps = true -> gen_prop_with steps l d = Some g ->
  (g_rewritten g = true \/ g_pattern g <> d_pattern d) -> declared_length d = true.
Proof.
  intros steps l d g Hn H Hch. pose proof (gen_prop_with_spec steps l d Hn) as S.
  destruct (rewrite_kw (decl_kw d)) as [k'|] eqn:Hk; [|congruence].
  destruct S as (g' & Hg & P & R & _). assert (g' = g) by congruence. subst g'.
  destruct (rewrite_kw_changed _ _ Hk) as [->|Ht]; [|exact Ht].
  rewrite P, R in Hch. destruct Hch as [Hc|Hc]; [discriminate Hc | contradiction Hc; reflexivity].
Qed.
Print Assumptions C01_pattern_rewritten_only_under_declared_length.

(* ... and without one the conversion never raises and the generation schema carries the declared pattern *)
Theorem C01_undeclared_length_pattern_is_declared : forall steps l d,
  no_rewrite_step steps = true -> declared_length d = false ->
  (forall g, gen_prop_with steps l d = Some g -> g_pattern g = d_pattern d /\ g_rewritten g = false) /\
  (exists g, gen_prop_with steps l d = Some g).
Proof.
  intros steps l d Hn Hd. pose proof (gen_prop_with_spec steps l d Hn) as S.
  rewrite rewrite_kw_idle in S by exact Hd. destruct S as (g & Hg & P & R & _).
  split; [|eauto]. intros g' H. assert (g' = g) by congruence. subst g'. rewrite P, R. split; reflexivity.
Qed.
Print Assumptions C01_undeclared_length_pattern_is_declared.

(* Path parameters without declared length keywords: the generation schema's pattern is the declared pattern; the implied
   minLength 1 sits NEXT to it (plain string parameters), nothing is folded into the pattern *)
Theorem C01_path_parameter_pattern_is_declared : forall d, d_min d = None -> d_max d = None ->
  exists g, gen_prop LPath d = Some g /\ g_pattern g = d_pattern d /\ g_rewritten g = false /\ k_max (g_kw g) = None /\
            k_min (g_kw g) = (if is_string (d_type d) && negb (is_ntrue (d_nullable d)) then Some 1 else None).
Proof.
  intros d Hmn Hmx. unfold gen_prop, gen_prop_with, as_json_schema, convert.
  rewrite rewrite_kw_idle by (cbn; rewrite Hmn, Hmx; reflexivity).
  destruct (is_ntrue (d_nullable d)) eqn:En; cbn [apply_step is_header_loc dict_steps run_steps is_path_loc].
  - eexists. split; [reflexivity|]. cbn. rewrite andb_false_r. auto.
  - cbn [k_type]. destruct (is_string (d_type d)) eqn:Es; cbn [k_type apply_step is_header_loc].
    + eexists. split; [reflexivity|]. cbn. rewrite Hmn. cbn. auto.
    + eexists. split; [reflexivity|]. cbn. auto.
Qed.
Print Assumptions C01_path_parameter_pattern_is_declared.

(* Composition with C01_schema_keywords_sound_partial: a string the generation dict accepts is accepted by the DECLARED
   pattern / minLength / maxLength - unconditionally when no length is declared (pipeline_region is then true), inside the
   regions of the rewriter evaluated on the DECLARED bounds otherwise (refuted outside: the five rewriter witnesses above) *)
Theorem C01_generation_value_conforms_partial : forall catp steps l d g s,
  no_rewrite_step steps = true -> gen_prop_with steps l d = Some g -> pipeline_region d s = true ->
  kw_accepts catp (g_kw g) s -> decl_accepts catp d s.
Proof.
  intros catp steps l d g s Hn H Hreg [Hp Hl]. pose proof (gen_prop_with_spec steps l d Hn) as S.
  destruct (rewrite_kw (decl_kw d)) as [k'|] eqn:Hk; [|congruence].
  destruct S as (g' & Hg & P & _ & X & Mi). assert (g' = g) by congruence. subst g'.
  unfold g_pattern in P. cbn [g_kw] in P, X, Mi. rewrite P in Hp. rewrite X in Hl.
  (* the implied minLength 1 of a path parameter only narrows *)
  assert (Hl' : len_in (k_min k') (k_max k') s = true).
  { destruct Mi as [Mi|[Mia Mib]]; [rewrite Mi in Hl; exact Hl|].
    rewrite Mib in Hl. rewrite Mia. unfold len_in in *. apply andb_true_iff in Hl. destruct Hl as [_ Hl]. exact Hl. }
  clear Hl Mi X P Hg H g.
  unfold decl_accepts. unfold decl_kw in Hk. destruct (d_pattern d) as [p|] eqn:Edp.
  - destruct (rewrite_kw_spec _ _ p Hk eq_refl) as (p' & Hp' & Hup). cbn [k_min k_max] in Hup. rewrite Hp' in Hp.
    destruct (declared_length d) eqn:Ed.
    + destruct (pipeline_region_declared d p s Edp Ed Hreg) as (R1 & R2 & R3 & R4 & R5 & R6 & R7).
      exact (C01_schema_keywords_sound_partial catp p (d_min d) (d_max d) s p' _ _ Hup R1 R2 R3 R4 R5 R6 R7 Hp Hl').
    + rewrite rewrite_kw_idle in Hk by exact Ed. inversion Hk; subst k'. cbn in *. inversion Hp'; subst. auto.
  - unfold rewrite_kw in Hk. cbn in Hk. inversion Hk; subst k'. cbn in *. auto.
Qed.
Print Assumptions C01_generation_value_conforms_partial.

(* The whole location, all parameter lists (duplicate names included): every property of the object handed to from_schema is
   the generation schema of one of the parameters ... *)
Theorem C01_location_schema_properties : forall l ps props req name g,
  location_schema l ps = Some (props, req) -> assoc_get name props = Some g ->
  exists p, In p ps /\ p_name p = name /\ gen_prop l (p_decl p) = Some g.
Proof.
  unfold location_schema, location_schema_with. intros l ps props req name g H Hg.
  destruct (params_to_schema l ps [] []) as [[props0 req0]|] eqn:E; [|discriminate].
  destruct (map_steps l dict_steps props0) as [props1|] eqn:E1; [|discriminate]. inversion H; subst.
  destruct (assoc_get_map_steps _ _ _ _ _ _ E1 Hg) as (g0 & Hg0 & Hrun).
  destruct (params_to_schema_get _ _ _ _ _ _ _ _ E Hg0) as [Hnil|(p & Hin & Hn & Hs)]; [discriminate|].
  exists p. repeat split; auto. unfold gen_prop, gen_prop_with. rewrite Hs. exact Hrun.
Qed.
Print Assumptions C01_location_schema_properties.

(* ... every path parameter is required and has a property ... *)
Theorem C01_path_parameters_all_required : forall ps props req,
  location_schema LPath ps = Some (props, req) ->
  req = map fst props /\ forall p, In p ps -> has_key (p_name p) req = true.
Proof.
  unfold location_schema, location_schema_with. intros ps props req H.
  destruct (params_to_schema LPath ps [] []) as [[props0 req0]|] eqn:E; [|discriminate].
  destruct (map_steps LPath dict_steps props0) as [props1|] eqn:E1; [|discriminate]. inversion H; subst. cbn [is_path_loc].
  rewrite (map_steps_keys _ _ _ _ E1). split; [reflexivity|].
  intros p Hin. rewrite (params_to_schema_keys _ _ _ _ _ _ E). cbn [map has_key existsb orb].
  apply existsb_exists. exists p. split; [exact Hin|apply str_eqb_refl].
Qed.
Print Assumptions C01_path_parameters_all_required.

(* ... and both statements above hold for each property of the location object *)
Theorem C01_location_values_conform_partial : forall catp l ps props req name g s,
  location_schema l ps = Some (props, req) -> assoc_get name props = Some g ->
  exists p, In p ps /\ p_name p = name /\
    ((g_rewritten g = true \/ g_pattern g <> d_pattern (p_decl p)) -> declared_length (p_decl p) = true) /\
    (pipeline_region (p_decl p) s = true -> kw_accepts catp (g_kw g) s -> decl_accepts catp (p_decl p) s).
Proof.
  intros catp l ps props req name g s H Hg.
  destruct (C01_location_schema_properties _ _ _ _ _ _ H Hg) as (p & Hin & Hn & Hgp).
  exists p. split; [exact Hin|]. split; [exact Hn|]. split.
  - apply (C01_pattern_rewritten_only_under_declared_length dict_steps l); [reflexivity|exact Hgp].
  - apply (C01_generation_value_conforms_partial catp dict_steps l); [reflexivity|exact Hgp].
Qed.
Print Assumptions C01_location_values_conform_partial.

(* A _sentinel_refuted theorem refutes the property for an order of steps that is NOT the order of the code: it says what
   the theorems above exclude.  Here: with update_pattern_in_schema called on the property AFTER the path default
   minLength 1 (seeded_dict_steps), a path parameter ^[a-z]$ that declares NO length gets its pattern rewritten and the
   value abc is generated although the declared pattern rejects it - outside every region of the rewriter findings in
   known_findings.jsonl, whose witnesses all carry declared bounds *)
Theorem C01_rewriter_after_path_default_sentinel_refuted : forall catp,
  exists g, gen_prop_with seeded_dict_steps LPath d_single = Some g /\
            declared_length d_single = false /\ pipeline_region d_single s_abc = true /\
            g_rewritten g = true /\ g_pattern g <> d_pattern d_single /\
            kw_accepts catp (g_kw g) s_abc /\ ~ decl_accepts catp d_single s_abc.
Proof.
  intros catp. eexists. split; [vm_compute; reflexivity|]. split; [reflexivity|]. split; [reflexivity|]. split; [reflexivity|].
  split; [cbn; intros H; inversion H|].
  split; [split; [apply search_b_sound; vm_compute; reflexivity | reflexivity]|].
  intros [Hs _]. destruct (C01_rewrite_sound_refuted_single_char catp) as (p' & _ & _ & _ & Hno).
  apply Hno. split; [exact Hs|reflexivity].
Qed.
Print Assumptions C01_rewriter_after_path_default_sentinel_refuted.

(* non-vacuity / sensitivity: the same parameter under the code as it is keeps ^[a-z]$ with minLength 1 next to it; a parameter
   WITH declared lengths (\A[a-z]+\Z, 2..5) is rewritten in every location (the path one gets minLength 1 in addition) inside
   all regions; a header location with a duplicate name: the later parameter wins, required lists each name once *)
Theorem C01_pipeline_examples :
  (exists g, gen_prop LPath d_single = Some g /\ g_pattern g = Some w_single /\ g_rewritten g = false /\ k_min (g_kw g) = Some 1) /\
  (forall l, exists g, gen_prop l d_ok = Some g /\ g_rewritten g = true /\ g_pattern g <> d_pattern d_ok /\
                       k_min (g_kw g) = (if is_path_loc l then Some 1 else None) /\ pipeline_region d_ok s_abc = true) /\
  (exists props, location_schema LHeader [mkParam [120%N] false (mkDecl (Some TyString) NAbsent false None None None);
                                          mkParam [121%N] true d_single; mkParam [120%N] true (mkDecl None NTrue false None None None)]
                 = Some (props, [121%N] :: [[120%N]]) /\ map fst props = [[120%N]; [121%N]]).
Proof.
  split; [eexists; split; [vm_compute; reflexivity|repeat split; reflexivity]|].
  split.
  - intros l. destruct l; (eexists; split; [vm_compute; reflexivity|]; repeat split; try reflexivity; cbn; intros H; inversion H).
  - eexists. split; vm_compute; reflexivity.
Qed.
Print Assumptions C01_pipeline_examples.

(* The value side: the chain a generated container runs through between the strategy and the case
   (get_parameters_strategy: map(serialize), filter(is_valid_path etc), map(quote_all), map(jsonify)), all locations. *)

(* every container that LEAVES the chain is the generated container, entry by entry, up to the string coercion of the
   location: header / cookie str(value); query the same string (true / false / null for bool / None); path a text whose
   percent-decoding (unquote_plus) is the UTF-8 encoding of the generated string *)
Theorem C01_value_chain_preserves : forall l skip c c',
  run_vsteps (value_chain l skip) c = Some c' -> all_coerced l c c' = true.
Proof.
  intros l skip c c' H. apply value_chain_is_map in H. subst. apply all_coerced_map, chain_fun_coerced.
Qed.
Print Assumptions C01_value_chain_preserves.

(* the chain is a per-value map (no value depends on another one, none is dropped or added) and a filter only removes draws *)
Theorem C01_value_chain_is_map_and_filters_only_remove :
  (forall l skip c c', run_vsteps (value_chain l skip) c = Some c' -> c' = map_vals (chain_fun l) c) /\
  (forall l c c', apply_vstep (VFilter l) c = Some c' -> c' = c /\ forallb (entry_valid l) c = true).
Proof.
  split; [exact value_chain_is_map|].
  intros l c c'. cbn [apply_vstep]. destruct (forallb (entry_valid l) c); intros H; inversion H; auto.
Qed.
Print Assumptions C01_value_chain_is_map_and_filters_only_remove.

(* header / cookie / query: a string in the case whose source is a generated string IS that string, so it is accepted by
   every declared schema that accepts the generated value (all schemas d, all category tables) *)
Theorem C01_value_chain_strings_identical : forall catp l skip c c' n s',
  l <> LPath -> run_vsteps (value_chain l skip) c = Some c' -> In (n, GStr s') c' ->
  exists g, In (n, g) c /\ coerced l g (GStr s') = true /\
            (forall s, g = GStr s -> s' = s /\ forall d, decl_accepts catp d s -> decl_accepts catp d s').
Proof.
  intros catp l skip c c' n s' Hl H Hin. apply value_chain_is_map in H. subst c'.
  unfold map_vals in Hin. apply in_map_iff in Hin. destruct Hin as [[n0 g] [Heq Hin]].
  cbn [fst snd] in Heq. injection Heq as Hn Hg. subst n0.
  exists g. split; [exact Hin|]. split; [rewrite <- Hg; apply chain_fun_coerced|].
  intros s ->. assert (s' = s) as ->.
  { destruct l; cbn [chain_fun jsonify_val py_str] in Hg; try congruence. }
  split; [reflexivity|auto].
Qed.
Print Assumptions C01_value_chain_strings_identical.

(* quote_all on a path value: urllib's unquote_plus gives back the UTF-8 bytes of the generated string *)
Theorem C01_path_quoting_roundtrip : forall s, unquote_plus_bytes (quote_plus s) = utf8 s.
Proof. exact unquote_quote_plus. Qed.
Print Assumptions C01_path_quoting_roundtrip.

(* what the header filter guarantees about the first character - by REJECTING the draw, never by changing the value *)
Theorem C01_header_filter_no_leading_space : forall l n c s,
  is_header_loc l = true -> entry_valid l (n, GStr (c :: s)) = true -> py_space c = false.
Proof.
  intros l n c s Hl H. destruct (py_space c) eqn:E; [exfalso|reflexivity].
  assert (Hv : header_value_ok (c :: s) = true).
  { destruct l; try discriminate Hl; cbn [entry_valid snd] in H; apply andb_true_iff in H; apply H. }
  unfold header_value_ok in Hv. rewrite E in Hv. cbn [negb andb] in Hv. rewrite andb_false_r in Hv. discriminate Hv.
Qed.
Print Assumptions C01_header_filter_no_leading_space.

(* the second sentinel: str.lstrip() between the serializer and the filter (seeded_value_chain; not a link of the code).  The header
   value VT + abcdefg is valid for minLength 8; the chain of the code discards the draw; the seeded chain lets a container
   through that is NOT the generated one up to coercion, and its value violates the declared minLength *)
Theorem C01_strip_before_filter_sentinel_refuted : forall catp,
  exists c', run_vsteps (seeded_value_chain LHeader false) c_vt7 = Some c' /\
             run_vsteps (value_chain LHeader false) c_vt7 = None /\
             all_coerced LHeader c_vt7 c' = false /\
             decl_accepts catp d_min8 s_vt7 /\
             forall n s', In (n, GStr s') c' -> ~ decl_accepts catp d_min8 s'.
Proof.
  intros catp. eexists. split; [vm_compute; reflexivity|]. split; [vm_compute; reflexivity|]. split; [vm_compute; reflexivity|].
  split; [split; [exact I|reflexivity]|].
  intros n s' [H|[]]. inversion H; subst. intros [_ Hl]. vm_compute in Hl. discriminate.
Qed.
Print Assumptions C01_strip_before_filter_sentinel_refuted.

(* non-vacuity: containers that go through (str() of an integer and a bool in a header, quoting of a space / e-acute and
   null in a path, a leading vertical tab kept as it is in a query), one that is discarded (slash in a path), and the
   skip-filter branch of plain string headers *)
Theorem C01_value_chain_examples :
  run_vsteps (value_chain LHeader false) [([88; 45; 65]%N, GStr [97; 32; 98]%N); ([88; 45; 66]%N, GInt (-12)); ([88; 45; 67]%N, GBool true)]
    = Some [([88; 45; 65]%N, GStr [97; 32; 98]%N); ([88; 45; 66]%N, GStr [45; 49; 50]%N); ([88; 45; 67]%N, GStr [84; 114; 117; 101]%N)] /\
  run_vsteps (value_chain LPath false) [([105]%N, GStr [97; 32; 233; 46]%N); ([107]%N, GNull)]
    = Some [([105]%N, GStr [97; 43; 37; 67; 51; 37; 65; 57; 46]%N); ([107]%N, GStr [110; 117; 108; 108]%N)] /\
  run_vsteps (value_chain LPath false) [([105]%N, GStr [97; 47]%N)] = None /\
  run_vsteps (value_chain LQuery false) [([113]%N, GStr [11; 97]%N); ([114]%N, GBool false)]
    = Some [([113]%N, GStr [11; 97]%N); ([114]%N, GStr [102; 97; 108; 115; 101]%N)] /\
  run_vsteps (value_chain LHeader true) c_vt7 = Some c_vt7.
Proof. vm_compute. repeat split. Qed.
Print Assumptions C01_value_chain_examples.
