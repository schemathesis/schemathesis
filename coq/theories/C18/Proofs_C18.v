(* C18 proofs.  General list facts; lookups in a history and what wf gives; the relation "under" (reached along child
   links through unseen nodes), the invariant "visited" of the traversal loop and its fuel; the root climb; find_related
   for any case and for a root or leaf; the path heuristic inside its region; the case recorded last; what one iteration
   of each check's loop tests, use_after_free, ensure_resource_availability, unrelated cases.  The witness histories of
   the refuted and the satisfiable statements stand at the end.  F1..F7 are the findings listed in notes/C18.md. *)
From Coq Require Import List NArith Bool Lia Arith.
From Verif Require Import Common.Str C18.Model_C18.
Import ListNotations.
Open Scope N_scope.

Lemma mem_false c l : mem c l = false <-> ~ In c l.
Proof. rewrite <- mem_spec, not_true_iff_false. reflexivity. Qed.

Lemma filter_len_le {A} (f g : A -> bool) l :
  (forall x, In x l -> f x = true -> g x = true) -> (length (filter f l) <= length (filter g l))%nat.
Proof.
  induction l as [|a l IH]; intros H; [apply Nat.le_refl|].
  cbn [filter].
  assert (length (filter f l) <= length (filter g l))%nat as IH'.
  { apply IH. intros x Hx. apply H. right. exact Hx. }
  destruct (f a) eqn:Ef.
  - rewrite (H a (or_introl eq_refl) Ef). cbn [length]. lia.
  - destruct (g a); cbn [length]; lia.
Qed.

Lemma filter_len_lt {A} (f g : A -> bool) l a :
  (forall x, In x l -> f x = true -> g x = true) -> In a l -> f a = false -> g a = true ->
  (length (filter f l) < length (filter g l))%nat.
Proof.
  intros H Ha Hf Hg. apply in_split in Ha. destruct Ha as (l1 & l2 & ->).
  pose proof (filter_len_le f g l1 (fun x Hx => H x (in_or_app _ _ _ (or_introl Hx)))).
  pose proof (filter_len_le f g l2 (fun x Hx => H x (in_or_app _ _ _ (or_intror (in_cons _ _ _ Hx))))).
  rewrite !filter_app, !app_length. cbn [filter]. rewrite Hf, Hg. cbn [length]. lia.
Qed.

Lemma NoDup_app_l {A} (l l' : list A) : NoDup (l ++ l') -> NoDup l.
Proof.
  induction l as [|a l IH]; cbn [app]; intros H; [constructor|].
  inversion H as [|? ? Ha Hl]; subst. constructor; [|apply IH; exact Hl].
  intros Hc. apply Ha. apply in_or_app. left. exact Hc.
Qed.

Lemma get_some h i n : get h i = Some n -> In n h /\ n_id n = i.
Proof.
  unfold get; intros H; apply find_some in H; destruct H as [H1 H2].
  apply N.eqb_eq in H2; auto.
Qed.

Lemma get_none h i : get h i = None -> forall n, In n h -> n_id n <> i.
Proof.
  unfold get; intros H n Hn E. apply (find_none _ _ H) in Hn. apply N.eqb_neq in Hn. contradiction.
Qed.

Lemma nodup_ids_cons m h : nodup_ids (m :: h) = true -> (forall n, In n h -> n_id n <> n_id m) /\ nodup_ids h = true.
Proof.
  cbn [nodup_ids]. intros H. apply andb_true_iff in H. destruct H as [Hm Hd]. split; [|exact Hd].
  intros n Hn E. apply negb_true_iff, not_true_iff_false in Hm. apply Hm.
  apply existsb_exists. exists n. rewrite E, N.eqb_refl. auto.
Qed.

Lemma nodup_get h n : nodup_ids h = true -> In n h -> get h (n_id n) = Some n.
Proof.
  induction h as [|m h IH]; intros Hd Hin; [destruct Hin|].
  apply nodup_ids_cons in Hd. destruct Hd as [Hm Hd]. unfold get. cbn [find].
  destruct Hin as [->|Hin]; [rewrite N.eqb_refl; reflexivity|].
  destruct (N.eqb_spec (n_id m) (n_id n)) as [E|_]; [|apply IH; assumption].
  symmetry in E. destruct (Hm n Hin E).
Qed.

Lemma nodup_inj h a b : nodup_ids h = true -> In a h -> In b h -> n_id a = n_id b -> a = b.
Proof.
  intros Hd Ha Hb E. pose proof (nodup_get h a Hd Ha) as Ga. pose proof (nodup_get h b Hd Hb) as Gb.
  rewrite E in Ga. rewrite Ga in Gb. inversion Gb. reflexivity.
Qed.

Lemma is_child_spec nid n : is_child nid n = true <-> n_parent n = Some nid.
Proof.
  unfold is_child. destruct (n_parent n) as [p|]; [|split; discriminate].
  rewrite N.eqb_eq. split; [intros ->; reflexivity | intros H; inversion H; reflexivity].
Qed.

Lemma idx_in h n : In n h -> (idx h (n_id n) < length h)%nat.
Proof.
  induction h as [|m h IH]; intros Hn; [destruct Hn|].
  cbn [idx length]. destruct (N.eqb (n_id m) (n_id n)) eqn:E; [lia|].
  destruct Hn as [->|Hn]; [rewrite N.eqb_refl in E; discriminate|]. specialize (IH Hn). lia.
Qed.

Lemma idx_lt_in h i : (idx h i < length h)%nat -> exists m, In m h /\ n_id m = i.
Proof.
  induction h as [|n h IH]; cbn [idx length]; intros H; [lia|].
  destruct (N.eqb (n_id n) i) eqn:E.
  - apply N.eqb_eq in E. exists n. split; [left; reflexivity|exact E].
  - destruct IH as (m & Hm & Em); [lia|]. exists m. split; [right; exact Hm|exact Em].
Qed.

Lemma wf_nodup h : wf h = true -> nodup_ids h = true.
Proof. unfold wf. intros H. apply andb_true_iff in H. apply H. Qed.

Lemma wf_parent h n p : wf h = true -> In n h -> n_parent n = Some p -> (idx h p < idx h (n_id n))%nat.
Proof.
  unfold wf. intros H Hn Hp. apply andb_true_iff in H. destruct H as [_ H].
  rewrite forallb_forall in H. specialize (H n Hn). rewrite Hp in H. apply Nat.ltb_lt in H. exact H.
Qed.

Lemma wf_parent_in h n p : wf h = true -> In n h -> n_parent n = Some p -> exists m, In m h /\ n_id m = p.
Proof.
  intros Hw Hn Hp. apply idx_lt_in. pose proof (wf_parent h n p Hw Hn Hp). pose proof (idx_in h n Hn). lia.
Qed.

Lemma find_parent_wf h r : wf h = true -> In r h ->
  (n_parent r = None /\ find_parent h (n_id r) = FPNone) \/
  (exists p, n_parent r = Some (n_id p) /\ In p h /\ find_parent h (n_id r) = FPSome p).
Proof.
  intros Hw Hr. unfold find_parent. rewrite (nodup_get h r (wf_nodup _ Hw) Hr).
  destruct (n_parent r) as [pid|] eqn:P; [right|left; auto].
  destruct (wf_parent_in h r pid Hw Hr P) as (m & Hm & <-).
  exists m. rewrite (nodup_get h m (wf_nodup _ Hw) Hm). auto.
Qed.

Lemma find_response_in h n : nodup_ids h = true -> In n h -> find_response h (n_id n) = n_status n.
Proof. intros Hd Hn. unfold find_response. rewrite (nodup_get h n Hd Hn). reflexivity. Qed.

(* n is reached from nid along child links through nodes of h none of which, n included, is in seen;
   with seen = [] : n is a proper descendant of nid *)
Inductive under (h : history) (seen : list N) (nid : N) : node -> Prop :=
| under_child n : In n h -> n_parent n = Some nid -> ~ In (n_id n) seen -> under h seen nid n
| under_step n m : In n h -> n_parent n = Some (n_id m) -> ~ In (n_id n) seen ->
    under h seen nid m -> under h seen nid n.

Lemma under_in h seen nid n : under h seen nid n -> In n h.
Proof. destruct 1; assumption. Qed.
Lemma under_unseen h seen nid n : under h seen nid n -> ~ In (n_id n) seen.
Proof. destruct 1; assumption. Qed.
Lemma under_parent h seen nid n : under h seen nid n -> n_parent n <> None.
Proof. destruct 1 as [n _ Hp _ | n m _ Hp _ _]; rewrite Hp; discriminate. Qed.

(* a smaller seen set forbids less *)
Lemma under_weaken h s s' nid n : (forall i, In i s -> In i s') -> under h s' nid n -> under h s nid n.
Proof.
  intros Hs H. induction H as [n Hn Hp Hu | n m Hn Hp Hu Hm IH].
  - apply under_child; auto.
  - apply under_step with m; auto.
Qed.

(* what the recursive call for a child x reaches, the caller reaches through x *)
Lemma under_via_child h s nid x a :
  In x h -> n_parent x = Some nid -> ~ In (n_id x) s ->
  under h (n_id x :: s) (n_id x) a -> under h s nid a.
Proof.
  intros Hx Hp Hu H. induction H as [n Hn Hpn Hun | n m Hn Hpn Hun Hm IH].
  - apply under_step with x; [assumption|assumption| |apply under_child; assumption].
    intros Hc. apply Hun. right. exact Hc.
  - apply under_step with m; [assumption|assumption| |exact IH].
    intros Hc. apply Hun. right. exact Hc.
Qed.

(* a descendant is reached whatever is in s, provided neither it nor a node between nid and it is in s *)
Lemma under_avoid h s nid n : under h [] nid n -> ~ In (n_id n) s ->
  (forall m, under h [] nid m -> under h [] (n_id m) n -> ~ In (n_id m) s) -> under h s nid n.
Proof.
  intros H. induction H as [n Hn Hp _ | n m Hn Hp _ Hm IH]; intros Hu Hbetween.
  - apply under_child; assumption.
  - apply under_step with m; [assumption|assumption|assumption|].
    apply IH.
    + apply Hbetween; [exact Hm|]. apply under_child; auto using in_nil.
    + intros k Hk Hkm. apply Hbetween; [exact Hk|]. apply under_step with m; auto using in_nil.
Qed.

Lemma leaf_not_under h s c n : is_leaf h c = true -> ~ under h s (n_id c) n.
Proof.
  unfold is_leaf. rewrite negb_true_iff, <- not_true_iff_false, existsb_exists. intros Hleaf H. apply Hleaf.
  induction H as [n Hn Hp _ | n m _ _ _ _ IH]; [|exact IH].
  exists n. split; [exact Hn|]. apply is_child_spec. exact Hp.
Qed.

(* find_related puts the root into the seen set before it traverses; below the root that forbids nothing *)
Lemma under_add_root h s nid rm n : nodup_ids h = true -> In rm h -> n_parent rm = None ->
  under h s nid n -> under h (n_id rm :: s) nid n.
Proof.
  intros Hd Hrm Prm H.
  (* the "unseen" premise of both constructors: a node with a parent does not carry the root's id *)
  assert (forall x p, In x h -> n_parent x = Some p -> ~ In (n_id x) s -> ~ In (n_id x) (n_id rm :: s)) as Hx.
  { intros x p Hx Hp Hu [E|Hc]; [|contradiction].
    apply (nodup_inj h rm x Hd Hrm Hx) in E. subst x. rewrite Prm in Hp. discriminate. }
  induction H as [n Hn Hp Hu | n m Hn Hp Hu Hm IH].
  - apply under_child; [exact Hn | exact Hp | exact (Hx n nid Hn Hp Hu)].
  - apply under_step with m; [exact Hn | exact Hp | exact (Hx n (n_id m) Hn Hp Hu) | exact IH].
Qed.

Definition ids (l : list node) : list N := map n_id l.

(* what one pass of the loop of traverse over the items l has done, when it started with seen and the recursive
   calls went through all of h: out is what it yielded, seen' the set it leaves *)
Record visited (h l : list node) (nid : N) (seen : list N) (out : list node) (seen' : list N) : Prop := {
  v_seen : seen' = rev (ids out) ++ seen;
  v_under : forall n, In n out -> under h seen nid n;
  v_nodup : NoDup seen -> NoDup seen';
  v_children : forall m, In m l -> n_parent m = Some nid -> In (n_id m) seen';
  v_closed : forall m p, In m h -> n_parent m = Some p -> In p (ids out) -> In (n_id m) seen' }.

Lemma visited_nil h nid seen : visited h [] nid seen [] seen.
Proof. constructor; try (intros; contradiction); auto. Qed.

Lemma visited_skip h l nid seen out seen' n :
  (n_parent n = Some nid -> In (n_id n) seen) ->
  visited h l nid seen out seen' -> visited h (n :: l) nid seen out seen'.
Proof.
  intros Hn V. destruct V as [v_seen v_under v_nodup v_children v_closed].
  constructor; [exact v_seen | exact v_under | exact v_nodup | | exact v_closed].
  (* v_children: the item skipped is not an unseen child *)
  intros m [<-|Hm] Hp; [|apply v_children; assumption].
  rewrite v_seen. apply in_or_app. right. apply Hn. exact Hp.
Qed.

Lemma visited_take h l nid seen n sub seen1 rest seen2 :
  In n h -> n_parent n = Some nid -> ~ In (n_id n) seen ->
  visited h h (n_id n) (n_id n :: seen) sub seen1 -> visited h l nid seen1 rest seen2 ->
  visited h (n :: l) nid seen (n :: sub ++ rest) seen2.
Proof.
  intros Hn Hp Hu Sub Rest.
  destruct Sub as [sub_seen sub_under sub_nodup sub_children sub_closed].
  destruct Rest as [rest_seen rest_under rest_nodup rest_children rest_closed].
  assert (forall i, In i seen1 -> In i seen2) as Hmono.
  { intros i Hi. rewrite rest_seen. apply in_or_app. right. exact Hi. }
  assert (In (n_id n) seen1) as Hn1.
  { rewrite sub_seen. apply in_or_app. right. left. reflexivity. }
  constructor.
  - (* v_seen *)
    rewrite rest_seen, sub_seen. unfold ids. cbn [map rev]. rewrite map_app, rev_app_distr, <- !app_assoc. reflexivity.
  - (* v_under: n itself, a node of its subtree, a node yielded later *)
    intros x [<-|Hx]; [apply under_child; assumption|].
    apply in_app_or in Hx. destruct Hx as [Hx|Hx].
    + apply under_via_child with n; auto.
    + apply under_weaken with seen1; auto.
      intros i Hi. rewrite sub_seen. apply in_or_app. right. right. exact Hi.
  - (* v_nodup *)
    intros Hd. apply rest_nodup, sub_nodup. constructor; assumption.
  - (* v_children: n is seen since the recursive call, the others by the rest of the pass *)
    intros m [<-|Hm] Hpm; [apply Hmono; exact Hn1 | apply rest_children; assumption].
  - (* v_closed: the parent is n, a node of its subtree, or a node yielded later *)
    intros m p Hm Hpm Hin. unfold ids in Hin. cbn [map] in Hin. rewrite map_app in Hin.
    destruct Hin as [<-|Hin]; [apply Hmono, sub_children; assumption|].
    apply in_app_or in Hin. destruct Hin as [Hin|Hin]; [apply Hmono, (sub_closed m p) | apply (rest_closed m p)]; assumption.
Qed.

Lemma visited_complete h nid seen out seen' : visited h h nid seen out seen' ->
  forall n, under h seen nid n -> In (n_id n) (ids out).
Proof.
  intros [V1 _ _ V4 V5] n H.
  assert (forall x, ~ In (n_id x) seen -> In (n_id x) seen' -> In (n_id x) (ids out)) as Hout.
  { intros x Hu Hs. rewrite V1 in Hs. apply in_app_or in Hs. destruct Hs as [Hs|Hs]; [|contradiction].
    apply in_rev in Hs. exact Hs. }
  induction H as [n Hn Hp Hu | n m Hn Hp Hu Hm IH]; apply Hout; auto.
  apply (V5 n (n_id m)); auto.
Qed.

(* fuel: the number of nodes not yet seen bounds the recursion depth *)
Definition unseen (h : history) (seen : list N) : nat :=
  length (filter (fun n => negb (mem (n_id n) seen)) h).

Lemma unseen_le_length h s : (unseen h s <= length h)%nat.
Proof.
  unfold unseen. induction h as [|a h IH]; [apply Nat.le_refl|].
  cbn [filter]. destruct (negb (mem (n_id a) s)); cbn [length]; lia.
Qed.

Lemma unseen_mono h s s' : (forall i, In i s -> In i s') -> (unseen h s' <= unseen h s)%nat.
Proof.
  intros Hs. apply filter_len_le. intros x _. rewrite !negb_true_iff, !mem_false. auto.
Qed.

Lemma unseen_strict h s n : In n h -> ~ In (n_id n) s -> (unseen h (n_id n :: s) < unseen h s)%nat.
Proof.
  intros Hn Hu. apply filter_len_lt with n; auto.
  - intros x _. rewrite !negb_true_iff, !mem_false. intros Hx Hc. apply Hx. right. exact Hc.
  - apply negb_false_iff, mem_spec. left. reflexivity.
  - apply negb_true_iff, mem_false. exact Hu.
Qed.

(* a call that is given more fuel than there are nodes not yet seen returns, and what it returns is right *)
Definition rec_ok (h : history) (f : nat) (rec : N -> list N -> option (list node * list N)) : Prop :=
  forall nid seen, (unseen h seen < f)%nat ->
    exists out seen', rec nid seen = Some (out, seen') /\ visited h h nid seen out seen'.

Lemma scan_spec h rec f : rec_ok h f rec ->
  forall nid l seen, incl l h -> (unseen h seen <= f)%nat ->
    exists out seen', scan rec nid l seen = Some (out, seen') /\ visited h l nid seen out seen'.
Proof.
  intros Hrec nid l. induction l as [|n l IH]; intros seen Hl Hf; cbn [scan].
  - exists [], seen. split; [reflexivity|apply visited_nil].
  - assert (incl l h) as Hl' by (intros x Hx; apply Hl; right; exact Hx).
    assert (In n h) as Hnh by (apply Hl; left; reflexivity).
    destruct (is_child nid n && negb (mem (n_id n) seen)) eqn:Ec.
    + apply andb_true_iff in Ec. destruct Ec as [Ech Ems].
      apply is_child_spec in Ech. apply negb_true_iff, mem_false in Ems.
      destruct (Hrec (n_id n) (n_id n :: seen)) as (sub & seen1 & Er & R).
      { pose proof (unseen_strict h seen n Hnh Ems). lia. }
      destruct (IH seen1 Hl') as (rest & seen2 & Es & S).
      { eapply Nat.le_trans; [|exact Hf]. apply unseen_mono. intros i Hi. rewrite (v_seen _ _ _ _ _ _ R).
        apply in_or_app. right. right. exact Hi. }
      rewrite Er, Es. exists (n :: sub ++ rest), seen2. split; [reflexivity|].
      apply visited_take with seen1; assumption.
    + destruct (IH seen Hl' Hf) as (out & seen' & Es & V). exists out, seen'. split; [exact Es|].
      apply visited_skip; [|exact V].
      intros Hp. apply is_child_spec in Hp. rewrite Hp in Ec. apply negb_false_iff, mem_spec in Ec. exact Ec.
Qed.

Lemma traverse_spec h : forall f, rec_ok h f (traverse f h).
Proof.
  induction f as [|f IH]; intros nid seen Hf; [lia|].
  cbn [traverse]. apply (scan_spec h _ f IH); [apply incl_refl|lia].
Qed.

(* the fuel find_related gives never runs out, whatever the parent links are *)
Lemma traverse_full h nid seen :
  exists out seen', traverse (S (length h)) h nid seen = Some (out, seen') /\ visited h h nid seen out seen'.
Proof. apply traverse_spec. apply Nat.lt_succ_r. apply unseen_le_length. Qed.

(* traverse yields, each once, the nodes reached from nid without meeting a seen one *)
Lemma traverse_under h nid seen : nodup_ids h = true -> NoDup seen ->
  exists out seen', traverse (S (length h)) h nid seen = Some (out, seen') /\ NoDup (ids out) /\
    forall n, In n out <-> under h seen nid n.
Proof.
  intros Hd Hs. destruct (traverse_full h nid seen) as (out & seen' & Ht & V).
  exists out, seen'. split; [exact Ht|]. split.
  - apply (v_nodup _ _ _ _ _ _ V) in Hs. rewrite (v_seen _ _ _ _ _ _ V) in Hs.
    apply NoDup_app_l, NoDup_rev in Hs. rewrite rev_involutive in Hs. exact Hs.
  - intros n. split; [apply (v_under _ _ _ _ _ _ V)|].
    intros Hu. pose proof (visited_complete _ _ _ _ _ V n Hu) as Hi.
    apply in_map_iff in Hi. destruct Hi as (x & Ex & Hx).
    rewrite <- (nodup_inj h x n Hd); auto.
    + apply under_in with seen nid. apply (v_under _ _ _ _ _ _ V). exact Hx.
    + apply under_in with seen nid. exact Hu.
Qed.

(* more fuel than the position of i changes nothing; so root_id satisfies the two equations below *)
Lemma climb_fuel h : wf h = true -> forall f i, (idx h i < f)%nat -> climb (S f) h i = climb f h i.
Proof.
  intros Hw. induction f as [|f IH]; intros i Hf; [lia|].
  cbn [climb] in *. destruct (get h i) as [n|] eqn:G; [|reflexivity].
  destruct (n_parent n) as [p|] eqn:P; [|reflexivity].
  apply get_some in G. destruct G as [Hn <-].
  apply IH. pose proof (wf_parent h n p Hw Hn P). lia.
Qed.

Lemma root_id_root h n : nodup_ids h = true -> In n h -> n_parent n = None -> root_id h (n_id n) = Some (n_id n).
Proof. intros Hd Hn Hp. unfold root_id. cbn [climb]. rewrite (nodup_get h n Hd Hn), Hp. reflexivity. Qed.

Lemma root_id_parent h n p : wf h = true -> In n h -> n_parent n = Some p -> root_id h (n_id n) = root_id h p.
Proof.
  intros Hw Hn Hp. unfold root_id. rewrite (climb_fuel h Hw (length h) p).
  - cbn [climb]. rewrite (nodup_get h n (wf_nodup h Hw) Hn), Hp. reflexivity.
  - pose proof (wf_parent h n p Hw Hn Hp). pose proof (idx_in h n Hn). lia.
Qed.

(* the climb ends, at a recorded root above the node (or at the node itself) *)
Lemma root_id_above h : wf h = true -> forall n, In n h ->
  exists rm, In rm h /\ n_parent rm = None /\ root_id h (n_id n) = Some (n_id rm) /\ (n = rm \/ under h [] (n_id rm) n).
Proof.
  (* by induction on the position of n in h: in a well-formed history the parent stands before its child (wf_parent) *)
  intros Hw n. remember (idx h (n_id n)) as k eqn:Ek. revert n Ek.
  induction k as [k IH] using lt_wf_ind. intros n -> Hn.
  destruct (n_parent n) as [p|] eqn:P.
  - (* n has a parent m: the root above m is the root above n *)
    destruct (wf_parent_in h n p Hw Hn P) as (m & Hm & <-).
    destruct (IH _ (wf_parent h n _ Hw Hn P) m eq_refl Hm) as (rm & Hrm & Prm & Er & Hu).
    exists rm. rewrite (root_id_parent h n _ Hw Hn P).
    split; [exact Hrm|]. split; [exact Prm|]. split; [exact Er|]. right.
    destruct Hu as [->|Hu]; [apply under_child | apply under_step with m]; auto using in_nil.
  - (* n is a root *)
    exists n. rewrite (root_id_root h n (wf_nodup h Hw) Hn P). auto.
Qed.

Lemma root_id_under h rm n : wf h = true -> In rm h -> n_parent rm = None ->
  under h [] (n_id rm) n -> root_id h (n_id n) = Some (n_id rm).
Proof.
  intros Hw Hrm Prm H.
  induction H as [n Hn Hp _ | n m Hn Hp _ _ IH]; rewrite (root_id_parent h n _ Hw Hn Hp); [|exact IH].
  apply root_id_root; auto. apply wf_nodup. exact Hw.
Qed.

Lemma same_tree_root h a b r : root_id h (n_id b) = Some r -> (same_tree h a b = true <-> root_id h (n_id a) = Some r).
Proof.
  unfold same_tree. intros ->. destruct (root_id h (n_id a)) as [x|]; cbn [opt_N_eqb]; [|split; discriminate].
  rewrite N.eqb_eq. split; congruence.
Qed.

(* for any case of a well-formed history: the root unless it is the case, then what is reached from the root
   without passing through the case *)
Theorem find_related_reachable h c : wf h = true -> In c h ->
  exists rm l, In rm h /\ n_parent rm = None /\ root_id h (n_id c) = Some (n_id rm) /\
    find_related h (n_id c) = Some l /\ NoDup (ids l) /\
    forall n, In n l <-> (n = rm /\ n_id rm <> n_id c) \/ under h [n_id c] (n_id rm) n.
Proof.
  intros Hw Hc. pose proof (wf_nodup h Hw) as Hd.
  destruct (root_id_above h Hw c Hc) as (rm & Hrm & Prm & Er & _).
  exists rm. unfold find_related. rewrite Er, (nodup_get h rm Hd Hrm).
  destruct (mem (n_id rm) [n_id c]) eqn:E.
  - (* the case is the root: it is not yielded, and seen = [c] *)
    apply mem_spec in E. destruct E as [E|[]].
    destruct (traverse_under h (n_id rm) [n_id c] Hd) as (out & seen' & -> & Hnd & Hiff).
    { constructor; [apply in_nil|constructor]. }
    exists out. repeat split; auto.
    + intros Hn. right. apply Hiff. exact Hn.
    + intros [[_ Hne]|Hu]; [congruence|]. apply Hiff. exact Hu.
  - (* the root is yielded and joins the seen set, which changes nothing below it *)
    apply mem_false in E.
    destruct (traverse_under h (n_id rm) [n_id rm; n_id c] Hd) as (out & seen' & -> & Hnd & Hiff).
    { constructor; [exact E|constructor; [apply in_nil|constructor]]. }
    assert (n_id rm <> n_id c) as Hne by (intros Hc'; apply E; left; symmetry; exact Hc').
    exists (rm :: out). repeat split; auto.
    + unfold ids. cbn [map]. constructor; [|exact Hnd].
      intros Hin. apply in_map_iff in Hin. destruct Hin as (x & Ex & Hx).
      apply Hiff, under_unseen in Hx. apply Hx. left. symmetry. exact Ex.
    + intros [<-|Hn]; [left; auto|]. right. apply Hiff in Hn. revert Hn. apply under_weaken. intros i Hi. right. exact Hi.
    + intros [[-> _]|Hu]; [left; reflexivity|]. right. apply Hiff. apply under_add_root; assumption.
Qed.

Lemma find_related_in h c : wf h = true -> In c h ->
  exists l, find_related h (n_id c) = Some l /\ forall r, In r l -> In r h /\ n_id r <> n_id c.
Proof.
  intros Hw Hc. destruct (find_related_reachable h c Hw Hc) as (rm & l & Hrm & _ & _ & Hfr & _ & Hiff).
  exists l. split; [exact Hfr|]. intros r Hr. apply Hiff in Hr. destruct Hr as [[-> Hne]|Hu]; [auto|].
  split; [apply under_in in Hu; exact Hu|]. intros E. apply (under_unseen _ _ _ _ Hu). left. symmetry. exact E.
Qed.

(* nothing is cut off below a leaf, and a root is not passed through: the whole tree but the case *)
Lemma find_related_is_tree h c : wf h = true -> In c h -> (is_root c || is_leaf h c) = true ->
  exists l, find_related h (n_id c) = Some l /\ NoDup (ids l) /\
    forall n, In n l <-> (In n h /\ n_id n <> n_id c /\ same_tree h n c = true).
Proof.
  intros Hw Hc Hrl. pose proof (wf_nodup h Hw) as Hd.
  destruct (find_related_reachable h c Hw Hc) as (rm & l & Hrm & Prm & Er & Hfr & Hnd & Hiff).
  exists l. split; [exact Hfr|]. split; [exact Hnd|].
  intros n. rewrite Hiff, (same_tree_root h n c _ Er). split.
  - intros [[-> Hne]|Hu].
    + (* n is the root *) repeat split; auto. apply root_id_root; assumption.
    + (* n is below the root *) split; [apply under_in in Hu; exact Hu|]. split.
      * intros E. apply (under_unseen _ _ _ _ Hu). left. symmetry. exact E.
      * apply root_id_under; auto. revert Hu. apply under_weaken. intros i [].
  - intros (Hn & Hne & Ern).
    destruct (root_id_above h Hw n Hn) as (rm' & Hrm' & Prm' & Ern' & Hu).
    rewrite Ern in Ern'. injection Ern' as E. apply (nodup_inj h rm rm' Hd Hrm Hrm') in E. subst rm'.
    destruct Hu as [->|Hu]; [left; auto|right].
    apply under_avoid; [exact Hu|intros [E|[]]; congruence|].
    (* a node m = c between the root and n: then c has a parent and n is below c *)
    intros m Hm Hmn [E|[]]. apply (nodup_inj h c m Hd Hc (under_in _ _ _ _ Hm)) in E. subst m.
    apply orb_true_iff in Hrl. destruct Hrl as [Hroot|Hleaf].
    + apply (under_parent _ _ _ _ Hm). unfold is_root in Hroot. destruct (n_parent c); [discriminate|reflexivity].
    + exact (leaf_not_under h [] c n Hleaf Hmn).
Qed.

Lemma ref_match_long lv rv : forall l r, (length r < length l)%nat -> ref_match lv rv l r = false.
Proof.
  induction l as [|a l IH]; intros r H; cbn [length] in H; [lia|].
  destruct r as [|b r]; [reflexivity|]. cbn [ref_match length] in *. rewrite IH; [apply andb_false_r|lia].
Qed.

Lemma zip_match_region lv rv : forall l r, seg_region lv rv l r = true -> (length l <= length r)%nat ->
  zip_match lv rv l r = Some (ref_match lv rv l r).
Proof.
  induction l as [|a l IH]; intros r Hreg Hlen; [destruct r; reflexivity|].
  destruct r as [|b r]; [cbn [length] in Hlen; lia|].
  cbn [seg_region] in Hreg. apply andb_true_iff in Hreg. destruct Hreg as [Hseg Hreg].
  cbn [length] in Hlen. assert (length l <= length r)%nat as Hlen' by lia.
  unfold zip_match in *. cbn [zip_match_with ref_match]. unfold seg_same.
  destruct (starts_brace a && starts_brace b).
  - destruct (rp_get lv a) as [x|]; [|discriminate]. destruct (rp_get rv b) as [y|]; [|discriminate].
    destruct (str_eqb x y); [apply IH; assumption|reflexivity].
  - destruct (str_eqb a b); cbn [negb andb orb] in *.
    + apply IH; assumption.
    + rewrite Hseg. reflexivity.
Qed.

Lemma is_prefix_in_region lp lv rp rv : prefix_region lp lv rp rv = true ->
  is_prefix lp lv rp rv = Some (resource_prefix lp lv rp rv).
Proof.
  unfold prefix_region, is_prefix, is_prefix_with, resource_prefix. intros H.
  destruct (Nat.ltb (length (parts rp)) (length (parts lp))) eqn:E.
  - apply Nat.ltb_lt in E. rewrite ref_match_long; auto.
  - apply Nat.ltb_ge in E. apply zip_match_region; assumption.
Qed.

Lemma is_prefix_n_in_region h c d : prefix_region_all h c = true -> In d h ->
  is_prefix_n d c = Some (same_resource d c).
Proof.
  unfold prefix_region_all. rewrite forallb_forall. intros H Hd. apply is_prefix_in_region. apply (H d Hd).
Qed.

(* whatever normalisation is applied to unequal literal segments, what the reference accepts is accepted *)
Lemma zip_match_with_ref norm lv rv : forall l r, ref_match lv rv l r = true -> zip_match_with norm lv rv l r = Some true.
Proof.
  induction l as [|a l IH]; intros r H; [destruct r; reflexivity|].
  destruct r as [|b r]; [discriminate|].
  cbn [ref_match] in H. apply andb_true_iff in H. destruct H as [Hs H].
  cbn [zip_match_with]. unfold seg_same in Hs.
  destruct (starts_brace a && starts_brace b).
  - destruct (rp_get lv a) as [x|]; [|discriminate]. destruct (rp_get rv b) as [y|]; [|discriminate].
    rewrite Hs. apply IH. exact H.
  - rewrite Hs. cbn [negb andb]. apply IH. exact H.
Qed.

Lemma is_prefix_with_lenient norm lp lv rp rv :
  resource_prefix lp lv rp rv = true -> is_prefix_with norm lp lv rp rv = Some true.
Proof.
  unfold resource_prefix, is_prefix_with. intros H.
  destruct (Nat.ltb (length (parts rp)) (length (parts lp))) eqn:E.
  - apply Nat.ltb_lt in E. rewrite ref_match_long in H; [discriminate|exact E].
  - apply zip_match_with_ref. exact H.
Qed.

Lemma last_split h c : nodup_ids h = true -> is_last h c = true ->
  exists h' n, h = h' ++ [n] /\ n_id n = n_id c /\ forall x, In x h' -> n_id x <> n_id c.
Proof.
  unfold is_last. destruct (rev h) as [|n t] eqn:E; [discriminate|]. intros Hd H. apply N.eqb_eq in H.
  apply (f_equal (@rev node)) in E. rewrite rev_involutive in E. cbn [rev] in E. subst h.
  exists (rev t), n. split; [reflexivity|]. split; [exact H|]. rewrite <- H. clear H.
  induction (rev t) as [|a h' IH]; intros x Hx; [destruct Hx|].
  cbn [app] in Hd. apply nodup_ids_cons in Hd. destruct Hd as [Ha Hd].
  destruct Hx as [<-|Hx]; [|apply IH; assumption].
  intros E. apply (Ha n); [apply in_or_app; right; left; reflexivity|symmetry; exact E].
Qed.

Lemma earlier_idx_snoc h' n c : (forall x, In x h' -> n_id x <> n_id c) -> n_id n = n_id c ->
  earlier (h' ++ [n]) c = h' /\ idx (h' ++ [n]) (n_id c) = length h'.
Proof.
  intros H E. induction h' as [|a h' IH]; cbn [app earlier idx length].
  - rewrite E, N.eqb_refl. auto.
  - assert (N.eqb (n_id a) (n_id c) = false) as -> by (apply N.eqb_neq; apply H; left; reflexivity).
    destruct IH as [-> ->]; [|auto]. intros x Hx. apply H. right. exact Hx.
Qed.

Lemma earlier_incl h c x : In x (earlier h c) -> In x h /\ n_id x <> n_id c.
Proof.
  induction h as [|a h IH]; cbn [earlier]; [intros []|].
  destruct (N.eqb (n_id a) (n_id c)) eqn:E; [intros []|].
  intros [<-|Hx]; [split; [left; reflexivity|apply N.eqb_neq; exact E]|].
  destruct (IH Hx) as [H1 H2]. split; [right; exact H1|exact H2].
Qed.

Lemma later_incl l p x : In x (later l p) -> In x l.
Proof.
  induction l as [|a l IH]; cbn [later]; [intros []|].
  destruct (N.eqb (n_id a) (n_id p)); intros H; right; [exact H|apply IH; exact H].
Qed.

Lemma last_earlier h c x : wf h = true -> is_last h c = true -> In x h -> n_id x <> n_id c -> In x (earlier h c).
Proof.
  intros Hw Hl Hx Hne. destruct (last_split h c (wf_nodup _ Hw) Hl) as (h' & n & -> & E & Hs).
  rewrite (proj1 (earlier_idx_snoc h' n c Hs E)).
  apply in_app_or in Hx. destruct Hx as [Hx|[<-|[]]]; [exact Hx|contradiction].
Qed.

Lemma last_leaf h c : wf h = true -> is_last h c = true -> is_leaf h c = true.
Proof.
  intros Hw Hl. unfold is_leaf. apply negb_true_iff, not_true_iff_false. intros Ex.
  apply existsb_exists in Ex. destruct Ex as (m & Hm & Hc). apply is_child_spec in Hc.
  pose proof (wf_parent h m _ Hw Hm Hc) as Hlt. pose proof (idx_in h m Hm) as Hlen.
  destruct (last_split h c (wf_nodup _ Hw) Hl) as (h' & n & -> & E & Hs).
  rewrite (proj2 (earlier_idx_snoc h' n c Hs E)) in Hlt.
  rewrite app_length in Hlen. cbn [length] in Hlen. lia.
Qed.

Lemma freed_before_spec h c l : freed_before h c l = true <->
  exists d, In d l /\ same_tree h d c = true /\ has_method M_DELETE d = true /\ succeeded d = true /\ same_resource d c = true.
Proof.
  unfold freed_before. rewrite existsb_exists. split; intros (d & Hd & H); exists d; (split; [exact Hd|]).
  - apply andb_true_iff in H. destruct H as [H H4]. apply andb_true_iff in H. destruct H as [H H3].
    apply andb_true_iff in H. destruct H as [H1 H2]. auto.
  - destruct H as (-> & -> & -> & ->). reflexivity.
Qed.

Lemma freed_before_incl h c l l' : (forall x, In x l -> In x l') -> freed_before h c l = true -> freed_before h c l' = true.
Proof.
  unfold freed_before. rewrite !existsb_exists. intros Hl (d & Hd & H). exists d. split; [apply Hl; exact Hd|exact H].
Qed.

(* Both checks run a loop over find_related that stops at the first node passing a test.  When the case is the one recorded
   last, find_related yields the earlier nodes of its tree; so if the test is the property's "successful DELETE on the same
   resource", some yielded node passes it exactly when the resource was freed before. *)
Lemma related_freed h c test : wf h = true -> In c h -> is_last h c = true ->
  (forall d, In d h -> test d = has_method M_DELETE d && succeeded d && same_resource d c) ->
  exists l, find_related h (n_id c) = Some l /\ (forall r, In r l -> In r h) /\
    existsb test l = freed_before h c (earlier h c).
Proof.
  intros Hw Hc Hl Htest.
  destruct (find_related_is_tree h c Hw Hc) as (l & Hfr & _ & Hiff); [rewrite (last_leaf h c Hw Hl); apply orb_true_r|].
  exists l. split; [exact Hfr|]. split; [intros r Hr; apply Hiff in Hr; apply Hr|].
  apply eq_true_iff_eq. rewrite existsb_exists, freed_before_spec. split; intros (d & Hd & H); exists d.
  - apply Hiff in Hd. destruct Hd as (Hdh & Hne & Hs). rewrite (Htest d Hdh) in H.
    apply andb_true_iff in H. destruct H as [H Hres]. apply andb_true_iff in H. destruct H as [Hm Hok].
    split; [apply last_earlier; assumption|auto].
  - destruct H as (Hs & Hm & Hok & Hres). apply earlier_incl in Hd. destruct Hd as [Hdh Hne].
    split; [apply Hiff; auto|]. rewrite (Htest d Hdh), Hm, Hok, Hres. reflexivity.
Qed.

Lemma lower_upper_c c x : 97 <= x -> x <= 122 -> (lower_c c = x <-> upper_c c = x - 32).
Proof.
  intros H1 H2. unfold lower_c, upper_c.
  destruct (is_upper c) eqn:U; destruct (is_lower c) eqn:L; unfold is_upper, is_lower in U, L;
    rewrite ?andb_true_iff, ?andb_false_iff, ?N.leb_le, ?N.leb_gt in U, L.
  - (* upper-case and lower-case at once: impossible *) lia.
  - (* c upper-case: c + 32 = x  <->  c = x - 32 *) lia.
  - (* c lower-case: c = x  <->  c - 32 = x - 32 *) lia.
  - (* c no letter: neither c = x, as x is a lower-case letter, nor c = x - 32, an upper-case one *) lia.
Qed.

Lemma lower_upper_str : forall t m, Forall (fun x => 97 <= x /\ x <= 122) t ->
  (lower_ascii m = t <-> upper_ascii m = map (fun x => x - 32) t).
Proof.
  induction t as [|x t IH]; intros m Ht.
  - destruct m; cbn; split; intros H; try reflexivity; discriminate.
  - inversion Ht as [|? ? [Hx1 Hx2] Ht']; subst. destruct m as [|c m]; [cbn; split; discriminate|].
    unfold lower_ascii, upper_ascii in *. cbn [map]. split; intros H; injection H as Hc Hm.
    + f_equal; [apply (proj1 (lower_upper_c c x Hx1 Hx2)); exact Hc | apply (proj1 (IH m Ht')); exact Hm].
    + f_equal; [apply (proj2 (lower_upper_c c x Hx1 Hx2)); exact Hc | apply (proj2 (IH m Ht')); exact Hm].
Qed.

(* use_after_free tests method.lower() == "delete", ensure_resource_availability method.upper() == "DELETE": the same test.
   M_DELETE is M_delete with 32 taken from every character, which is how lower_upper_str wants it *)
Lemma delete_lower_upper m : str_eqb (lower_ascii m) M_delete = str_eqb (upper_ascii m) M_DELETE.
Proof.
  apply eq_true_iff_eq. rewrite !str_eqb_spec.
  change M_DELETE with (map (fun x => x - 32) M_delete). apply lower_upper_str.
  unfold M_delete. repeat (apply Forall_cons; [split; lia|]). apply Forall_nil.
Qed.

(* what one iteration of uaf_loop tests of r, when nothing raises *)
Definition uaf_test (h : history) (c r : node) : bool :=
  match find_parent h (n_id r) with
  | FPSome p => str_eqb (lower_ascii (n_method r)) M_delete && in_2xx (find_response h (n_id p)) &&
                match is_prefix_n r c with Some true => true | _ => false end
  | _ => false
  end.

Lemma uaf_loop_wf h c : wf h = true -> prefix_region_all h c = true -> forall rel, (forall r, In r rel -> In r h) ->
  reported (uaf_loop h c rel) = existsb (uaf_test h c) rel.
Proof.
  intros Hw Hreg. induction rel as [|r rel IH]; intros Hl; [reflexivity|].
  assert (reported (uaf_loop h c rel) = existsb (uaf_test h c) rel) as IH'.
  { apply IH. intros x Hx. apply Hl. right. exact Hx. }
  pose proof (Hl r (or_introl eq_refl)) as Hr.
  (* on a well-formed history inside the region neither find_parent asserts nor the prefix test raises *)
  cbn [uaf_loop existsb]. unfold uaf_test at 1. rewrite (is_prefix_n_in_region h c r Hreg Hr).
  destruct (find_parent_wf h r Hw Hr) as [[_ ->]|(p & _ & _ & ->)]; [exact IH'|].
  destruct (str_eqb (lower_ascii (n_method r)) M_delete && in_2xx (find_response h (n_id p))); [|exact IH'].
  destruct (same_resource r c); [reflexivity|exact IH'].
Qed.

(* the response use_after_free reads for a DELETE r is the one parent_2xx looks at *)
Lemma parent_2xx_find_parent h r : wf h = true -> In r h ->
  (find_parent h (n_id r) = FPNone /\ parent_2xx h r = false) \/
  (exists p, find_parent h (n_id r) = FPSome p /\ parent_2xx h r = in_2xx (find_response h (n_id p))).
Proof.
  intros Hw Hr. unfold parent_2xx.
  destruct (find_parent_wf h r Hw Hr) as [[-> E]|(p & -> & _ & E)]; [left; auto | right; exists p; auto].
Qed.

(* inside the regions one iteration tests what the property text asks of a DELETE: delete_agrees_with_parent lets the
   parent's status, which the code reads, stand for the DELETE's own *)
Lemma uaf_test_spec h c r : wf h = true -> In r h ->
  delete_agrees_with_parent h = true -> prefix_region_all h c = true ->
  uaf_test h c r = has_method M_DELETE r && succeeded r && same_resource r c.
Proof.
  intros Hw Hr Hag Hreg. unfold delete_agrees_with_parent in Hag. rewrite forallb_forall in Hag. specialize (Hag r Hr).
  unfold uaf_test. rewrite delete_lower_upper, (is_prefix_n_in_region h c r Hreg Hr). fold (has_method M_DELETE r).
  destruct (has_method M_DELETE r); cbn [negb orb] in Hag.
  - apply eqb_prop in Hag. rewrite <- Hag.
    destruct (parent_2xx_find_parent h r Hw Hr) as [[-> ->]|(p & -> & ->)].
    + (* a DELETE without parent is skipped by the loop, and did not succeed by the region *)
      reflexivity.
    + (* a DELETE with a recorded parent *)
      destruct (same_resource r c); reflexivity.
  - (* not a DELETE *)
    destruct (find_parent h (n_id r)); reflexivity.
Qed.

Lemma uaf_required_allowed h c st : uaf_required h c st = true -> uaf_allowed h c st = true.
Proof. unfold uaf_required. intros H. apply andb_true_iff in H. apply H. Qed.

Lemma uaf_reported_iff_required h c st : wf h = true -> In c h -> is_last h c = true ->
  delete_agrees_with_parent h = true -> prefix_region_all h c = true -> (st <? 600) = true ->
  reported (use_after_free h c st) = uaf_required h c st /\
  (uaf_required h c st = true -> uaf_allowed h c st = true).
Proof.
  intros Hw Hc Hl Hag Hreg Hst. split; [|apply uaf_required_allowed].
  destruct (related_freed h c (uaf_test h c) Hw Hc Hl) as (l & Hfr & Hlh & Hex).
  { intros d Hd. apply uaf_test_spec; assumption. }
  (* the code skips the check from 500 on, the reference only inside 500..599: they agree below 600 *)
  unfold use_after_free, uaf_required, uaf_allowed. rewrite Hfr, Hst, <- Hex.
  destruct (N.eqb st 404); [(* 404 *) reflexivity|]. destruct (500 <=? st); cbn [orb negb andb].
  - (* 5xx *) rewrite andb_false_r. reflexivity.
  - (* any other status: the loop decides *) rewrite andb_true_r. apply uaf_loop_wf; assumption.
Qed.

(* what one iteration of avail_loop tests of r, when nothing raises *)
Definition avail_test (h : history) (c r : node) : bool :=
  str_eqb (upper_ascii (n_method r)) M_DELETE && in_2xx (find_response h (n_id r)) &&
  match is_prefix_n r c with Some true => true | _ => false end.

Lemma avail_loop_reported h c b : forall rel x, avail_loop h c b rel = Reported x ->
  x = b /\ existsb (avail_test h c) rel = false.
Proof.
  induction rel as [|r rel IH]; intros x H; cbn [avail_loop existsb] in *.
  - inversion H. auto.
  - unfold avail_test at 1.
    destruct (str_eqb (upper_ascii (n_method r)) M_DELETE && in_2xx (find_response h (n_id r))); [|exact (IH x H)].
    destruct (is_prefix_n r c) as [[|]|]; try discriminate. exact (IH x H).
Qed.

Lemma avail_test_spec h c r : nodup_ids h = true -> In r h -> prefix_region_all h c = true ->
  avail_test h c r = has_method M_DELETE r && succeeded r && same_resource r c.
Proof.
  intros Hd Hr Hreg. unfold avail_test, has_method, succeeded.
  rewrite (find_response_in h r Hd Hr), (is_prefix_n_in_region h c r Hreg Hr).
  destruct (same_resource r c); reflexivity.
Qed.

(* every test the check went through when it reports, on any history *)
Lemma avail_reported h c st : reported (ensure_resource_availability h c st) = true ->
  (400 <=? st) && (st <? 500) = true /\
  exists p ps rel, find_parent h (n_id c) = FPSome p /\ find_response h (n_id p) = Some ps /\
    str_eqb (upper_ascii (n_method p)) M_POST && in_2xx_3xx (Some ps) = true /\
    is_prefix_n p c = Some true /\ overrides_all c = true /\ find_related h (n_id c) = Some rel /\
    reported (avail_loop h c (n_id p) rel) = true.
Proof.
  unfold ensure_resource_availability. intros H.
  destruct ((400 <=? st) && (st <? 500)); [|discriminate].
  destruct (find_parent h (n_id c)) as [|p|]; try discriminate.
  destruct (find_response h (n_id p)) as [ps|] eqn:Er; [|discriminate].
  destruct (str_eqb (upper_ascii (n_method p)) M_POST && in_2xx_3xx (Some ps)) eqn:Em; [|discriminate].
  destruct (is_prefix_n p c) as [[|]|] eqn:Ep; try discriminate.
  destruct (overrides_all c); [|discriminate].
  destruct (find_related h (n_id c)) as [rel|]; [|discriminate].
  split; [reflexivity|]. exists p, ps, rel. repeat split; assumption.
Qed.

Lemma avail_with_is_code h c st :
  ensure_resource_availability_with overrides_all h c st = ensure_resource_availability h c st.
Proof. reflexivity. Qed.

(* the same on a well-formed history inside the prefix region: the parent is recorded and the lookups are its fields *)
Lemma avail_reported_wf h c st : wf h = true -> In c h -> prefix_region_all h c = true ->
  reported (ensure_resource_availability h c st) = true ->
  (400 <=? st) && (st <? 500) = true /\
  exists p ps rel, n_parent c = Some (n_id p) /\ In p h /\ n_status p = Some ps /\
    has_method M_POST p = true /\ in_2xx_3xx (Some ps) = true /\ same_resource p c = true /\
    find_related h (n_id c) = Some rel /\ reported (avail_loop h c (n_id p) rel) = true.
Proof.
  intros Hw Hc Hreg Hrep.
  apply avail_reported in Hrep. destruct Hrep as (E4 & p & ps & rel & Efp & Eresp & Em & Epre & _ & Efr & Eloop).
  destruct (find_parent_wf h c Hw Hc) as [[_ E]|(p' & Pp & Hp & E)]; rewrite E in Efp; [discriminate|].
  injection Efp as ->.
  rewrite (find_response_in h p (wf_nodup _ Hw) Hp) in Eresp.
  apply andb_true_iff in Em. destruct Em as [Em Ews].
  rewrite (is_prefix_n_in_region h c p Hreg Hp) in Epre. injection Epre as Eres.
  split; [exact E4|]. exists p, ps, rel. repeat split; assumption.
Qed.

Lemma avail_reported_overridden h c st : reported (ensure_resource_availability h c st) = true ->
  forall q, In q (n_params c) -> param_overridden c q = true.
Proof.
  intros Hrep. apply avail_reported in Hrep. destruct Hrep as (_ & p & ps & rel & _ & _ & _ & _ & Eov & _).
  unfold overrides_all in Eov. rewrite forallb_forall in Eov. exact Eov.
Qed.

Lemma linked_at_In c p : linked_at c p = true <-> In p (n_linked c).
Proof.
  unfold linked_at. rewrite existsb_exists. split.
  - intros (q & Hq & E). apply andb_true_iff in E. destruct E as [E1 E2].
    apply N.eqb_eq in E1. apply str_eqb_spec in E2. destruct p, q. cbn in *. subst. exact Hq.
  - intros Hp. exists p. split; [exact Hp|]. rewrite N.eqb_refl, str_eqb_refl. reflexivity.
Qed.

(* inside override_faithful what the override test accepted was linked *)
Lemma avail_reported_linked h c st : override_faithful c = true ->
  reported (ensure_resource_availability h c st) = true -> forall q, In q (n_params c) -> linked_at c q = true.
Proof.
  intros Hov Hrep q Hq. pose proof (avail_reported_overridden h c st Hrep q Hq) as Eov.
  unfold override_faithful in Hov. rewrite forallb_forall in Hov. specialize (Hov q Hq).
  rewrite Eov in Hov. exact Hov.
Qed.

Lemma window_2xx s : in_2xx_3xx (Some s) = true -> negb ((300 <=? s) && (s <? 400)) = true -> in_2xx (Some s) = true.
Proof.
  cbn [in_2xx_3xx in_2xx]. intros A B. apply andb_true_iff in A. destruct A as [A1 A2].
  rewrite A1. rewrite A2, andb_true_r in B. apply negb_true_iff, N.leb_gt in B. apply N.ltb_lt. exact B.
Qed.

Lemma avail_sound h c st : wf h = true -> In c h -> is_last h c = true ->
  prefix_region_all h c = true -> parent_not_3xx h c = true -> override_faithful c = true ->
  reported (ensure_resource_availability h c st) = true -> avail_allowed h c st = true.
Proof.
  intros Hw Hc Hl Hreg H3 Hov Hrep. pose proof (wf_nodup _ Hw) as Hd.
  pose proof (avail_reported_linked h c st Hov Hrep) as Hlinked.
  apply avail_reported_wf in Hrep; [|assumption..].
  destruct Hrep as (E4 & p & ps & rel & Pp & Hp & Sp & Em & Ews & Eres & Efr & Eloop).
  unfold avail_allowed. rewrite E4, Pp, (nodup_get h p Hd Hp), Em, Eres. cbn [andb].
  assert (succeeded p = true) as ->.
  { (* 2xx-3xx by the check, not 3xx by the region *)
    unfold succeeded. rewrite Sp. apply window_2xx; [exact Ews|].
    unfold parent_not_3xx in H3. rewrite Pp, (find_response_in h p Hd Hp), Sp in H3. exact H3. }
  assert (all_linked c = true) as -> by (apply forallb_forall; exact Hlinked).
  (* no node passed the loop's test, so nothing freed the resource before, let alone since the POST *)
  destruct (related_freed h c (avail_test h c) Hw Hc Hl) as (l & Hfr & _ & Hex).
  { intros d Hdh. apply avail_test_spec; assumption. }
  rewrite Hfr in Efr. injection Efr as <-.
  destruct (avail_loop h c (n_id p) l) as [|x|] eqn:El; try discriminate.
  apply avail_loop_reported in El. destruct El as [_ Hno]. rewrite Hex in Hno.
  apply negb_true_iff, not_true_iff_false. intros Ex. rewrite (freed_before_incl h c _ _ (later_incl _ p) Ex) in Hno.
  discriminate.
Qed.

(* a case no other recorded case shares a resource with is never accused, wherever it stands in the history *)
Lemma uaf_unrelated h c st : wf h = true -> In c h -> prefix_region_all h c = true ->
  (forall d, In d h -> n_id d <> n_id c -> same_resource d c = false) ->
  reported (use_after_free h c st) = false.
Proof.
  intros Hw Hc Hreg Hun. unfold use_after_free. destruct (N.eqb st 404 || (500 <=? st)); [reflexivity|].
  destruct (find_related_in h c Hw Hc) as (l & -> & Hl).
  rewrite (uaf_loop_wf h c Hw Hreg l (fun r Hr => proj1 (Hl r Hr))).
  apply not_true_iff_false. intros Ex. apply existsb_exists in Ex. destruct Ex as (r & Hr & Ht).
  destruct (Hl r Hr) as [Hrh Hne]. unfold uaf_test in Ht.
  rewrite (is_prefix_n_in_region h c r Hreg Hrh), (Hun r Hrh Hne) in Ht.
  destruct (find_parent h (n_id r)); [discriminate| |discriminate]. rewrite andb_false_r in Ht. discriminate.
Qed.

Lemma avail_unrelated h c st : wf h = true -> In c h -> prefix_region_all h c = true ->
  (forall d, In d h -> n_id d <> n_id c -> same_resource d c = false) ->
  reported (ensure_resource_availability h c st) = false.
Proof.
  intros Hw Hc Hreg Hun. apply not_true_iff_false. intros Hrep.
  apply avail_reported_wf in Hrep; [|assumption..]. destruct Hrep as (_ & p & ps & rel & Pp & Hp & _ & _ & _ & Eres & _).
  rewrite Hun in Eres; [discriminate|exact Hp|].
  intros E'. pose proof (wf_parent h c _ Hw Hc Pp) as Hlt. rewrite E' in Hlt. apply (Nat.lt_irrefl _ Hlt).
Qed.

Definition s_users : str := [47; 117; 115; 101; 114; 115].                       (* /users *)
Definition s_users_id : str := s_users ++ [47; 123; 105; 100; 125].              (* /users/{id} *)
Definition s_id : str := [105; 100].                                                (* id *)
Definition s_one : str := [49].                                                     (* 1 *)
Definition m_get : str := [103; 101; 116].                                          (* get *)
Definition m_post : str := [112; 111; 115; 116].                                    (* post *)
Definition m_delete : str := [100; 101; 108; 101; 116; 101].                        (* delete *)
Definition no_comp : comp := {| c_generated := false; c_stored := None; c_current := None |}.
Definition explicit (d : dict) : comp := {| c_generated := false; c_stored := Some d; c_current := Some d |}.
Definition generated (d : dict) : comp := {| c_generated := true; c_stored := Some d; c_current := Some d |}.

Definition mkn (i : N) (parent : option N) (m : str) (path : str) (pp : comp) (params linked : list (N * str)) (st : option N) : node :=
  {| n_id := i; n_parent := parent; n_method := m; n_path := path; n_pp := pp; n_query := no_comp; n_headers := no_comp; n_cookies := no_comp;
     n_params := params; n_linked := linked; n_status := st |}.

Definition id1 : comp := explicit [(s_id, s_one)].
Definition p_id : list (N * str) := [(0, s_id)].

Definition post_users (i : N) (parent : option N) (st : N) := mkn i parent m_post s_users no_comp [] [] (Some st).
Definition delete_user1 (i : N) (parent : option N) (st : N) := mkn i parent m_delete s_users_id id1 p_id p_id (Some st).
Definition get_user1 (i : N) (parent : option N) (st : N) := mkn i parent m_get s_users_id id1 p_id p_id (Some st).

(* F1: POST 201 -> DELETE 404 -> GET 200 *)
Definition c_unsound := get_user1 3 (Some 2) 200.
Definition h_unsound : history := [post_users 1 None 201; delete_user1 2 (Some 1) 404; c_unsound].
(* F2: DELETE 204 (root) -> GET 200 *)
Definition c_missed := get_user1 2 (Some 1) 200.
Definition h_missed : history := [delete_user1 1 None 204; c_missed].
(* the canonical sequence: POST 201 -> DELETE 204 -> GET 200 *)
Definition c_canon := get_user1 3 (Some 2) 200.
Definition h_canon : history := [post_users 1 None 201; delete_user1 2 (Some 1) 204; c_canon].

(* F4: the subtree of a case that is neither root nor leaf is skipped *)
Definition c_mid := get_user1 2 (Some 1) 200.
Definition n_below := get_user1 3 (Some 2) 200.
Definition h_chain : history := [post_users 1 None 201; c_mid; n_below].

Lemma find_related_nonvacuous :
  wf h_canon = true /\ In c_canon h_canon /\ (is_root c_canon || is_leaf h_canon c_canon) = true /\
  option_map ids (find_related h_canon (n_id c_canon)) = Some [1; 2].
Proof.
  assert (In c_canon h_canon) as Hin by (right; right; left; reflexivity).
  repeat apply conj; try exact Hin; vm_compute; reflexivity.
Qed.

Definition s_cla : str := [47; 99; 108; 97].                                          (* /cla *)
Definition s_cla_id : str := [47; 99; 108; 97; 47; 123; 105; 100; 125].               (* /cla/{id} *)
Definition s_clas_id : str := [47; 99; 108; 97; 115; 47; 123; 105; 100; 125].        (* /clas/{id} *)
Definition s_class_id : str := [47; 99; 108; 97; 115; 115; 47; 123; 105; 100; 125].  (* /class/{id} *)

Lemma prefix_region_nonvacuous :
  prefix_region s_users_id [(s_id, s_one)] (s_users_id ++ [47; 120]) [(s_id, s_one)] = true /\
  resource_prefix s_users_id [(s_id, s_one)] (s_users_id ++ [47; 120]) [(s_id, s_one)] = true.
Proof. split; vm_compute; reflexivity. Qed.

(* F7 seen from the checks: DELETE /cla/1 accused for GET /clas/1 *)
Definition c_clas := mkn 3 (Some 2) m_get s_clas_id id1 p_id p_id (Some 200).
Definition h_clas : history :=
  [mkn 1 None m_post s_cla no_comp [] [] (Some 201); mkn 2 (Some 1) m_delete s_cla_id id1 p_id p_id (Some 204); c_clas].

(* DELETE /clas/1 204 -> GET /class/1 200, which the rule before commit e735a769 accused: all regions hold, nobody is accused *)
Definition c_class := mkn 3 (Some 2) m_get s_class_id id1 p_id p_id (Some 200).
Definition h_class : history :=
  [mkn 1 None m_post s_cla no_comp [] [] (Some 201); mkn 2 (Some 1) m_delete s_clas_id id1 p_id p_id (Some 204); c_class].

(* POST 201 -> GET 404 through a link *)
Definition c_avail := get_user1 2 (Some 1) 404.
Definition h_avail : history := [post_users 1 None 201; c_avail].
(* F5: POST 302 -> GET 404 *)
Definition h_avail_3xx : history := [post_users 1 None 302; c_avail].
(* F6: the child was built with explicit path parameters, no link provided anything *)
Definition c_nolink := mkn 2 (Some 1) m_get s_users_id id1 p_id [] (Some 404).
Definition h_nolink : history := [post_users 1 None 201; c_nolink].

(* another identifier of the same collection: nobody is accused *)
Definition id2 : comp := explicit [(s_id, [50])].                                   (* id = 2 *)
Definition c_other := mkn 3 (Some 2) m_get s_users_id id2 p_id p_id (Some 200).
Definition s_orders : str := [47; 111; 114; 100; 101; 114; 115].   (* /orders *)
Definition h_other : history := [mkn 1 None m_post s_orders no_comp [] [] (Some 201); delete_user1 2 (Some 1) 204; c_other].

(* POST /orgs 201 -> GET /orgs/{id}/members?id=..: the link fills path.id (explicit container), the query id is generated *)
Definition s_orgs : str := [47; 111; 114; 103; 115].                                               (* /orgs *)
Definition s_orgs_members : str := s_orgs ++ [47; 123; 105; 100; 125; 47; 109; 101; 109; 98; 101; 114; 115]. (* /orgs/{id}/members *)
Definition p_id_path_query : list (N * str) := [(0, s_id); (3, s_id)].
Definition post_orgs : node := mkn 1 None m_post s_orgs no_comp [] [] (Some 201).
Definition c_samename : node :=
  {| n_id := 2; n_parent := Some 1; n_method := m_get; n_path := s_orgs_members; n_pp := id1;
     n_query := generated [(s_id, [97])] (* id = a *); n_headers := no_comp; n_cookies := no_comp;
     n_params := p_id_path_query; n_linked := [(0, s_id)]; n_status := Some 404 |}.
Definition h_samename : history := [post_orgs; c_samename].
(* the same request with both ids from the link (both containers explicit): reported, and allowed *)
Definition c_samename_linked : node :=
  {| n_id := 2; n_parent := Some 1; n_method := m_get; n_path := s_orgs_members; n_pp := id1;
     n_query := explicit [(s_id, [97])]; n_headers := no_comp; n_cookies := no_comp;
     n_params := p_id_path_query; n_linked := p_id_path_query; n_status := Some 404 |}.
Definition h_samename_linked : history := [post_orgs; c_samename_linked].
