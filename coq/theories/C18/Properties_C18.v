(* C18: what find_related yields, where the path heuristic is the same-resource relation, and when use_after_free and
   ensure_resource_availability report - each inside executable region hypotheses, with a witness outside each region. *)
From Coq Require Import List NArith Bool.
From Verif Require Import Common.Str C18.Model_C18 C18.Proofs_C18.
Import ListNotations.
Open Scope N_scope.

(* find_related yields every node of the scenario tree of the case except the case itself, each exactly once,
   whatever the shape of the forest - when the case is a root or a leaf (the situation of a check that runs
   right after the response was recorded) *)
Theorem C18_find_related_is_tree_partial : forall h c,
  wf h = true -> In c h -> (is_root c || is_leaf h c) = true ->
  exists l, find_related h (n_id c) = Some l /\ NoDup (map n_id l) /\
    forall n, In n l <-> (In n h /\ n_id n <> n_id c /\ same_tree h n c = true).
Proof. exact find_related_is_tree. Qed.
Print Assumptions C18_find_related_is_tree_partial.

(* ... and for a case in the middle of a chain its own subtree is skipped *)
Theorem C18_find_related_is_tree_refuted : exists h c n,
  wf h = true /\ In c h /\ In n h /\ n_id n <> n_id c /\ same_tree h n c = true /\
  option_map (map n_id) (find_related h (n_id c)) = Some [1].
Proof.
  exists h_chain, c_mid, n_below. repeat apply conj; try (vm_compute; reflexivity).
  - (* In c h *) right. left. reflexivity.
  - (* In n h *) right. right. left. reflexivity.
  - (* n_id n <> n_id c *) vm_compute. discriminate.
Qed.
Print Assumptions C18_find_related_is_tree_refuted.

(* the path heuristic (the removesuffix rule of commit e735a769) is the same-resource-prefix relation when no two compared segments
   differ only in one trailing s and every identifier segment resolves *)
Theorem C18_prefix_is_resource_prefix_partial : forall lp lv rp rv,
  prefix_region lp lv rp rv = true -> is_prefix lp lv rp rv = Some (resource_prefix lp lv rp rv).
Proof. exact is_prefix_in_region. Qed.
Print Assumptions C18_prefix_is_resource_prefix_partial.

(* in every case it accepts what the reference accepts *)
Theorem C18_prefix_lenient : forall lp lv rp rv,
  resource_prefix lp lv rp rv = true -> is_prefix lp lv rp rv = Some true.
Proof. intros lp lv rp rv. apply is_prefix_with_lenient. Qed.
Print Assumptions C18_prefix_lenient.

(* /cla/{id} counts as a prefix of /clas/{id}: one plural s is tolerated (F7) *)
Theorem C18_prefix_is_resource_prefix_refuted : exists lp lv rp rv,
  is_prefix lp lv rp rv = Some true /\ resource_prefix lp lv rp rv = false.
Proof. exists s_cla_id, [(s_id, s_one)], s_clas_id, [(s_id, s_one)]. split; vm_compute; reflexivity. Qed.
Print Assumptions C18_prefix_is_resource_prefix_refuted.

(* SENTINEL, not the code: the rstrip rule before commit e735a769 (every trailing s stripped, F3) takes /clas/{id} for a prefix of
   /class/{id}; the code as it is and the reference do not, and the pair is inside prefix_region *)
Theorem C18_prefix_rstrip_sentinel_refuted : exists lp lv rp rv,
  is_prefix_rstrip lp lv rp rv = Some true /\ is_prefix lp lv rp rv = Some false /\
  resource_prefix lp lv rp rv = false /\ prefix_region lp lv rp rv = true.
Proof. exists s_clas_id, [(s_id, s_one)], s_class_id, [(s_id, s_one)]. repeat apply conj; vm_compute; reflexivity. Qed.
Print Assumptions C18_prefix_rstrip_sentinel_refuted.

(* for the case recorded last in a well-formed history, use_after_free reports exactly when the property text requires
   it, as long as every DELETE answered like its parent and the path heuristic is exact on the history.  st < 600: the
   text says "non-5xx", read as outside 500..599 by uaf_required, while the code skips every status from 500 on *)
Theorem C18_uaf_partial : forall h c st,
  wf h = true -> In c h -> is_last h c = true ->
  delete_agrees_with_parent h = true -> prefix_region_all h c = true -> (st <? 600) = true ->
  reported (use_after_free h c st) = uaf_required h c st /\
  (uaf_required h c st = true -> uaf_allowed h c st = true).
Proof. exact uaf_reported_iff_required. Qed.
Print Assumptions C18_uaf_partial.

(* POST 201 -> DELETE 404 -> GET 200: accused although the delete failed *)
Theorem C18_uaf_unsound_refuted : exists h c st,
  wf h = true /\ In c h /\ is_last h c = true /\ prefix_region_all h c = true /\
  reported (use_after_free h c st) = true /\ uaf_allowed h c st = false.
Proof.
  exists h_unsound, c_unsound, 200.
  assert (In c_unsound h_unsound) as Hin by (right; right; left; reflexivity).
  repeat apply conj; try exact Hin; vm_compute; reflexivity.
Qed.
Print Assumptions C18_uaf_unsound_refuted.

(* DELETE 204 (no parent) -> GET 200: missed *)
Theorem C18_uaf_incomplete_refuted : exists h c st,
  wf h = true /\ In c h /\ is_last h c = true /\ prefix_region_all h c = true /\
  reported (use_after_free h c st) = false /\ uaf_required h c st = true.
Proof.
  exists h_missed, c_missed, 200.
  assert (In c_missed h_missed) as Hin by (right; left; reflexivity).
  repeat apply conj; try exact Hin; vm_compute; reflexivity.
Qed.
Print Assumptions C18_uaf_incomplete_refuted.

(* POST /cla 201 -> DELETE /cla/1 204 -> GET /clas/1 200: accused through the plural tolerance alone (F7) *)
Theorem C18_uaf_prefix_refuted : exists h c st,
  wf h = true /\ In c h /\ is_last h c = true /\ delete_agrees_with_parent h = true /\
  reported (use_after_free h c st) = true /\ uaf_allowed h c st = false.
Proof.
  exists h_clas, c_clas, 200.
  assert (In c_clas h_clas) as Hin by (right; right; left; reflexivity).
  repeat apply conj; try exact Hin; vm_compute; reflexivity.
Qed.
Print Assumptions C18_uaf_prefix_refuted.

(* ... while POST /cla 201 -> DELETE /clas/1 204 -> GET /class/1 200 (accused by the rstrip rule) satisfies every region
   hypothesis and passes *)
Theorem C18_uaf_class_not_accused : exists h c,
  wf h = true /\ In c h /\ is_last h c = true /\ delete_agrees_with_parent h = true /\
  prefix_region_all h c = true /\ use_after_free h c 200 = Pass /\ uaf_allowed h c 200 = false.
Proof.
  exists h_class, c_class.
  assert (In c_class h_class) as Hin by (right; right; left; reflexivity).
  repeat apply conj; try exact Hin; vm_compute; reflexivity.
Qed.
Print Assumptions C18_uaf_class_not_accused.

(* the hypotheses of C18_uaf_partial hold for the canonical create - delete - get sequence, which is reported *)
Theorem C18_uaf_hypotheses_satisfiable : exists h c,
  wf h = true /\ In c h /\ is_last h c = true /\ delete_agrees_with_parent h = true /\
  prefix_region_all h c = true /\ use_after_free h c 200 = Reported 2 /\ uaf_required h c 200 = true.
Proof.
  exists h_canon, c_canon.
  assert (In c_canon h_canon) as Hin by (right; right; left; reflexivity).
  repeat apply conj; try exact Hin; vm_compute; reflexivity.
Qed.
Print Assumptions C18_uaf_hypotheses_satisfiable.

(* for the case recorded last in a well-formed history, ensure_resource_availability reports only in the situation the
   property text allows, as long as the path heuristic is exact on the history, the parent did not answer 3xx and what
   Case._override reports is what a link provided *)
Theorem C18_avail_sound_partial : forall h c st,
  wf h = true -> In c h -> is_last h c = true ->
  prefix_region_all h c = true -> parent_not_3xx h c = true -> override_faithful c = true ->
  reported (ensure_resource_availability h c st) = true -> avail_allowed h c st = true.
Proof. exact avail_sound. Qed.
Print Assumptions C18_avail_sound_partial.

(* POST 302 -> GET 404: the POST window is 2xx-3xx *)
Theorem C18_avail_sound_refuted_3xx : exists h c st,
  wf h = true /\ In c h /\ is_last h c = true /\ prefix_region_all h c = true /\ override_faithful c = true /\
  reported (ensure_resource_availability h c st) = true /\ avail_allowed h c st = false.
Proof.
  exists h_avail_3xx, c_avail, 404.
  assert (In c_avail h_avail_3xx) as Hin by (right; left; reflexivity).
  repeat apply conj; try exact Hin; vm_compute; reflexivity.
Qed.
Print Assumptions C18_avail_sound_refuted_3xx.

(* a child with explicit (not generated) path parameters and no link at all: every parameter counts as overridden *)
Theorem C18_avail_sound_refuted_override : exists h c st,
  wf h = true /\ In c h /\ is_last h c = true /\ prefix_region_all h c = true /\ parent_not_3xx h c = true /\
  reported (ensure_resource_availability h c st) = true /\ avail_allowed h c st = false.
Proof.
  exists h_nolink, c_nolink, 404.
  assert (In c_nolink h_nolink) as Hin by (right; left; reflexivity).
  repeat apply conj; try exact Hin; vm_compute; reflexivity.
Qed.
Print Assumptions C18_avail_sound_refuted_override.

Theorem C18_avail_hypotheses_satisfiable : exists h c,
  wf h = true /\ In c h /\ is_last h c = true /\ prefix_region_all h c = true /\
  parent_not_3xx h c = true /\ override_faithful c = true /\
  ensure_resource_availability h c 404 = Reported 1 /\ avail_allowed h c 404 = true.
Proof.
  exists h_avail, c_avail.
  assert (In c_avail h_avail) as Hin by (right; left; reflexivity).
  repeat apply conj; try exact Hin; vm_compute; reflexivity.
Qed.
Print Assumptions C18_avail_hypotheses_satisfiable.

(* "a request whose parameters all came from a link": every declared parameter, identified by its (location, name) pair -
   the same name may be declared in several locations -, was provided by a link *)
Theorem C18_avail_only_if_every_located_parameter_linked_partial : forall h c st,
  wf h = true -> In c h -> is_last h c = true ->
  prefix_region_all h c = true -> parent_not_3xx h c = true -> override_faithful c = true ->
  reported (ensure_resource_availability h c st) = true ->
  forall loc name, In (loc, name) (n_params c) -> In (loc, name) (n_linked c).
Proof.
  intros h c st _ _ _ _ _ Hov Hrep loc name Hp. apply linked_at_In. exact (avail_reported_linked h c st Hov Hrep _ Hp).
Qed.
Print Assumptions C18_avail_only_if_every_located_parameter_linked_partial.

(* no hypothesis on the history: a declared parameter whose OWN container reports no override of its name stops the report,
   whatever the containers of the other locations hold *)
Theorem C18_avail_needs_own_container : forall h c st p,
  In p (n_params c) -> param_overridden c p = false -> reported (ensure_resource_availability h c st) = false.
Proof.
  intros h c st p Hp Hno. apply not_true_iff_false. intros Hrep.
  rewrite (avail_reported_overridden h c st Hrep p Hp) in Hno. discriminate.
Qed.
Print Assumptions C18_avail_needs_own_container.

(* SENTINEL: the name-only rule (one flat set of overridden names) is not the code and breaks the property inside every
   region: POST /orgs 201 -> GET /orgs/{id}/members?id=.. 404, path id from the link, query id generated *)
Theorem C18_avail_name_only_sentinel_refuted : exists h c st,
  wf h = true /\ In c h /\ is_last h c = true /\ prefix_region_all h c = true /\ parent_not_3xx h c = true /\
  override_faithful c = true /\
  reported (ensure_resource_availability_by_name h c st) = true /\ avail_allowed h c st = false /\
  ensure_resource_availability h c st = Pass.
Proof.
  exists h_samename, c_samename, 404.
  assert (In c_samename h_samename) as Hin by (right; left; reflexivity).
  repeat apply conj; try exact Hin; vm_compute; reflexivity.
Qed.
Print Assumptions C18_avail_name_only_sentinel_refuted.

(* the same request with both ids from the link satisfies the hypotheses, is reported and allowed *)
Theorem C18_avail_same_name_hypotheses_satisfiable : exists h c,
  wf h = true /\ In c h /\ is_last h c = true /\ prefix_region_all h c = true /\
  parent_not_3xx h c = true /\ override_faithful c = true /\
  ensure_resource_availability h c 404 = Reported 1 /\ avail_allowed h c 404 = true.
Proof.
  exists h_samename_linked, c_samename_linked.
  assert (In c_samename_linked h_samename_linked) as Hin by (right; left; reflexivity).
  repeat apply conj; try exact Hin; vm_compute; reflexivity.
Qed.
Print Assumptions C18_avail_same_name_hypotheses_satisfiable.

(* neither check accuses a case when no other recorded case is on the same resource or a prefix of it (the creating POST
   included) *)
Theorem C18_unrelated_never_reported_partial : forall h c st,
  wf h = true -> In c h -> is_last h c = true ->
  delete_agrees_with_parent h = true -> prefix_region_all h c = true ->
  parent_not_3xx h c = true -> override_faithful c = true -> (st <? 600) = true ->
  (forall d, In d h -> n_id d <> n_id c -> same_resource d c = false) ->
  reported (use_after_free h c st) = false /\ reported (ensure_resource_availability h c st) = false.
Proof.
  intros h c st Hw Hc _ _ Hreg _ _ _ Hun. split; [apply uaf_unrelated | apply avail_unrelated]; assumption.
Qed.
Print Assumptions C18_unrelated_never_reported_partial.

(* POST /orders 201 -> DELETE /users/1 204 -> GET /users/2: satisfies those hypotheses *)
Theorem C18_unrelated_hypotheses_satisfiable : exists h c,
  wf h = true /\ In c h /\ is_last h c = true /\ delete_agrees_with_parent h = true /\
  prefix_region_all h c = true /\ parent_not_3xx h c = true /\ override_faithful c = true /\
  forallb (fun d => N.eqb (n_id d) (n_id c) || negb (same_resource d c)) h = true.
Proof.
  exists h_other, c_other.
  assert (In c_other h_other) as Hin by (right; right; left; reflexivity).
  repeat apply conj; try exact Hin; vm_compute; reflexivity.
Qed.
Print Assumptions C18_unrelated_hypotheses_satisfiable.
