(* C09 in two halves.
   Shell: [generate] with a space in front is [spaced_quotes (argv_of ..)], every word quoted after a space
   ([generate_as_words]); the lexer reads any such line back as the words it was made of ([sh_words_spaced_quotes],
   from [lex_quote], from the equations of [lex]).
   curl: [curl_opts] has one equation per option word; from them one lemma per segment of [argv_of]
   (headers, body, --insecure, url), and [reproduces] chains the segments. *)
From Coq Require Import List NArith Bool.
From Verif Require Import Common.Str C09.Model_C09.
Import ListNotations.
Open Scope N_scope.

Lemma replace_char_cons c by_ x s :
  replace_char c by_ (x :: s) = (if N.eqb x c then by_ else [x]) ++ replace_char c by_ s.
Proof. reflexivity. Qed.

Lemma starts_with_neq p a w : starts_with p a = false -> starts_with p w = true -> str_eqb a w = false.
Proof. intros Ha Hw. apply str_eqb_false. intros ->. congruence. Qed.

(* the words curl, -X, -H, -d, --insecure, which the model writes as code points *)
Definition W_curl : str := [99;117;114;108].
Definition W_X : str := [45;88].
Definition W_H : str := [45;72].
Definition W_d : str := [45;100].
Definition W_insecure : str := [45;45;105;110;115;101;99;117;114;101].

Definition header_words (hs : list (str * str)) : list str := flat_map (fun kv => [W_H; header_line kv]) hs.

Lemma argv_of_eq known r :
  argv_of known r = W_curl :: W_X :: method r :: header_words (filter_headers known (headers r))
                    ++ body_words (body r) ++ (if verify r then [] else [W_insecure]) ++ [url r].
Proof. reflexivity. Qed.

Lemma quote_eq s :
  quote s = if safe_word s then s else SQ :: replace_char SQ [SQ; DQ; SQ; DQ; SQ] s ++ [SQ].
Proof. destruct s; reflexivity. Qed.

Lemma quote_safe w : safe_word w = true -> quote w = w.
Proof. intros H. rewrite quote_eq, H. reflexivity. Qed.

(* the word under construction, which [lex] keeps reversed *)
Definition cur_or_nil (cur : option str) : str := match cur with Some w => w | None => [] end.

Lemma add_eq c cur : add c cur = Some (c :: cur_or_nil cur).
Proof. destruct cur; reflexivity. Qed.

Lemma touch_eq cur : touch cur = Some (cur_or_nil cur).
Proof. destruct cur; reflexivity. Qed.

(* a safe character is none of the lexer's special ones (NUL, space, the quotes), since those are not safe *)
Lemma safe_char_neq c d : safe_char c = true -> safe_char d = false -> N.eqb c d = false.
Proof. intros Hc Hd. apply N.eqb_neq. intros ->. congruence. Qed.

Lemma lex_safe_char c s cur acc : safe_char c = true ->
  lex (c :: s) Bare cur acc = lex s Bare (add c cur) acc.
Proof.
  intros H. cbn [lex].
  rewrite (safe_char_neq c 0 H), (safe_char_neq c SP H), (safe_char_neq c SQ H), (safe_char_neq c DQ H), H
    by reflexivity.
  reflexivity.
Qed.

Lemma lex_SP s cur acc : lex (SP :: s) Bare cur acc = lex s Bare None (push cur acc).
Proof. reflexivity. Qed.

Lemma sh_words_SP s : sh_words (SP :: s) = sh_words s.
Proof. exact (lex_SP s None []). Qed.

Lemma lex_SQ_open s cur acc : lex (SQ :: s) Bare cur acc = lex s InSq (touch cur) acc.
Proof. reflexivity. Qed.

Lemma lex_SQ_close s cur acc : lex (SQ :: s) InSq cur acc = lex s Bare cur acc.
Proof. reflexivity. Qed.

(* inside single quotes, a character as [quote] prints it ('"'"' for a quote, itself otherwise) reads back as itself *)
Lemma lex_quoted_char c s w acc : N.eqb c 0 = false ->
  lex ((if N.eqb c SQ then [SQ; DQ; SQ; DQ; SQ] else [c]) ++ s) InSq (Some w) acc
  = lex s InSq (Some (c :: w)) acc.
Proof.
  intros H0. destruct (N.eqb c SQ) eqn:E.
  - apply N.eqb_eq in E. subst c. reflexivity.
  - cbn [app lex]. rewrite H0, E. reflexivity.
Qed.

Lemma lex_safe_run w : forall rest u acc, forallb safe_char w = true ->
  lex (w ++ rest) Bare (Some u) acc = lex rest Bare (Some (rev w ++ u)) acc.
Proof.
  induction w as [|c w IH]; intros rest u acc H; [reflexivity|].
  cbn [forallb] in H. apply andb_true_iff in H as [Hc Hw].
  cbn [app]. rewrite lex_safe_char by exact Hc. cbn [add]. rewrite IH by exact Hw.
  cbn [rev]. rewrite <- app_assoc. reflexivity.
Qed.

Lemma lex_quoted_body s : forall rest w acc, no_nul s = true ->
  lex (replace_char SQ [SQ; DQ; SQ; DQ; SQ] s ++ SQ :: rest) InSq (Some w) acc
  = lex rest Bare (Some (rev s ++ w)) acc.
Proof.
  induction s as [|c s IH]; intros rest w acc Hn; [apply lex_SQ_close|].
  cbn [no_nul forallb] in Hn. apply andb_true_iff in Hn as [Hc Hs]. apply negb_true_iff in Hc.
  rewrite replace_char_cons, <- app_assoc, lex_quoted_char, IH by assumption.
  cbn [rev]. rewrite <- app_assoc. reflexivity.
Qed.

(* a quoted string, read in the bare state, is appended to the word under construction *)
Lemma lex_quote s rest cur acc : no_nul s = true ->
  lex (quote s ++ rest) Bare cur acc = lex rest Bare (Some (rev s ++ cur_or_nil cur)) acc.
Proof.
  intros Hn. rewrite quote_eq. destruct (safe_word s) eqn:E.
  - (* printed as it is: a run of safe characters *)
    destruct s as [|c s]; [discriminate|].
    cbn [safe_word forallb] in E. apply andb_true_iff in E as [Hc Hs].
    cbn [app]. rewrite lex_safe_char, add_eq, lex_safe_run by assumption.
    cbn [rev]. rewrite <- app_assoc. reflexivity.
  - (* printed between single quotes *)
    cbn [app]. rewrite lex_SQ_open, touch_eq, <- app_assoc. apply lex_quoted_body. exact Hn.
Qed.

(* every word quoted, with one space in front: how curl.generate appends each argument to the command *)
Definition spaced_quotes (ws : list str) : str := flat_map (fun w => SP :: quote w) ws.

Lemma spaced_quotes_cons w ws : spaced_quotes (w :: ws) = SP :: quote w ++ spaced_quotes ws.
Proof. reflexivity. Qed.

Lemma spaced_quotes_one w : spaced_quotes [w] = SP :: quote w.
Proof. apply app_nil_r. Qed.

Lemma spaced_quotes_app a b : spaced_quotes (a ++ b) = spaced_quotes a ++ spaced_quotes b.
Proof. apply flat_map_app. Qed.

Lemma lex_spaced_quotes ws : forall cur acc, forallb no_nul ws = true ->
  lex (spaced_quotes ws) Bare cur acc = Some (rev (push cur acc) ++ ws).
Proof.
  induction ws as [|w ws IH]; intros cur acc H.
  - cbn [spaced_quotes flat_map lex]. rewrite app_nil_r. reflexivity.
  - cbn [forallb] in H. apply andb_true_iff in H as [Hw H].
    rewrite spaced_quotes_cons, lex_SP, lex_quote, IH by assumption.
    cbn [cur_or_nil push rev]. rewrite app_nil_r, rev_involutive, <- app_assoc. reflexivity.
Qed.

Lemma sh_words_spaced_quotes ws : forallb no_nul ws = true -> sh_words (spaced_quotes ws) = Some ws.
Proof. exact (lex_spaced_quotes ws None []). Qed.

Lemma spaced_quotes_header_words hs :
  spaced_quotes (header_words hs) = flat_map (fun kv => SP :: W_H ++ SP :: quote (header_line kv)) hs.
Proof.
  induction hs as [|kv hs IH]; [reflexivity|].
  cbn [header_words flat_map app]. fold (header_words hs). rewrite 2 spaced_quotes_cons, IH. reflexivity.
Qed.

Lemma spaced_quotes_body_words b :
  spaced_quotes (body_words b)
  = match b with Some (c :: b') => SP :: W_d ++ SP :: quote (c :: b') | _ => [] end.
Proof.
  destruct b as [[|c b']|]; try reflexivity.
  cbn [body_words]. rewrite spaced_quotes_cons, spaced_quotes_one. reflexivity.
Qed.

(* The command line is its argument vector, each word quoted after a space, without the first space.  The method
   has to be a safe word because [generate] prints it unquoted. *)
Lemma generate_as_words known r : safe_word (method r) = true ->
  SP :: generate known r = spaced_quotes (argv_of known r).
Proof.
  intros Hm. rewrite argv_of_eq.
  rewrite 3 spaced_quotes_cons, 3 spaced_quotes_app, spaced_quotes_one,
    spaced_quotes_header_words, spaced_quotes_body_words, (quote_safe _ Hm).
  (* both sides are now the concatenation [generate] is defined as, up to [quote] evaluated on the option words *)
  unfold generate. destruct (verify r); reflexivity.
Qed.

Lemma safe_word_no_nul w : safe_word w = true -> no_nul w = true.
Proof.
  intros H. destruct w as [|c0 w]; [discriminate|]. unfold safe_word in H.
  apply forallb_forall. intros c Hc. rewrite forallb_forall in H.
  rewrite (safe_char_neq c 0 (H c Hc) eq_refl). reflexivity.
Qed.

Lemma header_line_no_nul kv : no_nul (fst kv) = true -> no_nul (snd kv) = true -> no_nul (header_line kv) = true.
Proof.
  unfold header_line, no_nul. intros Hk Hv.
  destruct (snd kv); rewrite !forallb_app, Hk, ?Hv; reflexivity.
Qed.

Lemma header_words_no_nul hs : forallb (fun kv => no_nul (fst kv) && no_nul (snd kv)) hs = true ->
  forallb no_nul (header_words hs) = true.
Proof.
  induction hs as [|kv hs IH]; [reflexivity|]. cbn [forallb header_words flat_map app]. intros H.
  apply andb_true_iff in H as [Hkv H]. apply andb_true_iff in Hkv as [Hk Hv].
  rewrite header_line_no_nul by assumption. exact (IH H).
Qed.

Lemma body_words_no_nul b : match b with Some x => no_nul x | None => true end = true ->
  forallb no_nul (body_words b) = true.
Proof. destruct b as [[|c x]|]; try reflexivity. cbn [body_words forallb]. intros ->. reflexivity. Qed.

Lemma argv_no_nul known r : safe_word (method r) = true -> req_no_nul known r = true ->
  forallb no_nul (argv_of known r) = true.
Proof.
  intros Hm H. unfold req_no_nul in H.
  apply andb_true_iff in H as [H Hbody]. apply andb_true_iff in H as [Hurl Hheaders].
  rewrite argv_of_eq. cbn [forallb].
  rewrite !forallb_app, (header_words_no_nul _ Hheaders), (body_words_no_nul _ Hbody), (safe_word_no_nul _ Hm).
  cbn [forallb]. rewrite Hurl. destruct (verify r); reflexivity.
Qed.

(* [split_colon] and [split_semicolon] are the same function up to the separator [d]:
   both skip a prefix in which [d] does not occur *)
Section Splitter.
  Variables (d : N) (f : str -> str -> option (str * str)).
  Hypothesis f_cons : forall c s acc,
    f (c :: s) acc = if N.eqb c d then Some (rev acc, s) else f s (c :: acc).

  Lemma split_skip k : forall s acc, forallb (fun c => negb (N.eqb c d)) k = true ->
    f (k ++ s) acc = f s (rev k ++ acc).
  Proof.
    induction k as [|c k IH]; intros s acc H; [reflexivity|].
    cbn [forallb] in H. apply andb_true_iff in H as [Hc Hk]. apply negb_true_iff in Hc.
    cbn [app rev]. rewrite f_cons, Hc, IH, <- app_assoc by exact Hk. reflexivity.
  Qed.
End Splitter.

Lemma split_colon_skip k s acc : no_colon k = true -> split_colon (k ++ s) acc = split_colon s (rev k ++ acc).
Proof. apply (split_skip 58). reflexivity. Qed.

Lemma split_semicolon_skip k s acc :
  no_semicolon k = true -> split_semicolon (k ++ s) acc = split_semicolon s (rev k ++ acc).
Proof. apply (split_skip 59). reflexivity. Qed.

(* [curl_header] on the two forms [header_line] prints; in both, [cbn] evaluates the test of the character after [k] *)
Lemma curl_header_colon k v : k <> [] -> no_colon k = true ->
  curl_header (k ++ 58 :: v)
  = match strip_left [32;9;10;11;12;13] v with [] => None | v' => Some (k, v') end.
Proof.
  intros Hne Hk. unfold curl_header. rewrite split_colon_skip by exact Hk.
  cbn [split_colon N.eqb Pos.eqb]. rewrite app_nil_r, rev_involutive.
  destruct k; [congruence | reflexivity].
Qed.

Lemma curl_header_semicolon k : k <> [] -> no_colon k = true -> no_semicolon k = true ->
  curl_header (k ++ [59]) = Some (k, []).
Proof.
  intros Hne Hk Hs. unfold curl_header. rewrite split_colon_skip, split_semicolon_skip by assumption.
  cbn [split_colon split_semicolon N.eqb Pos.eqb]. rewrite app_nil_r, rev_involutive.
  destruct k; [congruence | reflexivity].
Qed.

Lemma curl_header_line kv : header_name_ok kv = true -> header_value_nonblank kv = true ->
  curl_header (header_line kv) = Some (fst kv, strip_left [32;9;10;11;12;13] (snd kv)).
Proof.
  unfold header_name_ok, header_value_nonblank, header_line.
  destruct kv as [k v]. cbn [fst snd]. intros Hk Hv.
  destruct k as [|c k]; [discriminate|]. apply andb_true_iff in Hk as [Hk Hs].
  destruct v as [|c0 v].
  - (* Name; *)
    apply curl_header_semicolon; [discriminate | exact Hk | exact Hs].
  - (* Name: value; the space after the colon is the first blank that is stripped *)
    change ([58; SP] ++ c0 :: v) with (58 :: SP :: c0 :: v).
    rewrite curl_header_colon; [| discriminate | exact Hk].
    change (strip_left ?l (SP :: ?x)) with (strip_left l x).
    destruct (strip_left _ (c0 :: v)); [discriminate | reflexivity].
Qed.

Lemma curl_opts_X x rest m hs b u : curl_opts (W_X :: x :: rest) m hs b u = curl_opts rest (Some x) hs b u.
Proof. reflexivity. Qed.

Lemma curl_opts_H x rest m hs b u :
  curl_opts (W_H :: x :: rest) m hs b u
  = curl_opts rest m (match curl_header x with Some kv => kv :: hs | None => hs end) b u.
Proof. reflexivity. Qed.

Lemma curl_opts_d x rest m hs b u :
  curl_opts (W_d :: x :: rest) m hs b u
  = if starts_with [64] x then CurlReadsFile (tl x) else curl_opts rest m hs (Some x) u.
Proof. reflexivity. Qed.

Lemma curl_opts_insecure rest m hs b u : curl_opts (W_insecure :: rest) m hs b u = curl_opts rest m hs b u.
Proof. reflexivity. Qed.

(* every option word starts with a dash, so a word that does not is none of them *)
Lemma curl_opts_url a : starts_with [45] a = false -> forall rest m hs b,
  curl_opts (a :: rest) m hs b None = curl_opts rest m hs b (Some a).
Proof.
  intros H rest m hs b. cbn [curl_opts]. fold W_X W_H W_d W_insecure.
  rewrite (starts_with_neq [45] a W_X H), (starts_with_neq [45] a W_H H), (starts_with_neq [45] a W_d H),
    (starts_with_neq [45] a W_insecure H), H by reflexivity.
  reflexivity.
Qed.

Lemma curl_opts_header_words hs :
  forallb header_name_ok hs = true -> forallb header_value_nonblank hs = true -> forall rest m acc b u,
  curl_opts (header_words hs ++ rest) m acc b u
  = curl_opts rest m
      (rev (map (fun kv => (fst kv, strip_left [32;9;10;11;12;13] (snd kv))) hs) ++ acc) b u.
Proof.
  induction hs as [|kv hs IH]; intros Hn Hv rest m acc b u; [reflexivity|].
  cbn [forallb] in Hn, Hv. apply andb_true_iff in Hn as [Hn1 Hn]. apply andb_true_iff in Hv as [Hv1 Hv].
  cbn [header_words flat_map app]. fold (header_words hs).
  rewrite curl_opts_H, (curl_header_line _ Hn1 Hv1), (IH Hn Hv).
  cbn [map rev]. rewrite <- app_assoc. reflexivity.
Qed.

Lemma curl_opts_body_words bd :
  match bd with Some x => negb (starts_with [64] x) | None => true end = true -> forall rest m hs u,
  curl_opts (body_words bd ++ rest) m hs None u
  = curl_opts rest m hs (match bd with Some (c :: x) => Some (c :: x) | _ => None end) u.
Proof.
  intros H rest m hs u. destruct bd as [[|c x]|]; try reflexivity.
  apply negb_true_iff in H. cbn [body_words app]. rewrite curl_opts_d, H. reflexivity.
Qed.

Lemma curl_opts_verify (v : bool) rest m hs b u :
  curl_opts ((if v then [] else [W_insecure]) ++ rest) m hs b u = curl_opts rest m hs b u.
Proof. destruct v; [reflexivity | apply curl_opts_insecure]. Qed.

Lemma reproduces known r :
  header_names_ok known r = true -> header_values_ok known r = true ->
  body_not_at r = true -> url_not_option r = true ->
  curl_sem (argv_of known r) = CurlSends (visible known r).
Proof.
  intros Hnames Hvalues Hbody Hurl. apply negb_true_iff in Hurl.
  rewrite argv_of_eq. cbn [curl_sem].
  rewrite curl_opts_X, (curl_opts_header_words _ Hnames Hvalues), (curl_opts_body_words _ Hbody),
    curl_opts_verify, (curl_opts_url _ Hurl).
  cbn [curl_opts]. rewrite app_nil_r, rev_involutive. reflexivity.
Qed.
