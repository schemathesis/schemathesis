(* C09: the printed command, read by the shell, is the intended argument vector (first four theorems);
   curl given that vector re-sends the visible request (the others, with the inputs on which it does not). *)
From Coq Require Import List NArith Bool.
From Verif Require Import Common.Str C09.Model_C09 C09.Proofs_C09.
Import ListNotations.

(* shlex.quote followed by POSIX word splitting is the identity on every string without NUL, whatever the
   characters: [lex] answers None on anything that could split or expand, so Some is the claim *)
Theorem C09_quote_roundtrip : forall s, no_nul s = true -> sh_words (quote s) = Some [s].
Proof.
  intros s H. rewrite <- sh_words_SP, <- spaced_quotes_one. apply sh_words_spaced_quotes.
  cbn [forallb]. rewrite H. reflexivity.
Qed.
Print Assumptions C09_quote_roundtrip.

(* the whole command line produced by curl.generate splits into exactly the
   intended argument vector *)
Theorem C09_command_words : forall known r,
  safe_word (method r) = true -> req_no_nul known r = true ->
  sh_words (generate known r) = Some (argv_of known r).
Proof.
  intros known r Hm Hn. rewrite <- sh_words_SP, generate_as_words by exact Hm.
  apply sh_words_spaced_quotes, argv_no_nul; assumption.
Qed.
Print Assumptions C09_command_words.

(* the block printed in a failure report (four spaces in front of the first line only) still splits into exactly
   the intended argument vector, also for payloads with line breaks; indenting every line would not *)
Theorem C09_report_block_words : forall known r,
  safe_word (method r) = true -> req_no_nul known r = true ->
  sh_words (report_block known r) = Some (argv_of known r).
Proof.
  intros known r. unfold report_block. cbn [app]. rewrite 4 sh_words_SP. apply C09_command_words.
Qed.
Print Assumptions C09_report_block_words.

Definition W_url : str := [104;116;116;112;58;47;47;104;47].   (* http://h/ *)

(* the body a<LF>b: indenting every line puts four spaces inside the quoted word *)
Definition r_multiline : req :=
  {| method := [80;85;84]; url := W_url; body := Some [97;10;98]; verify := true; headers := [] |}.

Theorem C09_report_block_indent_all_refuted : exists known r,
  sh_words (report_block_indent_all known r) <> Some (argv_of known r) /\
  sh_words (report_block known r) = Some (argv_of known r).
Proof. exists [], r_multiline. vm_compute. split; [discriminate | reflexivity]. Qed.
Print Assumptions C09_report_block_indent_all_refuted.

(* curl, given that argument vector, re-sends the visible part of the request *)
Theorem C09_reproduces_partial : forall known r,
  header_names_ok known r = true -> header_values_ok known r = true ->
  body_not_at r = true -> url_not_option r = true ->
  curl_sem (argv_of known r) = CurlSends (visible known r).
Proof. exact reproduces. Qed.
Print Assumptions C09_reproduces_partial.

(* X-A with an empty value *)
Definition r_empty_header : req :=
  {| method := [71;69;84]; url := W_url; body := None; verify := true; headers := [([88;45;65], [])] |}.

(* the rule of curl.generate before commit 8a1cd4b1 of /repo, every header printed as Name: value, loses a header
   with an empty value; printing it as Name; re-sends it *)
Theorem C09_prefix_rule_refuted_empty_header : exists known r,
  curl_sem (argv_of_prefix known r) <> CurlSends (visible known r) /\
  curl_sem (argv_of known r) = CurlSends (visible known r).
Proof. exists [], r_empty_header. vm_compute. split; [discriminate | reflexivity]. Qed.
Print Assumptions C09_prefix_rule_refuted_empty_header.

(* X-A with the value " ": blank but not empty (a value requests itself refuses to send) *)
Definition r_blank_header : req :=
  {| method := [71;69;84]; url := W_url; body := None; verify := true; headers := [([88;45;65], [SP])] |}.

(* without header_values_ok the statement fails: curl drops a header whose value is all blanks *)
Theorem C09_reproduces_refuted_blank_header : exists known r,
  header_names_ok known r = true /\ body_not_at r = true /\ url_not_option r = true /\
  curl_sem (argv_of known r) <> CurlSends (visible known r).
Proof. exists [], r_blank_header. vm_compute. repeat split. discriminate. Qed.
Print Assumptions C09_reproduces_refuted_blank_header.

(* POST with the body @x *)
Definition r_at_body : req :=
  {| method := [80;79;83;84]; url := W_url; body := Some [64;120]; verify := true; headers := [] |}.

(* without body_not_at it fails: -d @x makes curl read the file x *)
Theorem C09_reproduces_refuted_at_body : exists known r,
  header_names_ok known r = true /\ header_values_ok known r = true /\
  curl_sem (argv_of known r) <> CurlSends (visible known r).
Proof. exists [], r_at_body. vm_compute. repeat split. discriminate. Qed.
Print Assumptions C09_reproduces_refuted_at_body.

(* PUT with --insecure; both kinds of quote, $, backquote, backslash, space and a line break spread over the url,
   the body and the value of X-A; Accept is excluded, so not printed; X-E has an empty value *)
Definition r_ok : req :=
  {| method := [80;85;84]; url := [104;116;116;112;58;47;47;104;47;97;39;32;36;40;120;41];
     body := Some [123;34;97;34;58;32;34;39;36;96;92;10;34;125]; verify := false;
     headers := [([88;45;65], [39;34;32;36;72;79;77;69]); ([65;99;99;101;112;116], [42;47;42]); ([88;45;69], [])] |}.

(* the hypotheses of C09_command_words and C09_reproduces_partial hold together of a request that uses every
   segment: 11 words = curl -X PUT, two -H pairs, -d and the body, --insecure, the url *)
Theorem C09_hypotheses_satisfiable : exists r,
  safe_word (method r) = true /\ req_no_nul [] r = true /\ header_names_ok [] r = true /\
  header_values_ok [] r = true /\ body_not_at r = true /\ url_not_option r = true /\
  length (argv_of [] r) = 11%nat.
Proof. exists r_ok. vm_compute. repeat split. Qed.
Print Assumptions C09_hypotheses_satisfiable.
