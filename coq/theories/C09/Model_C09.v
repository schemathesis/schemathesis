(* C09 model: shlex.quote, schemathesis.core.curl.generate, POSIX sh word
   splitting for the fragment of command lines generate can produce, and the
   semantics of the curl options used.  Executable definitions only. *)
From Coq Require Import List NArith Bool.
From Verif Require Import Common.Str.
Import ListNotations.
Open Scope N_scope.

(* ---------- shlex.quote ---------- *)
Definition SQ : N := 39.   (* single quote *)
Definition DQ : N := 34.   (* double quote *)
Definition SP : N := 32.
Definition is_alnum (c : N) : bool := is_upper c || is_lower c || is_digit c.
(* [\w@%+=:,./-] with re.ASCII *)
Definition safe_char (c : N) : bool :=
  is_alnum c || N.eqb c 95 || mem c [64; 37; 43; 61; 58; 44; 46; 47; 45].

Definition quote (s : str) : str :=
  match s with
  | [] => [SQ; SQ]
  | _ => if forallb safe_char s then s
         else SQ :: replace_char SQ [SQ; DQ; SQ; DQ; SQ] s ++ [SQ]
  end.

(* ---------- POSIX shell word splitting (fragment) ----------
   None = the line leaves the modelled fragment (an unquoted character outside
   the safe set could be a metacharacter / trigger expansion; $ ` \ inside
   double quotes; NUL anywhere; unterminated quote). *)
Inductive lstate := Bare | InSq | InDq.

Definition push (cur : option str) (acc : list str) : list str :=
  match cur with Some w => rev w :: acc | None => acc end.
Definition add (c : N) (cur : option str) : option str :=
  match cur with Some w => Some (c :: w) | None => Some [c] end.
Definition touch (cur : option str) : option str :=
  match cur with Some w => Some w | None => Some [] end.

Fixpoint lex (s : str) (st : lstate) (cur : option str) (acc : list str) : option (list str) :=
  match s with
  | [] => match st with Bare => Some (rev (push cur acc)) | _ => None end
  | c :: s' =>
    if N.eqb c 0 then None else
    match st with
    | Bare =>
      if N.eqb c SP then lex s' Bare None (push cur acc)
      else if N.eqb c SQ then lex s' InSq (touch cur) acc
      else if N.eqb c DQ then lex s' InDq (touch cur) acc
      else if safe_char c then lex s' Bare (add c cur) acc
      else None
    | InSq =>
      if N.eqb c SQ then lex s' Bare cur acc else lex s' InSq (add c cur) acc
    | InDq =>
      if N.eqb c DQ then lex s' Bare cur acc
      else if mem c [36; 96; 92] then None
      else lex s' InDq (add c cur) acc
    end
  end.

Definition sh_words (s : str) : option (list str) := lex s Bare None [].

(* ---------- curl.generate ---------- *)
Record req := {
  method : str;
  url : str;
  body : option str;          (* after bytes.decode utf-8 replace *)
  verify : bool;
  headers : list (str * str)  (* insertion order of the dict *)
}.

(* lower-cased names of get_excluded_headers() *)
Definition s_ (l : list N) : str := l.
Definition excluded_lower : list str :=
  [ [99;111;110;116;101;110;116;45;108;101;110;103;116;104]              (* content-length *)
  ; [116;114;97;110;115;102;101;114;45;101;110;99;111;100;105;110;103]  (* transfer-encoding *)
  ; [120;45;115;99;104;101;109;97;116;104;101;115;105;115;45;116;101;115;116;99;97;115;101;105;100] (* x-schemathesis-testcaseid *)
  ; [117;115;101;114;45;97;103;101;110;116]                              (* user-agent *)
  ; [97;99;99;101;112;116;45;101;110;99;111;100;105;110;103]            (* accept-encoding *)
  ; [97;99;99;101;112;116]                                               (* accept *)
  ; [99;111;110;110;101;99;116;105;111;110] ].                           (* connection *)

Definition in_strs (k : str) (l : list str) : bool := existsb (str_eqb k) l.

Definition filter_headers (known : list str) (hs : list (str * str)) : list (str * str) :=
  filter (fun kv => in_strs (fst kv) known || negb (in_strs (lower_ascii (fst kv)) excluded_lower)) hs.

(* `Name: value`, or `Name;` for an empty value (curl's syntax for sending a header without a value) *)
Definition header_line (kv : str * str) : str :=
  match snd kv with
  | [] => fst kv ++ [59]
  | _ => fst kv ++ [58; SP] ++ snd kv
  end.
(* before the repair every header was printed as `Name: value` (regression sentinel) *)
Definition header_line_prefix (kv : str * str) : str := fst kv ++ [58; SP] ++ snd kv.

Definition body_words (b : option str) : list str :=
  match b with
  | Some (c :: b') => [[45;100]; c :: b']            (* -d *)
  | _ => []
  end.

(* the argument vector the command is meant to denote *)
Definition argv_of (known : list str) (r : req) : list str :=
  [[99;117;114;108]; [45;88]; method r]                                     (* curl -X M *)
  ++ flat_map (fun kv => [[45;72]; header_line kv]) (filter_headers known (headers r))
  ++ body_words (body r)
  ++ (if verify r then [] else [[45;45;105;110;115;101;99;117;114;101]])   (* --insecure *)
  ++ [url r].

(* the command string exactly as curl.generate concatenates it *)
Definition generate (known : list str) (r : req) : str :=
  [99;117;114;108;32;45;88;32] ++ method r
  ++ flat_map (fun kv => [SP;45;72;SP] ++ quote (header_line kv)) (filter_headers known (headers r))
  ++ match body r with
     | Some (c :: b') => [SP;45;100;SP] ++ quote (c :: b')
     | _ => []
     end
  ++ (if verify r then [] else [SP;45;45;105;110;115;101;99;117;114;101])
  ++ [SP] ++ quote (url r).

Definition argv_of_prefix (known : list str) (r : req) : list str :=
  [[99;117;114;108]; [45;88]; method r]
  ++ flat_map (fun kv => [[45;72]; header_line_prefix kv]) (filter_headers known (headers r))
  ++ body_words (body r)
  ++ (if verify r then [] else [[45;45;105;110;115;101;99;117;114;101]])
  ++ [url r].

(* ---------- semantics of the curl options used ----------
   What a server receives, restricted to what the property compares:
   method, URL, body and the non-automatic headers. *)
Record sent := { s_method : str; s_url : str; s_body : option str; s_headers : list (str * str) }.

Definition is_blank (c : N) : bool := mem c [32; 9; 10; 11; 12; 13].

Fixpoint split_colon (s : str) (acc : str) : option (str * str) :=
  match s with
  | [] => None
  | c :: s' => if N.eqb c 58 then Some (rev acc, s') else split_colon s' (c :: acc)
  end.

(* -H Name: value: sent unless the value is blank (then the header is
   removed / not sent); leading blanks of the value are dropped by the peer.
   A line without a colon is read as the Name; form (see curl_header). *)
Fixpoint split_semicolon (s : str) (acc : str) : option (str * str) :=
  match s with
  | [] => None
  | c :: s' => if N.eqb c 59 then Some (rev acc, s') else split_semicolon s' (c :: acc)
  end.

Definition curl_header (h : str) : option (str * str) :=
  match split_colon h [] with
  | Some (k, v) =>
      match k with [] => None | _ =>
      match strip_left [32;9;10;11;12;13] v with
      | [] => None
      | v' => Some (k, v')
      end end
  | None =>
      (* no colon: `Name;` (first semicolon, nothing but blanks after it) sends the header with an empty value *)
      match split_semicolon h [] with
      | Some (k, rest) =>
          match k, strip_left [32;9;10;11;12;13] rest with
          | _ :: _, [] => Some (k, [])
          | _, _ => None
          end
      | None => None
      end
  end.

Inductive curl_res := CurlSends (s : sent) | CurlReadsFile (path : str) | CurlBadArgs.

Fixpoint curl_opts (args : list str) (m : option str) (hs : list (str*str)) (b : option str)
  (u : option str) : curl_res :=
  match args with
  | [] => match m, u with
          | Some m', Some u' => CurlSends {| s_method := m'; s_url := u'; s_body := b; s_headers := rev hs |}
          | _, _ => CurlBadArgs end
  | a :: rest =>
    if str_eqb a [45;88] then
      match rest with x :: rest' => curl_opts rest' (Some x) hs b u | [] => CurlBadArgs end
    else if str_eqb a [45;72] then
      match rest with
      | x :: rest' => curl_opts rest' m (match curl_header x with Some kv => kv :: hs | None => hs end) b u
      | [] => CurlBadArgs end
    else if str_eqb a [45;100] then
      match rest with
      | x :: rest' =>
          if starts_with [64] x then CurlReadsFile (tl x)      (* -d @file *)
          else curl_opts rest' m hs (Some x) u
      | [] => CurlBadArgs end
    else if str_eqb a [45;45;105;110;115;101;99;117;114;101] then curl_opts rest m hs b u
    else if starts_with [45] a then CurlBadArgs            (* some other option *)
    else match u with None => curl_opts rest m hs b (Some a) | Some _ => CurlBadArgs end
  end.

Definition curl_sem (argv : list str) : curl_res :=
  match argv with
  | _curl :: args => curl_opts args None [] None None
  | [] => CurlBadArgs
  end.

(* what the original request shows to the server, modulo automatic headers;
   the peer drops leading blanks of header values *)
Definition visible (known : list str) (r : req) : sent :=
  {| s_method := method r; s_url := url r;
     s_body := match body r with Some (c :: b) => Some (c :: b) | _ => None end;
     s_headers := map (fun kv => (fst kv, strip_left [32;9;10;11;12;13] (snd kv)))
                      (filter_headers known (headers r)) |}.

(* ---------- region predicates (hypotheses of the _partial theorem) ---------- *)
Definition no_nul (s : str) : bool := forallb (fun c => negb (N.eqb c 0)) s.
Definition safe_word (s : str) : bool := match s with [] => false | _ => forallb safe_char s end.
Definition no_colon (s : str) : bool := forallb (fun c => negb (N.eqb c 58)) s.

(* a value is fine if it is empty or has a non-blank character (a non-empty all-blank value still makes curl drop the header) *)
Definition header_value_nonblank (kv : str * str) : bool :=
  match snd kv with
  | [] => true
  | _ => match strip_left [32;9;10;11;12;13] (snd kv) with [] => false | _ => true end
  end.
Definition no_semicolon (s : str) : bool := forallb (fun c => negb (N.eqb c 59)) s.
Definition header_name_ok (kv : str * str) : bool :=
  match fst kv with [] => false | _ => no_colon (fst kv) && no_semicolon (fst kv) end.
Definition header_values_ok (known : list str) (r : req) : bool :=
  forallb header_value_nonblank (filter_headers known (headers r)).
Definition header_names_ok (known : list str) (r : req) : bool :=
  forallb header_name_ok (filter_headers known (headers r)).
Definition body_not_at (r : req) : bool :=
  match body r with Some b => negb (starts_with [64] b) | None => true end.
Definition url_not_option (r : req) : bool :=
  negb (starts_with [45] (url r)).
Definition req_no_nul (known : list str) (r : req) : bool :=
  no_nul (url r) && forallb (fun kv => no_nul (fst kv) && no_nul (snd kv)) (filter_headers known (headers r))
  && match body r with Some b => no_nul b | None => true end.

(* ---------- the command as printed in a failure report (core/failures.py: format_failures) ----------
   "Reproduce with: \n\n    {curl}": four spaces in front of the FIRST line only. *)
Definition report_block (known : list str) (r : req) : str := [SP; SP; SP; SP] ++ generate known r.

(* the variant that indents every line of the command (textwrap.indent), kept as a regression sentinel *)
Fixpoint indent_lines (s : str) : str :=
  match s with
  | [] => []
  | c :: s' => if N.eqb c 10 then c :: SP :: SP :: SP :: SP :: indent_lines s' else c :: indent_lines s'
  end.
Definition report_block_indent_all (known : list str) (r : req) : str := [SP; SP; SP; SP] ++ indent_lines (generate known r).
