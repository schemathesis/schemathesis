(* C07 property theorems.  The definitions they are stated with beside the model's, the lemmas and the witnesses are in
   Proofs_C07 (its head comment lists them). *)
From Coq Require Import List NArith ZArith Bool Permutation.
From Verif Require Import Common.Str Common.Json C07.Model_C07 C07.Proofs_C07.
Import ListNotations.

(* FilterSet.match: (no include filters, or some include filter has all its matchers matching) and no
   exclude filter has all its matchers matching *)
Theorem C07_match_spec : forall fs c,
  fs_match fs c = true <->
  (fs_includes fs = [] \/ exists f, In f (fs_includes fs) /\ filter_matches f c) /\
  (forall f, In f (fs_excludes fs) -> ~ filter_matches f c).
Proof.
  intros fs c.
  assert (Hex : (forall f, In f (fs_excludes fs) -> ~ filter_matches f c) <->
                existsb (fun f => filter_match f c) (fs_excludes fs) = false).
  { rewrite <- not_true_iff_false, some_filter_matches. split.
    - intros H [f [Hin Hm]]. exact (H f Hin Hm).
    - intros H f Hin Hm. apply H. exists f. split; assumption. }
  unfold fs_match. rewrite Hex, <- some_filter_matches. destruct (existsb _ (fs_excludes fs)).
  - split; [discriminate | intros [_ H]; discriminate H].
  - destruct (fs_includes fs) as [|i is_].
    + split; [intros _; split; [left|]; reflexivity | reflexivity].
    + split; [intros H; split; [right; exact H | reflexivity] | intros [[H|H] _]; [discriminate H | exact H]].
Qed.
Print Assumptions C07_match_spec.

(* ... whatever order the two Python sets are iterated in *)
Theorem C07_match_perm : forall i i' e e' c,
  Permutation i i' -> Permutation e e' ->
  fs_match {| fs_includes := i; fs_excludes := e |} c = fs_match {| fs_includes := i'; fs_excludes := e' |} c.
Proof.
  intros i i' e e' c Hi He. unfold fs_match; cbn [fs_includes fs_excludes].
  rewrite (existsb_perm _ _ _ He), (existsb_perm _ _ _ Hi).
  destruct i, i'; try reflexivity.
  - apply Permutation_nil in Hi. discriminate.
  - apply Permutation_sym, Permutation_nil in Hi. discriminate.
Qed.
Print Assumptions C07_match_perm.

(* iteration offers exactly the entries of the document whose key is an HTTP method and whose resolved
   definition is selected by the filter set *)
Theorem C07_offered_iff_selected : forall fs d p m od,
  In {| o_path := p; o_method := m; o_def := od |} (get_all_operations fs d) <->
  (exists item, In (p, item) d /\ In (m, od) item) /\
  is_http_method m = true /\ fs_match fs (mk_ctx p m (od_resolved od)) = true.
Proof. exact offered_iff_selected. Qed.
Print Assumptions C07_offered_iff_selected.

(* ... each exactly once and in document order *)
Theorem C07_offered_eq_filter : forall fs d,
  get_all_operations fs d = map op_of (filter (selectedb fs) (entries d)).
Proof. exact offered_eq_filter. Qed.
Print Assumptions C07_offered_eq_filter.

(* a key that is not one of the eight lower-case method names (GET, Post, parameters, ...) is never an operation *)
Theorem C07_non_method_key_never_offered : forall fs d o,
  In o (get_all_operations fs d) -> is_http_method (o_method o) = true.
Proof. intros fs d [p m od] H. apply C07_offered_iff_selected in H. apply H. Qed.
Print Assumptions C07_non_method_key_never_offered.

(* iteration, both operation counts of the statistic and _operation_iter are unchanged when such keys are removed *)
Theorem C07_method_keys_agree : forall fs d,
  get_all_operations fs (strip_non_methods d) = get_all_operations fs d /\
  st_ops_total (measure_statistic fs (strip_non_methods d)) = st_ops_total (measure_statistic fs d) /\
  st_ops_selected (measure_statistic fs (strip_non_methods d)) = st_ops_selected (measure_statistic fs d) /\
  length (operation_iter fs (strip_non_methods d)) = length (operation_iter fs d).
Proof.
  intros fs d. rewrite !operation_iter_eq, !map_length. cbn [measure_statistic st_ops_total st_ops_selected].
  rewrite !offered_eq_filter, !selected_entries_http, !http_entries_strip. repeat split; reflexivity.
Qed.
Print Assumptions C07_method_keys_agree.

(* the reported total is the number of operations of the document, whatever the filters *)
Theorem C07_statistic_total : forall fs d,
  st_ops_total (measure_statistic fs d) =
  length (filter (fun e : str * str * opdef => is_http_method (snd (fst e))) (entries d)).
Proof. intros fs d. cbn. rewrite http_entries_eq. reflexivity. Qed.
Print Assumptions C07_statistic_total.

(* the reported selected count equals the number of offered operations - when the filters give the same verdict
   on the raw and on the resolved definitions *)
Theorem C07_statistic_eq_offered_partial : forall fs d,
  resolution_independent fs d = true ->
  st_ops_selected (measure_statistic fs d) = length (get_all_operations fs d).
Proof.
  intros fs d H. cbn [measure_statistic st_ops_selected].
  rewrite offered_eq_filter, map_length, (independent_raw_selected _ _ H). reflexivity.
Qed.
Print Assumptions C07_statistic_eq_offered_partial.

(* which is the case for every filter set when no operation definition contains a reference *)
Theorem C07_no_references_independent : forall fs d,
  no_references d = true -> resolution_independent fs d = true.
Proof.
  unfold no_references, resolution_independent. intros fs d. rewrite !forallb_forall. intros H [[p m] od] Hin.
  specialize (H _ Hin). cbn in H. apply json_eqb_eq in H. rewrite H. apply eqb_reflx.
Qed.
Print Assumptions C07_no_references_independent.

(* ... and false in general: finding C07-F1 (1 selected reported, 2 operations offered) *)
Theorem C07_statistic_eq_offered_refuted : exists fs d,
  resolution_independent fs d = false /\
  st_ops_selected (measure_statistic fs d) = 1 /\ length (get_all_operations fs d) = 2.
Proof. exists (fs_of w_calls_F1), w_doc_F1. vm_compute. repeat split. Qed.
Print Assumptions C07_statistic_eq_offered_refuted.

(* the dead helper _operation_iter agrees with the statistic (both look at raw definitions) *)
Theorem C07_operation_iter_eq_statistic : forall fs d,
  length (operation_iter fs d) = st_ops_selected (measure_statistic fs d).
Proof. intros fs d. rewrite operation_iter_eq. apply map_length. Qed.
Print Assumptions C07_operation_iter_eq_statistic.

(* stateful phase: when the state machine can be built, every transition starts at and leads to an offered
   operation, i.e. to an entry of the document that the filter set selects *)
Theorem C07_no_transition_to_unselected : forall fs d ts t,
  collect_transitions fs d = Some ts -> In t ts ->
  In (t_source t) (map op_label (get_all_operations fs d)) /\
  In (t_target t) (map op_label (get_all_operations fs d)).
Proof.
  unfold collect_transitions. intros fs d ts t H Ht. exact (proj2 (transitions_of_spec _ _ _ _ H) t Ht).
Qed.
Print Assumptions C07_no_transition_to_unselected.

Theorem C07_transition_target_selected : forall fs d ts t,
  collect_transitions fs d = Some ts -> In t ts ->
  exists p m od, t_target t = label_of m p /\ (exists item, In (p, item) d /\ In (m, od) item) /\
                 is_http_method m = true /\ fs_match fs (mk_ctx p m (od_resolved od)) = true.
Proof.
  intros fs d ts t H Ht. apply offered_label_selected. exact (proj2 (C07_no_transition_to_unselected _ _ _ _ H Ht)).
Qed.
Print Assumptions C07_transition_target_selected.

(* the reported number of selected links equals the number of transitions of the state machine, when operation
   ids are unique (and filters do not depend on resolution, labels are unique, references name methods) *)
Theorem C07_links_selected_eq_transitions_partial : forall fs d,
  resolution_independent fs d = true -> unique_operation_ids d = true -> unique_labels d = true ->
  forall ts, refs_name_methods d = true -> collect_transitions fs d = Some ts ->
  st_links_selected (measure_statistic fs d) = length ts.
Proof.
  intros fs d Hind Hids Hlbl ts Hrefs H. unfold collect_transitions in H.
  rewrite (proj1 (transitions_of_spec _ _ _ _ H)), offered_labels, offered_links.
  cbn [measure_statistic st_links_selected].
  rewrite (independent_raw_selected _ _ Hind), (selected_links_eq_kept fs d Hind Hids Hlbl Hrefs). reflexivity.
Qed.
Print Assumptions C07_links_selected_eq_transitions_partial.

(* ... and false with a duplicated operationId (shared path item): finding C07-F2 *)
Theorem C07_links_selected_eq_transitions_refuted : exists fs d,
  resolution_independent fs d = true /\ unique_labels d = true /\ refs_name_methods d = true /\
  unique_operation_ids d = false /\
  st_links_selected (measure_statistic fs d) = 1 /\ collect_transitions fs d = Some [].
Proof. exists (fs_of w_calls_F2), w_doc_F2. vm_compute. repeat split. Qed.
Print Assumptions C07_links_selected_eq_transitions_refuted.

(* ... and with a reference to a key that is not a method (mixed-case Post next to post): finding C07-F4 *)
Theorem C07_links_selected_eq_transitions_refuted_ref_key : exists fs d,
  resolution_independent fs d = true /\ unique_labels d = true /\ unique_operation_ids d = true /\
  refs_name_methods d = false /\
  st_links_selected (measure_statistic fs d) = 0 /\
  option_map (@length transition) (collect_transitions fs d) = Some 1.
Proof. exists fs_empty, w_doc_F4. vm_compute. repeat split. Qed.
Print Assumptions C07_links_selected_eq_transitions_refuted_ref_key.

(* lazy fixtures: the operations tested are those selected by the filters of the fixture's schema AND of the lazy
   schema - when the fixture's schema has no filters *)
Theorem C07_lazy_offered_partial : forall fixture_fs lazy_fs d,
  fixture_unfiltered fixture_fs = true ->
  lazy_operations fixture_fs lazy_fs d = get_all_operations (fs_union fixture_fs lazy_fs) d.
Proof.
  unfold fixture_unfiltered, fs_is_empty, lazy_operations, lazy_filter_set, fs_union.
  intros [[|] [|]] lazy_fs d; try discriminate. intros _. destruct lazy_fs; reflexivity.
Qed.
Print Assumptions C07_lazy_offered_partial.

(* ... and false otherwise: finding C07-F3 (an operation the fixture excluded is tested) *)
Theorem C07_lazy_offered_refuted : exists fixture_fs lazy_fs d o,
  In o (lazy_operations fixture_fs lazy_fs d) /\
  fs_match fixture_fs (mk_ctx (o_path o) (o_method o) (od_resolved (o_def o))) = false /\
  ~ In o (get_all_operations (fs_union fixture_fs lazy_fs) d).
Proof.
  exists (fs_of w_fixture_calls_F3), fs_empty, w_doc_F3, {| o_path := w_s_a; o_method := w_s_delete; o_def := w_same (JObj [w_response []]) |}.
  vm_compute. split; [right; left; reflexivity|]. split; [reflexivity|]. intros [H|[]]. discriminate H.
Qed.
Print Assumptions C07_lazy_offered_refuted.

(* _add_filter: what an accepted call adds *)
Theorem C07_add_filter_spec : forall inc a fs fs',
  add_filter inc a fs = Added fs' ->
  exists ms, matchers_of a = Some ms /\ ms <> [] /\
    existsb (filter_same ms) (fs_includes fs) = false /\ existsb (filter_same ms) (fs_excludes fs) = false /\
    fs' = if inc then {| fs_includes := fs_includes fs ++ [ms]; fs_excludes := fs_excludes fs |}
          else {| fs_includes := fs_includes fs; fs_excludes := fs_excludes fs ++ [ms] |}.
Proof. exact add_filter_spec. Qed.
Print Assumptions C07_add_filter_spec.

(* the same filter again, as an include or as an exclude, is rejected *)
Theorem C07_duplicate_rejected : forall inc inc' a fs fs',
  add_filter inc a fs = Added fs' -> add_filter inc' a fs' = Rejected ErrExists.
Proof.
  intros inc inc' a fs fs' H. destruct (add_filter_spec _ _ _ _ H) as [ms [Hm [Hne [_ [_ ->]]]]].
  rewrite add_filter_eq, Hm. destruct ms as [|m ms]; [congruence|].
  assert (E : existsb (filter_same (m :: ms)) (fs_includes fs ++ [m :: ms]) = true /\
              existsb (filter_same (m :: ms)) (fs_excludes fs ++ [m :: ms]) = true).
  { rewrite !existsb_app. cbn [existsb]. rewrite filter_same_refl, !orb_true_r. split; reflexivity. }
  destruct inc; cbn [fs_includes fs_excludes]; [rewrite (proj1 E) | rewrite (proj2 E), orb_true_r]; reflexivity.
Qed.
Print Assumptions C07_duplicate_rejected.

(* an exclude filter removes exactly the operations it matches *)
Theorem C07_exclude_effect : forall a fs fs' c,
  add_filter false a fs = Added fs' ->
  exists ms, matchers_of a = Some ms /\ fs_match fs' c = fs_match fs c && negb (filter_match ms c).
Proof.
  intros a fs fs' c H. destruct (add_filter_spec _ _ _ _ H) as [ms [Hm [_ [_ [_ ->]]]]]. exists ms. split; [exact Hm|].
  destruct fs as [i e]. apply fs_match_exclude.
Qed.
Print Assumptions C07_exclude_effect.

(* an operation excluded once stays excluded whatever is added later *)
Theorem C07_excluded_stays_excluded : forall fs c a inc fs',
  existsb (fun f => filter_match f c) (fs_excludes fs) = true -> add_filter inc a fs = Added fs' ->
  fs_match fs' c = false.
Proof.
  intros fs c a inc fs' E H. destruct (add_filter_spec _ _ _ _ H) as [ms [_ [_ [_ [_ ->]]]]].
  unfold fs_match. destruct inc; cbn [fs_includes fs_excludes]; [rewrite E; reflexivity|].
  rewrite existsb_app, E. reflexivity.
Qed.
Print Assumptions C07_excluded_stays_excluded.

(* method filters by value compare upper-cased (ASCII) on both sides *)
Theorem C07_method_value_case_insensitive : forall e p m d,
  attr_matchers AMethod {| aa_expected := Some (FStr e); aa_regex := None |} = Some [MValue AMethod (upper_ascii e)] /\
  (matcher_match (MValue AMethod (upper_ascii e)) (mk_ctx p m d) = true <-> upper_ascii m = upper_ascii e).
Proof. intros e p m d. split; [reflexivity | apply str_eqb_spec]. Qed.
Print Assumptions C07_method_value_case_insensitive.

(* the hypotheses of the partial theorems are satisfiable by non-trivial inputs *)
Theorem C07_hypotheses_satisfiable : exists d fs ts,
  resolution_independent fs d = true /\ unique_operation_ids d = true /\ unique_labels d = true /\
  refs_name_methods d = true /\ collect_transitions fs d = Some ts /\ length ts = 1 /\
  st_links_total (measure_statistic fs d) = 1 /\ st_ops_selected (measure_statistic fs d) = 2.
Proof. exact links_partial_nonvacuous. Qed.
Print Assumptions C07_hypotheses_satisfiable.

(* command line: the filter set built by FilterArguments.into() selects an operation iff (there is no include
   option or some include filter of the option list matches) and no exclude filter matches, where the filters are
   those of the calls made by into() in order (include regexes: one conjunctive filter) *)
Theorem C07_cli_into_spec : forall a fs c,
  cli_into a = CliOk fs ->
  (fs_match fs c = true <->
   (calls_filters true (cli_calls a) = [] \/ exists f, In f (calls_filters true (cli_calls a)) /\ filter_matches f c) /\
   (forall f, In f (calls_filters false (cli_calls a)) -> ~ filter_matches f c)).
Proof.
  unfold cli_into. intros a fs c. destruct (forallb nodup_strs _); [|discriminate].
  destruct (add_all (cli_calls a) fs_empty) as [fs1|] eqn:E; [|discriminate].
  intros [= <-]. destruct (add_all_spec _ _ _ E) as [Hi He]. rewrite C07_match_spec, Hi, He. reflexivity.
Qed.
Print Assumptions C07_cli_into_spec.

(* schema[path] (MethodMap) lists every key of the path item whatever the filters; hence the methods the coverage
   phase sends as unspecified (negative mode) do not depend on the filters, and none of them is the method of an
   operation DEFINED for that path - in particular never one the user excluded *)
Theorem C07_method_map_ignores_filters : forall fs fs' item,
  method_map_keys fs item = method_map_keys fs' item /\ unspecified_methods fs item = unspecified_methods fs' item.
Proof. split; reflexivity. Qed.
Print Assumptions C07_method_map_ignores_filters.

Theorem C07_unspecified_method_not_defined : forall fs item m,
  ci_distinct (map fst item) = true -> In m (unspecified_methods fs item) -> ~ In m (map fst item).
Proof.
  intros fs item m Hd H Hin. unfold unspecified_methods, method_map_keys in H. rewrite (ci_keys_distinct _ Hd) in H.
  apply filter_In in H. destruct H as [_ H]. apply negb_true_iff in H.
  apply existsb_str_in in Hin. rewrite Hin in H. discriminate.
Qed.
Print Assumptions C07_unspecified_method_not_defined.

(* ... and false when two keys are equal up to case (post, Post): finding C07-F5 *)
Theorem C07_unspecified_method_not_defined_refuted : exists fs item m,
  ci_distinct (map fst item) = false /\ In m (unspecified_methods fs item) /\ In m (map fst item) /\
  is_http_method m = true.
Proof.
  exists fs_empty, w_item_F5, w_s_post.
  vm_compute. repeat split; auto.
Qed.
Print Assumptions C07_unspecified_method_not_defined_refuted.

(* derivation histories.  Schemas are derived from one another by include / exclude on ANY earlier schema, in any
   order, interleaved with reads of the cached statistic.  The object graph the code builds (mutable set objects
   on a heap, FilterSet.clone copying them) is indistinguishable from value semantics: every schema carries the
   filter set of ITS OWN chain of calls, whatever was derived from it or next to it *)
Theorem C07_derived_schema_independent : forall d es,
  heap_abs (heap_run false d es) = value_run d es.
Proof. intros d es. exact (heap_run_refines d es heap_init heap_init_bounded). Qed.
Print Assumptions C07_derived_schema_independent.

(* ... and a statistic that was cached is the statistic of the filter set the schema still has *)
Theorem C07_cached_statistic_fresh : forall d es,
  Forall (stat_fresh d) (heap_abs (heap_run false d es)).
Proof. intros d es. rewrite C07_derived_schema_independent. apply value_run_fresh. Qed.
Print Assumptions C07_cached_statistic_fresh.

(* sentinel: in the variant where clone hands the parent's (non-empty) sets on, the same history is observably
   different - a child changes its parent (so the theorem above is about the copying, not vacuous) *)
Theorem C07_shared_clone_not_independent : exists d es,
  map (observe_node d) (heap_abs (heap_run true d es)) <> map (observe_node d) (value_run d es) /\
  map (observe_node d) (heap_abs (heap_run false d es)) = map (observe_node d) (value_run d es) /\
  length (value_run d es) = 3.
Proof. exists w_hist_doc, w_history. split; [vm_compute; discriminate | split; vm_compute; reflexivity]. Qed.
Print Assumptions C07_shared_clone_not_independent.

(* filter expressions: an array token of the JSON pointer is an index only if it is ASCII digits, non-negative and
   without a leading zero (RFC 6901; core/transforms.py since commit 5f4626e6 of /repo) *)
Theorem C07_pointer_index_rfc6901 : forall s z,
  parse_index s = Some z ->
  s <> [] /\ forallb is_digit s = true /\ (0 <= z)%Z /\ (s = [48%N] \/ hd 0%N s <> 48%N).
Proof.
  intros [|c r] z; cbn [parse_index]; [discriminate|].
  destruct (N.eqb c 48) eqn:E.
  - destruct r; [|discriminate]. intros [= <-]. apply N.eqb_eq in E. subst c.
    repeat split; try discriminate; try reflexivity. left; reflexivity.
  - destruct (digits_val (c :: r) 0) as [n|] eqn:D; cbn [option_map]; [|discriminate].
    intros [= <-]. split; [discriminate|]. split; [exact (digits_val_all_digits _ _ _ D)|].
    split; [apply N2Z.is_nonneg|]. right. cbn [hd]. apply N.eqb_neq. exact E.
Qed.
Print Assumptions C07_pointer_index_rfc6901.

(* sentinel: the int() rule of the code before commit 5f4626e6 is a different function (/tags/-1 is the last tag,
   /tags/01 the second) *)
Theorem C07_pointer_rule_differs :
  let doc := JObj [(s_tags, JArr [JStr [117]%N; JStr [100]%N])] in
  let p_minus1 := [47;116;97;103;115;47;45;49]%N in
  let p_01 := [47;116;97;103;115;47;48;49]%N in
  let p_1 := [47;116;97;103;115;47;49]%N in
  resolve_pointer doc p_minus1 = None /\ resolve_pointer_legacy doc p_minus1 = Some (JStr [100]%N) /\
  resolve_pointer doc p_01 = None /\ resolve_pointer_legacy doc p_01 = Some (JStr [100]%N) /\
  resolve_pointer doc p_1 = Some (JStr [100]%N) /\ resolve_pointer_legacy doc p_1 = Some (JStr [100]%N).
Proof. vm_compute. repeat split. Qed.
Print Assumptions C07_pointer_rule_differs.

(* Access histories on ONE schema object (the per-schema operation cache, specs/openapi/_cache.py).
   A history is any list of: get_operation_by_id, get_operation_by_reference, schema[path][method], a traversal
   (get_all_operations), schema.statistic (cached), _measure_statistic(), as_state_machine().  The lookups fill the
   cache WITHOUT consulting the filters.  access_run false is the code; the theorems with a start state st hold from ANY
   state (any cache contents), their corollaries that compare two observations start from astate_init. *)

(* whatever was looked up, built or measured before, every traversal offers exactly get_all_operations fs d *)
Theorem C07_access_offered_transparent : forall d fs h st l,
  In (OOffered l) (access_run false d fs h st) -> l = offered_pairs (get_all_operations fs d).
Proof. intros d fs h st l Hin. exact (access_run_sound d fs h st _ Hin). Qed.
Print Assumptions C07_access_offered_transparent.

(* every statistic read in the history - the cached property or a new measurement - is the statistic of the filter set *)
Theorem C07_access_statistic_fresh : forall d fs h st s,
  astate_ok d fs st ->
  In (OStatistic s) (access_run false d fs h st) -> s = stat_tuple (measure_statistic fs d).
Proof. intros d fs h st s Hok Hin. exact (access_run_sound d fs h st _ Hin Hok). Qed.
Print Assumptions C07_access_statistic_fresh.

(* the reported number of selected operations equals the number of operations offered by every traversal of the same
   history (region: filters do not depend on reference resolution; outside it C07_statistic_eq_offered_refuted, F1) *)
Theorem C07_access_count_eq_offered_partial : forall d fs h t s lt ls l,
  resolution_independent fs d = true ->
  In (OStatistic (t, s, lt, ls)) (access_run false d fs h astate_init) ->
  In (OOffered l) (access_run false d fs h astate_init) ->
  s = length l.
Proof.
  intros d fs h t s lt ls l Hind Hs Ho.
  apply C07_access_statistic_fresh in Hs; [|exact I]. apply C07_access_offered_transparent in Ho.
  injection Hs as _ -> _ _. subst l. unfold offered_pairs. rewrite map_length.
  apply C07_statistic_eq_offered_partial. exact Hind.
Qed.
Print Assumptions C07_access_count_eq_offered_partial.

(* a state machine built at any point of any history has no transition from or to an operation that is not offered:
   a cached (possibly excluded) link target is dropped like a freshly resolved one *)
Theorem C07_access_no_transition_to_unselected : forall d fs h st ts src status name tgt,
  In (OMachine (Some ts)) (access_run false d fs h st) -> In (src, status, name, tgt) ts ->
  In src (map op_label (get_all_operations fs d)) /\ In tgt (map op_label (get_all_operations fs d)).
Proof.
  intros d fs h st ts src status name tgt Hin. exact (access_run_sound d fs h st _ Hin ts src status name tgt eq_refl).
Qed.
Print Assumptions C07_access_no_transition_to_unselected.

Theorem C07_access_transition_target_selected : forall d fs h st ts src status name tgt,
  In (OMachine (Some ts)) (access_run false d fs h st) -> In (src, status, name, tgt) ts ->
  exists p m od, tgt = label_of m p /\ (exists item, In (p, item) d /\ In (m, od) item) /\
                 is_http_method m = true /\ fs_match fs (mk_ctx p m (od_resolved od)) = true.
Proof.
  intros d fs h st ts src status name tgt H Ht. apply offered_label_selected.
  exact (proj2 (C07_access_no_transition_to_unselected _ _ _ _ _ _ _ _ _ H Ht)).
Qed.
Print Assumptions C07_access_transition_target_selected.

(* the state machine does not depend on the history - as long as every schema[path][method] access of the history
   files its operation under an operationId that a fresh get_operation_by_id resolves to that same operation
   (executable region item_accesses_consistent; in particular: histories without such an access) *)
Theorem C07_access_transitions_stable_partial : forall d fs h st r,
  item_accesses_consistent d h = true -> cache_ok d (as_cache st) ->
  In (OMachine r) (access_run false d fs h st) -> r = option_map transition_tuples (collect_transitions fs d).
Proof.
  intros d fs h st r Hh Hok Hin.
  exact (access_run_invariant false d fs _ (fun st => cache_ok d (as_cache st)) _ (access_step_stable d fs)
           h st (OMachine r) Hh Hok Hin r eq_refl).
Qed.
Print Assumptions C07_access_transitions_stable_partial.

(* ... and does otherwise: with the duplicated operationId of finding C07-F2, schema[/a][get] makes the link resolve
   to GET /a (one transition) where a fresh schema object resolves it to the excluded GET /b (none) *)
Theorem C07_access_transitions_stable_refuted : exists d fs p m,
  item_accesses_consistent d [AItem p m; AMachine] = false /\ unique_operation_ids d = false /\
  collect_transitions fs d = Some [] /\
  exists t, access_run false d fs [AItem p m; AMachine] astate_init = [OLookup (Some (p, m)); OMachine (Some [t])] /\
            snd t = label_of m p.
Proof. exists w_doc_F2, (fs_of w_calls_F2), w_s_a, w_s_get. vm_compute. repeat split. eexists. split; reflexivity. Qed.
Print Assumptions C07_access_transitions_stable_refuted.

(* the reported number of selected links equals the number of transitions of EVERY state machine built in the
   history (regions of C07_links_selected_eq_transitions_partial + item_accesses_consistent) *)
Theorem C07_access_links_eq_transitions_partial : forall d fs h t s lt ls ts,
  resolution_independent fs d = true -> unique_operation_ids d = true -> unique_labels d = true ->
  refs_name_methods d = true -> item_accesses_consistent d h = true ->
  In (OStatistic (t, s, lt, ls)) (access_run false d fs h astate_init) ->
  In (OMachine (Some ts)) (access_run false d fs h astate_init) ->
  ls = length ts.
Proof.
  intros d fs h t s lt ls ts H1 H2 H3 H4 Hc Hs Hm.
  apply C07_access_statistic_fresh in Hs; [|exact I]. injection Hs as _ _ _ ->.
  apply (C07_access_transitions_stable_partial d fs h astate_init _ Hc (cache_ok_empty d)) in Hm.
  destruct (collect_transitions fs d) as [ts0|] eqn:E; [|discriminate]. injection Hm as ->.
  unfold transition_tuples. rewrite map_length. exact (C07_links_selected_eq_transitions_partial fs d H1 H2 H3 ts0 H4 E).
Qed.
Print Assumptions C07_access_links_eq_transitions_partial.

(* ... and false after schema[/a][POST] on a path item whose key is spelled Post (operationId opA, also the id of
   DELETE /b): no filters, unique ids among the operations, 1 selected link reported, a fresh schema has 1 transition,
   the accessed one has none (the link now resolves to the phantom POST /a, which is never offered): finding C07-F6 *)
Theorem C07_access_links_eq_transitions_refuted : exists d fs h,
  resolution_independent fs d = true /\ unique_operation_ids d = true /\ unique_labels d = true /\
  refs_name_methods d = true /\ item_accesses_consistent d h = false /\
  access_run false d fs h astate_init =
    [OLookup (Some (w_s_a, [112;111;115;116]%N)); OStatistic (2, 2, 1, 1); OMachine (Some [])] /\
  option_map (@length transition) (collect_transitions fs d) = Some 1.
Proof. exists w_doc_F6, fs_empty, [AItem w_s_a [80;79;83;84]%N; AMeasure; AMachine]. vm_compute. repeat split. Qed.
Print Assumptions C07_access_links_eq_transitions_refuted.

(* sentinel: in the variant where the traversal takes operation-cache hits BEFORE the filter test (and files what it
   builds), looking the excluded GET /b up by its operationId makes the next traversal offer it (3 offered, 2 reported);
   the real traversal on the same history does not - so the theorems above are about the code not reading the cache.
   (The filter of the witness is by path only, so the empty definition in the first conjunct stands for GET /b's.) *)
Theorem C07_cache_reuse_not_transparent : exists d fs h p m,
  fs_match fs (mk_ctx p m (JObj [])) = false /\
  (exists l, In (OOffered l) (access_run true d fs h astate_init) /\ In (p, m) l /\ length l = 3) /\
  (exists l, In (OOffered l) (access_run false d fs h astate_init) /\ ~ In (p, m) l /\ length l = 2) /\
  In (OStatistic (3, 2, 1, 1)) (access_run true d fs h astate_init).
Proof.
  exists w_doc_F2, (fs_of w_calls_F2), [AById w_s_getX; ATraverse; AMeasure], w_s_b, w_s_get.
  vm_compute. split; [reflexivity|]. split; [|split].
  - eexists. split; [right; left; reflexivity|]. split; [right; right; left; reflexivity | reflexivity].
  - eexists. split; [right; left; reflexivity|]. split; [|reflexivity].
    intros [H|[H|[]]]; discriminate.
  - right; right; left; reflexivity.
Qed.
Print Assumptions C07_cache_reuse_not_transparent.

(* non-vacuity of the access-history theorems *)
Theorem C07_access_hypotheses_satisfiable : exists d fs h,
  item_accesses_consistent d h = true /\ no_item_access h = false /\ resolution_independent fs d = true /\
  cache_ok d (as_cache astate_init) /\
  length (access_run false d fs h astate_init) = 10 /\
  In (OLookup (Some (w_s_b, w_s_get))) (access_run false d fs h astate_init) /\
  In (OMachine (Some [])) (access_run false d fs h astate_init) /\
  In (OStatistic (3, 2, 1, 1)) (access_run false d fs h astate_init).
Proof.
  destruct access_history_nonvacuous as [A [A' [B C]]]. cbv zeta in A, A', B, C.
  exists w_doc_F2, (fs_of w_calls_F2). eexists.
  split; [exact A|]. split; [exact A'|]. split; [exact B|]. split; [exact (cache_ok_empty _)|].
  rewrite C. split; [reflexivity|]. cbn [In].
  split; [do 2 right; left; reflexivity|]. split; [do 4 right; left; reflexivity | do 3 right; left; reflexivity].
Qed.
Print Assumptions C07_access_hypotheses_satisfiable.
