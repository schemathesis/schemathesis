(* C07 - lemmas about Model_C07.

   The property theorems of Properties_C07.v are stated with these definitions of this file:
     filter_matches (what FilterSet.match means), entries / selectedb / op_of (the document as a list of entries and the
     decision asked for), matchers_of (the filter an _add_filter call builds), fs_union, strip_non_methods, calls_filters,
     stat_fresh, astate_ok, cache_ok (the invariants of the two kinds of history), fs_of and the witnesses w_*.

   Order: facts about lists and strings; FilterSet.match; the traversals of a document read as traversals of its
   entries (flat_map_entries) - offered operations, statistic, _operation_iter; _add_filter; transitions
   (transitions_of_spec) and the link count (section LinkCount); keys that are not methods, the command line,
   schema[path]; derivation histories (the heap refines value semantics: heap_step_refines); access histories on one
   schema (access_run_invariant; access_run_sound for any cache, access_step_stable under cache_ok); the witnesses of the
   findings and the non-vacuity examples. *)
From Coq Require Import List NArith ZArith Bool Lia Arith Permutation.
From Verif Require Import Common.Str Common.Json Common.Lists C07.Model_C07.
Import ListNotations.

Lemma existsb_perm {A} (p : A -> bool) l l' : Permutation l l' -> existsb p l = existsb p l'.
Proof. induction 1; cbn; try congruence. destruct (p x), (p y); reflexivity. Qed.

Lemma flat_map_filter_map {A B} (f : A -> B) (p : A -> bool) (l : list A) :
  flat_map (fun x => if p x then [f x] else []) l = map f (filter p l).
Proof. induction l as [|x l IH]; cbn; [reflexivity|]. destruct (p x); cbn; rewrite IH; reflexivity. Qed.

Lemma flat_map_map {A B C} (f : B -> list C) (g : A -> B) l : flat_map f (map g l) = flat_map (fun x => f (g x)) l.
Proof. induction l as [|x l IH]; cbn; [reflexivity|]. rewrite IH. reflexivity. Qed.

Lemma existsb_str_in x l : existsb (str_eqb x) l = true <-> In x l.
Proof.
  rewrite existsb_exists. split.
  - intros [y [Hin E]]. apply str_eqb_spec in E. subst. exact Hin.
  - intros Hin. exists x. split; [exact Hin | apply str_eqb_refl].
Qed.

Lemma NoDup_map_eq_inv {A B} (f : A -> B) l x y :
  NoDup (map f l) -> In x l -> In y l -> f x = f y -> x = y.
Proof.
  induction l as [|a l IH]; cbn; intros Hnd Hx Hy E; [contradiction|].
  inversion Hnd as [|? ? Hnot Hnd']; subst.
  destruct Hx as [Hx|Hx], Hy as [Hy|Hy]; subst.
  - reflexivity.
  - exfalso. apply Hnot. rewrite E. apply in_map. exact Hy.
  - exfalso. apply Hnot. rewrite <- E. apply in_map. exact Hx.
  - apply IH; assumption.
Qed.

Lemma assoc_get_none {A} k (l : list (str * A)) : assoc_get k l = None -> ~ In k (map fst l).
Proof.
  induction l as [|[k' v'] r IH]; cbn; [tauto|].
  destruct (str_eqb k k') eqn:E; [discriminate|].
  intros H [Hk|Hin]; [subst; rewrite str_eqb_refl in E; discriminate | exact (IH H Hin)].
Qed.

Lemma upper_c_idem x : upper_c (upper_c x) = upper_c x.
Proof.
  unfold upper_c, is_lower.
  destruct ((97 <=? x)%N && (x <=? 122)%N) eqn:E; [|rewrite E; reflexivity].
  apply andb_true_iff in E; destruct E as [E1 E2]. apply N.leb_le in E1; apply N.leb_le in E2.
  destruct ((97 <=? x - 32)%N && (x - 32 <=? 122)%N) eqn:E'; [|reflexivity].
  apply andb_true_iff in E'; destruct E' as [E3 _]. apply N.leb_le in E3. lia.
Qed.
Lemma upper_ascii_idem s : upper_ascii (upper_ascii s) = upper_ascii s.
Proof. unfold upper_ascii. rewrite map_map. apply map_ext. intros; apply upper_c_idem. Qed.

Definition filter_matches (f : flt) (c : ctx) : Prop := forall m, In m f -> matcher_match m c = true.

Lemma filter_match_spec f c : filter_match f c = true <-> filter_matches f c.
Proof. apply forallb_forall. Qed.

Lemma value_matcher_path e c : matcher_match (MValue APath e) c = true <-> c_path c = e.
Proof. apply str_eqb_spec. Qed.

Lemma some_filter_matches l c :
  existsb (fun f => filter_match f c) l = true <-> exists f, In f l /\ filter_matches f c.
Proof.
  rewrite existsb_exists.
  split; intros [f [Hin Hm]]; exists f; (split; [exact Hin | apply filter_match_spec; exact Hm]).
Qed.

(* an empty filter set selects everything: the shortcut in _should_skip is sound *)
Lemma empty_matches fs c : fs_is_empty fs = true -> fs_match fs c = true.
Proof.
  unfold fs_is_empty, fs_match. destruct (fs_includes fs), (fs_excludes fs); try discriminate. reflexivity.
Qed.

Lemma should_skip_spec fs p m d :
  should_skip fs p m d = negb (is_http_method m && fs_match fs (mk_ctx p m d)).
Proof.
  unfold should_skip. destruct (is_http_method m); cbn [negb andb]; [|reflexivity].
  destruct (fs_is_empty fs) eqn:E; [|reflexivity].
  rewrite (empty_matches _ _ E). reflexivity.
Qed.

Example upper_case_key_is_not_a_method : is_http_method [71;69;84]%N = false /\ is_http_method [103;101;116]%N = true.
Proof. split; reflexivity. Qed.

Definition entries (d : doc) : list (str * str * opdef) :=
  flat_map (fun pi : str * path_item => map (fun kd : str * opdef => (fst pi, fst kd, snd kd)) (snd pi)) d.

(* the decision the property text asks for, on the resolved definition *)
Definition selectedb (fs : filter_set) (e : str * str * opdef) : bool :=
  let '(p, m, od) := e in is_http_method m && fs_match fs (mk_ctx p m (od_resolved od)).
Definition op_of (e : str * str * opdef) : op :=
  let '(p, m, od) := e in {| o_path := p; o_method := m; o_def := od |}.

(* The model traverses a document path item by path item and, inside, key by key.  Such a traversal is one of
   [entries d]; where it keeps or drops single entries it is then a [filter] / [map] by [flat_map_filter_map]. *)
Lemma flat_map_entries {B} (g : str * str * opdef -> list B) d :
  flat_map (fun pi : str * path_item => flat_map (fun kd : str * opdef => g (fst pi, fst kd, snd kd)) (snd pi)) d =
  flat_map g (entries d).
Proof.
  unfold entries. induction d as [|pi d IH]; cbn [flat_map]; [reflexivity|].
  rewrite flat_map_app, <- IH, flat_map_map. reflexivity.
Qed.

Lemma offered_eq_filter fs d : get_all_operations fs d = map op_of (filter (selectedb fs) (entries d)).
Proof.
  rewrite <- flat_map_filter_map, <- flat_map_entries. unfold get_all_operations, item_operations.
  apply flat_map_ext. intros [p item]. apply flat_map_ext. intros [m od]. cbn [fst snd selectedb op_of].
  rewrite should_skip_spec. destruct (is_http_method m); [|reflexivity]. cbn [negb andb].
  destruct (fs_match fs (mk_ctx p m (od_resolved od))); reflexivity.
Qed.

Lemma http_entries_eq d : http_entries d = filter (fun e : str * str * opdef => is_http_method (snd (fst e))) (entries d).
Proof. rewrite <- (map_id (filter _ _)), <- flat_map_filter_map. exact (flat_map_entries _ d). Qed.

Lemma op_of_inj e e' : op_of e = op_of e' -> e = e'.
Proof. destruct e as [[p m] od], e' as [[p' m'] od']. cbn. intros H; inversion H; reflexivity. Qed.

Lemma in_entries d p m od :
  In (p, m, od) (entries d) <-> exists item, In (p, item) d /\ In (m, od) item.
Proof.
  unfold entries. rewrite in_flat_map. split.
  - intros [[p' item] [Hin Hm]]. cbn [fst snd] in Hm. apply in_map_iff in Hm. destruct Hm as [[m' od'] [E Hk]].
    cbn in E. inversion E; subst. exists item. split; assumption.
  - intros [item [Hin Hk]]. exists (p, item). split; [exact Hin|]. cbn [fst snd].
    apply in_map_iff. exists (m, od). split; [reflexivity | exact Hk].
Qed.

Lemma in_http_entries d p m od : In (p, m, od) (http_entries d) <-> In (p, m, od) (entries d) /\ is_http_method m = true.
Proof. rewrite http_entries_eq. apply filter_In. Qed.

Lemma offered_iff_selected fs d p m od :
  In {| o_path := p; o_method := m; o_def := od |} (get_all_operations fs d) <->
  (exists item, In (p, item) d /\ In (m, od) item) /\
  is_http_method m = true /\ fs_match fs (mk_ctx p m (od_resolved od)) = true.
Proof.
  rewrite offered_eq_filter, in_map_iff, <- in_entries, <- andb_true_iff. split.
  - intros [e [E Hin]]. apply (op_of_inj e (p, m, od)) in E. subst e. apply filter_In in Hin. exact Hin.
  - intros H. exists (p, m, od). split; [reflexivity | apply filter_In; exact H].
Qed.

Lemma raw_selected_spec fs p m od :
  raw_selected fs (p, m, od) = is_http_method m && fs_match fs (mk_ctx p m (od_raw od)).
Proof. cbn. rewrite should_skip_spec. apply negb_involutive. Qed.

Lemma independent_pointwise fs d p m od :
  resolution_independent fs d = true -> In (p, m, od) (http_entries d) ->
  fs_match fs (mk_ctx p m (od_raw od)) = fs_match fs (mk_ctx p m (od_resolved od)).
Proof.
  unfold resolution_independent. rewrite forallb_forall. intros H Hin. apply eqb_prop. exact (H _ Hin).
Qed.

(* where the filters do not look at what resolution changes, the statistic selects what is offered *)
Lemma independent_raw_selected fs d :
  resolution_independent fs d = true ->
  filter (raw_selected fs) (http_entries d) = filter (selectedb fs) (entries d).
Proof.
  intros H. rewrite http_entries_eq, filter_filter. apply filter_ext_in.
  intros [[p m] od] Hin. rewrite raw_selected_spec. cbn [fst snd selectedb].
  destruct (is_http_method m) eqn:Hh; cbn [andb]; [|reflexivity].
  apply (independent_pointwise fs d p m od H). apply in_http_entries. split; assumption.
Qed.

Lemma operation_iter_eq fs d :
  operation_iter fs d = map (fun e : str * str * opdef => od_raw (snd e)) (filter (raw_selected fs) (http_entries d)).
Proof.
  rewrite http_entries_eq, filter_filter, <- flat_map_filter_map, <- flat_map_entries.
  apply flat_map_ext. intros [p item]. apply flat_map_ext. intros [m od]. cbn [fst snd raw_selected].
  rewrite should_skip_spec. destruct (is_http_method m), (fs_match fs (mk_ctx p m (od_raw od))); reflexivity.
Qed.

Lemma attr_eqb_refl a : attr_eqb a a = true.
Proof. destruct a; reflexivity. Qed.
Lemma strs_eqb_refl l : strs_eqb l l = true.
Proof. induction l as [|x l IH]; cbn; [reflexivity|]. rewrite str_eqb_refl, IH. reflexivity. Qed.
Lemma matcher_same_refl m : matcher_same m m = true.
Proof.
  destruct m as [a e|a es|a s p|i f]; cbn;
    rewrite ?attr_eqb_refl, ?str_eqb_refl, ?strs_eqb_refl, ?N.eqb_refl; reflexivity.
Qed.
Lemma filter_same_refl f : filter_same f f = true.
Proof. induction f as [|m f IH]; cbn; [reflexivity|]. rewrite matcher_same_refl, IH. reflexivity. Qed.

Definition matchers_of (a : add_args) : option (list matcher) :=
  match collect_matchers (attr_args a) with
  | None => None
  | Some ms => Some (match a_func a with Some (i, f) => MFunc i f :: ms | None => ms end)
  end.

Lemma add_filter_eq inc a fs :
  add_filter inc a fs =
  match matchers_of a with
  | None => Rejected ErrExpectedAndRegex
  | Some [] => Rejected ErrEmpty
  | Some ms =>
      if existsb (filter_same ms) (fs_includes fs) || existsb (filter_same ms) (fs_excludes fs) then Rejected ErrExists
      else Added (if inc then {| fs_includes := fs_includes fs ++ [ms]; fs_excludes := fs_excludes fs |}
                  else {| fs_includes := fs_includes fs; fs_excludes := fs_excludes fs ++ [ms] |})
  end.
Proof.
  unfold add_filter, matchers_of. destruct (collect_matchers (attr_args a)) as [ms|]; [|reflexivity]. cbv zeta.
  destruct (match a_func a with Some (i, f) => MFunc i f :: ms | None => ms end); [reflexivity|].
  destruct (_ || _); [reflexivity|]. destruct inc; reflexivity.
Qed.

Lemma add_filter_spec inc a fs fs' :
  add_filter inc a fs = Added fs' ->
  exists ms, matchers_of a = Some ms /\ ms <> [] /\
    existsb (filter_same ms) (fs_includes fs) = false /\ existsb (filter_same ms) (fs_excludes fs) = false /\
    fs' = if inc then {| fs_includes := fs_includes fs ++ [ms]; fs_excludes := fs_excludes fs |}
          else {| fs_includes := fs_includes fs; fs_excludes := fs_excludes fs ++ [ms] |}.
Proof.
  rewrite add_filter_eq. destruct (matchers_of a) as [[|m ms]|]; try discriminate.
  destruct (existsb _ (fs_includes fs)) eqn:E1, (existsb _ (fs_excludes fs)) eqn:E2; try discriminate.
  intros [= <-]. exists (m :: ms). repeat split; [discriminate | exact E1 | exact E2].
Qed.

Lemma fs_match_include i e ms c :
  fs_match {| fs_includes := i ++ [ms]; fs_excludes := e |} c =
  negb (existsb (fun f => filter_match f c) e) && (existsb (fun f => filter_match f c) i || filter_match ms c).
Proof.
  unfold fs_match. cbn [fs_includes fs_excludes]. destruct (existsb (fun f => filter_match f c) e); [reflexivity|].
  rewrite existsb_app. cbn [existsb negb andb]. rewrite orb_false_r. destruct i; reflexivity.
Qed.

Lemma fs_match_exclude i e ms c :
  fs_match {| fs_includes := i; fs_excludes := e ++ [ms] |} c =
  fs_match {| fs_includes := i; fs_excludes := e |} c && negb (filter_match ms c).
Proof.
  unfold fs_match. cbn [fs_includes fs_excludes]. rewrite existsb_app. cbn [existsb]. rewrite orb_false_r.
  destruct (existsb (fun f => filter_match f c) e); [reflexivity|].
  destruct (filter_match ms c); cbn [orb negb]; [rewrite andb_false_r | rewrite andb_true_r]; reflexivity.
Qed.

Lemma include_effect a fs fs' c :
  add_filter true a fs = Added fs' ->
  exists ms, matchers_of a = Some ms /\
    fs_match fs' c = negb (existsb (fun f => filter_match f c) (fs_excludes fs)) &&
                     (existsb (fun f => filter_match f c) (fs_includes fs) || filter_match ms c).
Proof.
  intros H. destruct (add_filter_spec _ _ _ _ H) as [ms [Hm [_ [_ [_ ->]]]]]. exists ms. split; [exact Hm|].
  apply fs_match_include.
Qed.

Lemma digits_val_all_digits s : forall acc n, digits_val s acc = Some n -> forallb is_digit s = true.
Proof.
  induction s as [|c r IH]; intros acc n H; cbn [digits_val forallb] in *; [reflexivity|].
  destruct (is_digit c); [|discriminate]. cbn [andb]. exact (IH _ _ H).
Qed.

Definition link_kept (d : doc) (labels : list str) (l : link) : bool :=
  match resolve_target d (l_target l) with
  | Some (p, m) => existsb (str_eqb (label_of m p)) labels
  | None => false
  end.

Lemma op_transitions_spec d labels src ls : forall ts,
  op_transitions d labels src ls = Some ts ->
  length ts = length (filter (link_kept d labels) ls) /\
  (forall t, In t ts -> t_source t = src /\ In (t_target t) labels).
Proof.
  induction ls as [|l r IH]; intros ts H; cbn [op_transitions] in H.
  - inversion H. split; [reflexivity | intros t []].
  - cbn [filter]. unfold link_kept at 1.
    destruct (resolve_target d (l_target l)) as [[p m]|]; [|discriminate].
    destruct (op_transitions d labels src r) as [rest|]; [|discriminate].
    destruct (IH rest eq_refl) as [IHl IHt].
    destruct (existsb (str_eqb (label_of m p)) labels) eqn:E; inversion H; subst; clear H.
    + split; [cbn [length]; rewrite IHl; reflexivity|].
      intros t [Ht|Ht]; [subst t; cbn; split; [reflexivity | apply existsb_str_in; exact E] | apply IHt; exact Ht].
    + split; [exact IHl | exact IHt].
Qed.

Definition op_links (o : op) : list link := links_or_nil (od_raw (o_def o)).

(* a state machine that builds has one transition per link whose target is among the labels, from an operation of
   the list to one of the labels *)
Lemma transitions_of_spec d labels ops : forall ts,
  transitions_of d labels ops = Some ts ->
  length ts = length (filter (link_kept d labels) (flat_map op_links ops)) /\
  (forall t, In t ts -> In (t_source t) (map op_label ops) /\ In (t_target t) labels).
Proof.
  induction ops as [|o r IH]; intros ts H; cbn [transitions_of] in H.
  - inversion H. split; [reflexivity | intros t []].
  - cbn [flat_map map]. unfold op_links at 1. unfold links_or_nil.
    destruct (links_of_raw (od_raw (o_def o))) as [ls|]; [|discriminate].
    destruct (op_transitions d labels (op_label o) ls) as [a|] eqn:Ea; [|discriminate].
    destruct (transitions_of d labels r) as [b|]; [|discriminate].
    inversion H; subst; clear H.
    destruct (op_transitions_spec _ _ _ _ _ Ea) as [La Ta]. destruct (IH b eq_refl) as [Lb Tb].
    split; [rewrite filter_app, !app_length, La, Lb; reflexivity|].
    intros t Ht. apply in_app_or in Ht. destruct Ht as [Ht|Ht].
    + destruct (Ta t Ht) as [Hs Hl]. split; [left; symmetry; exact Hs | exact Hl].
    + destruct (Tb t Ht) as [Hs Hl]. split; [right; exact Hs | exact Hl].
Qed.

Lemma offered_label_selected fs d l :
  In l (map op_label (get_all_operations fs d)) ->
  exists p m od, l = label_of m p /\ (exists item, In (p, item) d /\ In (m, od) item) /\
                 is_http_method m = true /\ fs_match fs (mk_ctx p m (od_resolved od)) = true.
Proof.
  intros H. apply in_map_iff in H. destruct H as [[p m od] [El Hin]].
  apply offered_iff_selected in Hin. exists p, m, od. split; [symmetry; exact El | exact Hin].
Qed.

Definition entry_label (e : str * str * opdef) : str := label_of (snd (fst e)) (fst (fst e)).

Lemma offered_labels fs d : map op_label (get_all_operations fs d) = map entry_label (filter (selectedb fs) (entries d)).
Proof. rewrite offered_eq_filter, map_map. apply map_ext. intros [[p m] od]. reflexivity. Qed.

Lemma offered_links fs d :
  flat_map op_links (get_all_operations fs d) =
  flat_map (fun e : str * str * opdef => links_or_nil (od_raw (snd e))) (filter (selectedb fs) (entries d)).
Proof. rewrite offered_eq_filter, flat_map_map. apply flat_map_ext. intros [[p m] od]. reflexivity. Qed.

Lemma nodup_strs_NoDup l : nodup_strs l = true -> NoDup l.
Proof.
  induction l as [|x l IH]; cbn; intros H; [constructor|].
  apply andb_true_iff in H. destruct H as [H1 H2]. constructor; [|apply IH; exact H2].
  intros Hin. apply existsb_str_in in Hin. rewrite Hin in H1. discriminate.
Qed.

(* the entry of the operationId index (_populate_operation_id_cache) that one entry of the document makes *)
Definition entry_ids (e : str * str * opdef) : list (str * (str * str)) :=
  if is_http_method (snd (fst e))
  then match jget s_operationId (od_raw (snd e)) with Some (JStr i) => [(i, (fst (fst e), snd (fst e)))] | _ => [] end
  else [].

Lemma doc_ids_eq d : doc_ids d = flat_map entry_ids (entries d).
Proof. exact (flat_map_entries entry_ids d). Qed.

Lemma in_doc_ids d i p m :
  In (i, (p, m)) (doc_ids d) <->
  exists od, In (p, m, od) (http_entries d) /\ jget s_operationId (od_raw od) = Some (JStr i).
Proof.
  rewrite doc_ids_eq, in_flat_map. unfold entry_ids. split.
  - intros [[[p' m'] od] [Hin Hid]]. cbn [fst snd] in Hid. destruct (is_http_method m') eqn:Hm; [|contradiction].
    destruct (jget s_operationId (od_raw od)) as [[| | |s| |]|] eqn:E; try contradiction.
    destruct Hid as [[= <- <- <-]|[]]. exists od. split; [apply in_http_entries; split; assumption | exact E].
  - intros [od [Hin E]]. apply in_http_entries in Hin. destruct Hin as [Hin Hm]. exists (p, m, od). split; [exact Hin|].
    cbn [fst snd]. rewrite Hm, E. left; reflexivity.
Qed.

Lemma in_selected_ids fs d i :
  In i (selected_ids fs d) <->
  exists e, In e (filter (raw_selected fs) (http_entries d)) /\ jget s_operationId (od_raw (snd e)) = Some (JStr i).
Proof.
  unfold selected_ids. rewrite in_flat_map. split.
  - intros [e [Hin Hid]]. exists e. split; [exact Hin|].
    destruct (jget s_operationId (od_raw (snd e))) as [[| | |s| |]|]; try contradiction.
    destruct Hid as [Hid|[]]. subst. reflexivity.
  - intros [e [Hin E]]. exists e. split; [exact Hin|]. rewrite E. left; reflexivity.
Qed.

Lemma find_by_id_in d i p m : find_by_id d i = Some (p, m) -> In (i, (p, m)) (doc_ids d).
Proof. unfold find_by_id. intros H. apply assoc_get_in in H. apply in_rev. exact H. Qed.

Lemma find_by_id_none d i : find_by_id d i = None -> ~ In i (map fst (doc_ids d)).
Proof.
  unfold find_by_id. intros H Hin. apply assoc_get_none in H. apply H.
  rewrite map_rev. apply in_rev. rewrite rev_involutive. exact Hin.
Qed.

Lemma selected_id_found fs d i : In i (selected_ids fs d) -> find_by_id d i <> None.
Proof.
  intros Hi Hf. apply in_selected_ids in Hi. destruct Hi as [[[p m] od] [Hin Hid]]. apply filter_In in Hin.
  apply (find_by_id_none _ _ Hf). apply in_map_iff. exists (i, (p, m)). split; [reflexivity|].
  apply in_doc_ids. exists od. split; [exact (proj1 Hin) | exact Hid].
Qed.

Lemma find_by_ref_in d r p m : find_by_ref d r = Some (p, m) -> exists od, In (p, m, od) (entries d).
Proof.
  unfold find_by_ref. destruct (parse_ref r) as [[p' m']|]; [|discriminate].
  destruct (assoc_get p' d) as [item|] eqn:E1; [|discriminate].
  destruct (assoc_get m' item) as [od|] eqn:E2; [|discriminate].
  intros H. inversion H; subst. exists od. apply in_entries. exists item.
  split; [apply assoc_get_in; exact E1 | apply assoc_get_in; exact E2].
Qed.

Lemma selected_entries_http fs d :
  filter (selectedb fs) (entries d) = filter (selectedb fs) (http_entries d).
Proof.
  rewrite http_entries_eq, filter_filter. apply filter_ext. intros [[p m] od]. cbn [fst snd selectedb].
  destruct (is_http_method m); reflexivity.
Qed.

Lemma selected_in_http fs d e : In e (filter (selectedb fs) (entries d)) -> In e (http_entries d).
Proof. rewrite selected_entries_http. intros H. apply filter_In in H. exact (proj1 H). Qed.

(* The statistic's test of a link (is its target among the selected operation ids, or among the selected
   (method, path) pairs) is the state machine's (is the label of its target an offered one).  Unique labels are what
   both kinds of link need; unique operation ids only links by operationId. *)
Section LinkCount.
  Variables (fs : filter_set) (d : doc).
  Hypothesis Hind : resolution_independent fs d = true.
  Hypothesis Hids : unique_operation_ids d = true.
  Hypothesis Hlbl : unique_labels d = true.

  Local Notation sel := (filter (selectedb fs) (entries d)).

  (* labels are unique: an offered label is the label of one entry of the document only *)
  Lemma offered_label_entry p m od :
    In (p, m, od) (http_entries d) -> In (label_of m p) (map entry_label sel) -> In (p, m, od) sel.
  Proof.
    intros Hin Hl. apply in_map_iff in Hl. destruct Hl as [e' [El Hin']].
    rewrite <- (NoDup_map_eq_inv entry_label (http_entries d) e' (p, m, od)); try assumption.
    - apply nodup_strs_NoDup. exact Hlbl.
    - exact (selected_in_http fs d e' Hin').
  Qed.

  Lemma id_link_agrees i p m :
    find_by_id d i = Some (p, m) ->
    existsb (str_eqb i) (selected_ids fs d) = existsb (str_eqb (label_of m p)) (map entry_label sel).
  Proof.
    intros Hf. apply find_by_id_in in Hf. apply eq_true_iff_eq.
    rewrite !existsb_str_in, in_selected_ids, (independent_raw_selected _ _ Hind). split.
    - intros [[[p' m'] od'] [Hin Hid]].
      (* ids are unique: the selected operation that carries the id is the one the id resolves to *)
      assert (E : (i, (p', m')) = (i, (p, m))).
      { apply (NoDup_map_eq_inv fst (doc_ids d)); [apply nodup_strs_NoDup; exact Hids | | exact Hf | reflexivity].
        apply in_doc_ids. exists od'. split; [exact (selected_in_http fs d _ Hin) | exact Hid]. }
      injection E as -> ->. exact (in_map entry_label _ _ Hin).
    - intros Hl. apply in_doc_ids in Hf. destruct Hf as [od [Hin Hid]].
      exists (p, m, od). split; [exact (offered_label_entry _ _ _ Hin Hl) | exact Hid].
  Qed.

  Lemma ref_link_agrees r p m :
    find_by_ref d r = Some (p, m) -> is_http_method m = true ->
    existsb (fun mp : str * str => str_eqb (fst mp) m && str_eqb (snd mp) p) (selected_by_path fs d) =
    existsb (str_eqb (label_of m p)) (map entry_label sel).
  Proof.
    intros Hf Hm. apply find_by_ref_in in Hf. destruct Hf as [od Hin].
    assert (Hin' : In (p, m, od) (http_entries d)) by (apply in_http_entries; split; assumption).
    apply eq_true_iff_eq. rewrite existsb_str_in, existsb_exists. unfold selected_by_path.
    rewrite (independent_raw_selected _ _ Hind). split.
    - intros [[m' p'] [Hsel E]]. cbn [fst snd] in E. apply andb_true_iff in E. destruct E as [E1 E2].
      apply str_eqb_spec in E1. apply str_eqb_spec in E2. subst m' p'.
      apply in_map_iff in Hsel. destruct Hsel as [[[p' m'] od'] [[= -> ->] Hs]]. exact (in_map entry_label _ _ Hs).
    - intros Hl. exists (m, p). split; [|cbn [fst snd]; rewrite !str_eqb_refl; reflexivity].
      exact (in_map (fun e : str * str * opdef => (snd (fst e), fst (fst e))) _ _ (offered_label_entry _ _ _ Hin' Hl)).
  Qed.

  Lemma link_selected_eq_kept l :
    ref_names_method d l = true -> is_link_selected fs d l = link_kept d (map entry_label sel) l.
  Proof.
    unfold ref_names_method, is_link_selected, link_kept, resolve_target. destruct (l_target l) as [i|r|].
    - (* TId *) intros _. destruct (find_by_id d i) as [[p m]|] eqn:Hf; [apply id_link_agrees; exact Hf|].
      apply not_true_is_false. intros E. apply existsb_str_in in E. exact (selected_id_found _ _ _ E Hf).
    - (* TRef *) destruct (find_by_ref d r) as [[p m]|] eqn:Hf; [|reflexivity]. intros Hm. apply (ref_link_agrees r); assumption.
    - (* TBad *) reflexivity.
  Qed.
  (* ... hence the links the statistic counts as selected are the links that become transitions *)
  Lemma selected_links_eq_kept :
    refs_name_methods d = true ->
    filter (is_link_selected fs d) (flat_map (fun e : str * str * opdef => links_or_nil (od_raw (snd e))) sel) =
    filter (link_kept d (map entry_label sel)) (flat_map (fun e : str * str * opdef => links_or_nil (od_raw (snd e))) sel).
  Proof.
    intros Hrefs. apply filter_ext_in. intros l Hl. apply link_selected_eq_kept.
    apply in_flat_map in Hl. destruct Hl as [e [He Hl]]. unfold refs_name_methods in Hrefs.
    rewrite forallb_forall in Hrefs. specialize (Hrefs e (selected_in_http fs d e He)).
    rewrite forallb_forall in Hrefs. exact (Hrefs l Hl).
  Qed.
End LinkCount.

Definition fs_union (a b : filter_set) : filter_set :=
  {| fs_includes := fs_includes a ++ fs_includes b; fs_excludes := fs_excludes a ++ fs_excludes b |}.

Definition strip_non_methods (d : doc) : doc :=
  map (fun pi : str * path_item => (fst pi, filter (fun kd : str * opdef => is_http_method (fst kd)) (snd pi))) d.

Lemma http_entries_strip d : http_entries (strip_non_methods d) = http_entries d.
Proof.
  unfold http_entries, strip_non_methods. induction d as [|[p item] d IH]; cbn [map flat_map]; [reflexivity|].
  rewrite IH. f_equal. cbn [fst snd].
  induction item as [|[m od] item IHi]; cbn [filter flat_map fst snd]; [reflexivity|].
  destruct (is_http_method m) eqn:E; cbn [flat_map fst snd]; rewrite ?E, IHi; reflexivity.
Qed.

(* the filters of the calls made by FilterArguments.into, in order *)
Fixpoint calls_filters (inc : bool) (cs : list (bool * add_args)) : list flt :=
  match cs with
  | [] => []
  | (i, a) :: r =>
      (if Bool.eqb i inc then match matchers_of a with Some ms => [ms] | None => [] end else []) ++ calls_filters inc r
  end.

Lemma add_all_spec cs : forall fs fs',
  add_all cs fs = Added fs' ->
  fs_includes fs' = fs_includes fs ++ calls_filters true cs /\
  fs_excludes fs' = fs_excludes fs ++ calls_filters false cs.
Proof.
  induction cs as [|[inc a] r IH]; intros fs fs' H; cbn [add_all] in H.
  - inversion H. cbn. rewrite !app_nil_r. split; reflexivity.
  - destruct (add_filter inc a fs) as [fs1|] eqn:E; [|discriminate].
    destruct (add_filter_spec _ _ _ _ E) as [ms [Hm [_ [_ [_ Hfs]]]]].
    destruct (IH _ _ H) as [Hi He]. cbn [calls_filters]. rewrite Hm, Hi, He. subst fs1.
    destruct inc; cbn [fs_includes fs_excludes Bool.eqb app]; rewrite <- ?app_assoc; split; reflexivity.
Qed.

(* the include regexes of the command line form ONE conjunctive filter, the exclude regexes one filter each *)
Example cli_regexes :
  let rp := rx_of [94;47;97]%N (RxPrefix [47;97]%N) in
  let rm := rx_of [94;103;101;116;36]%N (RxExact [103;101;116]%N) in
  let none := {| cl_by := None; cl_name := []; cl_method := []; cl_path := []; cl_tag := []; cl_operation_id := [];
                 cl_name_regex := None; cl_method_regex := None; cl_path_regex := None; cl_tag_regex := None;
                 cl_operation_id_regex := None |} in
  let both := {| cl_by := None; cl_name := []; cl_method := []; cl_path := []; cl_tag := []; cl_operation_id := [];
                 cl_name_regex := None; cl_method_regex := Some rm; cl_path_regex := Some rp; cl_tag_regex := None;
                 cl_operation_id_regex := None |} in
  length (calls_filters true (cli_calls {| cli_include := both; cli_exclude := none; cli_exclude_deprecated := false |})) = 1 /\
  length (calls_filters false (cli_calls {| cli_include := none; cli_exclude := both; cli_exclude_deprecated := true |})) = 3.
Proof. vm_compute. split; reflexivity. Qed.

Lemma ci_insert_fresh k acc :
  existsb (fun x => str_eqb (lower_ascii x) (lower_ascii k)) acc = false -> ci_insert k acc = acc ++ [k].
Proof.
  induction acc as [|x r IH]; cbn [existsb ci_insert app]; [reflexivity|].
  destruct (str_eqb (lower_ascii x) (lower_ascii k)); cbn [orb]; [discriminate|]. intros H. rewrite (IH H). reflexivity.
Qed.

Lemma ci_distinct_fresh acc k r :
  ci_distinct (acc ++ k :: r) = true -> existsb (fun x => str_eqb (lower_ascii x) (lower_ascii k)) acc = false.
Proof.
  induction acc as [|a acc IH]; cbn [app ci_distinct existsb]; [reflexivity|].
  intros H. apply andb_true_iff in H. destruct H as [H1 H2]. apply negb_true_iff in H1.
  rewrite existsb_app in H1. apply orb_false_iff in H1. destruct H1 as [_ H1]. cbn [existsb] in H1.
  apply orb_false_iff in H1. destruct H1 as [H1 _]. rewrite str_eqb_sym, H1. cbn [orb]. apply IH. exact H2.
Qed.

Lemma ci_keys_fold l : forall acc,
  ci_distinct (acc ++ l) = true -> fold_left (fun acc k => ci_insert k acc) l acc = acc ++ l.
Proof.
  induction l as [|k r IH]; intros acc H; cbn [fold_left]; [rewrite app_nil_r; reflexivity|].
  rewrite (ci_insert_fresh _ _ (ci_distinct_fresh _ _ _ H)).
  rewrite IH; rewrite <- app_assoc; [reflexivity | exact H].
Qed.

(* CaseInsensitiveDict over keys that are distinct up to case lists the keys as they are *)
Lemma ci_keys_distinct l : ci_distinct l = true -> ci_keys l = l.
Proof. exact (ci_keys_fold l []). Qed.

Example unspecified_example :
  let item : path_item := [([103;101;116]%N, {| od_raw := JNull; od_resolved := JNull |});
                           ([100;101;108;101;116;101]%N, {| od_raw := JNull; od_resolved := JNull |})] in
  ci_distinct (map fst item) = true /\ length (unspecified_methods fs_empty item) = 5.
Proof. vm_compute. split; reflexivity. Qed.

Lemma length_upd {A} i (v : A) l : length (upd i v l) = length l.
Proof. revert i; induction l as [|x r IH]; intros [|i]; cbn; try reflexivity. rewrite IH. reflexivity. Qed.

Lemma nth_upd_same {A} i (v d : A) l : i < length l -> nth i (upd i v l) d = v.
Proof.
  revert i; induction l as [|x r IH]; intros [|i] H; cbn in *; try lia; [reflexivity|]. apply IH. lia.
Qed.

Lemma nth_upd_other {A} i j (v d : A) l : i <> j -> nth j (upd i v l) d = nth j l d.
Proof.
  revert i j; induction l as [|x r IH]; intros [|i] [|j] H; cbn; try reflexivity; try congruence.
  apply IH. congruence.
Qed.

Lemma map_upd {A B} (f : A -> B) i v l : map f (upd i v l) = upd i (f v) (map f l).
Proof. revert i; induction l as [|x r IH]; intros [|i]; cbn; try reflexivity. rewrite IH. reflexivity. Qed.

Lemma Forall_upd {A} (P : A -> Prop) i v l : Forall P l -> P v -> Forall P (upd i v l).
Proof.
  revert i; induction l as [|x r IH]; intros [|i] Hl Hv; cbn; try assumption.
  - inversion Hl; subst. constructor; assumption.
  - inversion Hl; subst. constructor; [assumption | apply IH; assumption].
Qed.

(* what a heap operation on the two set objects [refs] of one schema has to do to mirror, on that schema and on
   every other one, the outcome [res] of the same call in value semantics (the heap keeps its length, so that what is
   bounded stays bounded) *)
Definition mirrors (cells : list (list flt)) (refs : nat * nat) (out : list (list flt) * bool) (res : add_result) : Prop :=
  length (fst out) = length cells /\
  (forall j, j <> fst refs -> j <> snd refs -> cell (fst out) j = cell cells j) /\
  match res with
  | Added fs' => snd out = true /\ deref (fst out) refs = fs'
  | Rejected _ => snd out = false
  end.

Lemma heap_add_mirrors inc a refs cells :
  fst refs < length cells -> snd refs < length cells -> fst refs <> snd refs ->
  mirrors cells refs (heap_add inc a refs cells) (add_filter inc a (deref cells refs)).
Proof.
  intros Hi He Hne. unfold heap_add, mirrors. destruct (add_filter inc a (deref cells refs)) as [fs'|e]; cbn [fst snd].
  - rewrite !length_upd. split; [reflexivity|]. split.
    + intros j Hj1 Hj2. unfold cell. rewrite !nth_upd_other by congruence. reflexivity.
    + split; [reflexivity|]. unfold deref, cell.
      rewrite nth_upd_other by congruence. rewrite nth_upd_same by exact Hi.
      rewrite nth_upd_same by (rewrite length_upd; exact He). destruct fs'; reflexivity.
  - repeat split; reflexivity.
Qed.

Lemma heap_call_mirrors c refs cells :
  fst refs < length cells -> snd refs < length cells -> fst refs <> snd refs ->
  mirrors cells refs (heap_call c refs cells) (apply_call c (deref cells refs)).
Proof.
  intros Hi He Hne. destruct c as [a|a [|]]; cbn [heap_call apply_call]; unfold schema_include, schema_exclude;
    [apply heap_add_mirrors; assumption | | apply heap_add_mirrors; assumption].
  destruct (a_func a) as [f|]; [|apply heap_add_mirrors; assumption].
  (* exclude(func, deprecated=True): two filters are added, the second one to what the first one left *)
  destruct (heap_add_mirrors false (only_func is_deprecated_id is_deprecated) refs cells Hi He Hne) as [L1 [U1 R1]].
  destruct (heap_add false (only_func is_deprecated_id is_deprecated) refs cells) as [cells1 ok1]. cbn [fst snd] in L1, U1, R1.
  destruct (add_filter false (only_func is_deprecated_id is_deprecated) (deref cells refs)) as [fs1|e1].
  - destruct R1 as [-> <-]. rewrite <- L1 in Hi, He. destruct (heap_add_mirrors false a refs cells1 Hi He Hne) as [L2 [U2 R2]].
    split; [congruence|]. split; [intros j J1 J2; rewrite (U2 j J1 J2); exact (U1 j J1 J2) | exact R2].
  - subst ok1. split; [exact L1|]. split; [exact U1 | reflexivity].
Qed.

(* the set objects of every schema are among the first [n] of the heap *)
Definition nodes_below (n : nat) (nodes : list hnode) : Prop :=
  Forall (fun hn => n_inc hn < n /\ n_exc hn < n) nodes.
Definition bounded (st : hstate) : Prop := nodes_below (length (h_cells st)) (h_nodes st).

Lemma nodes_below_mono n n' nodes : n <= n' -> nodes_below n nodes -> nodes_below n' nodes.
Proof. intros Hn. apply Forall_impl. intros hn [H1 H2]. split; lia. Qed.

(* FilterSet.clone of the code: two new set objects that hold what the parent's hold; nothing else moves *)
Lemma heap_clone_fresh cells refs :
  let (cells1, refs1) := heap_clone false cells refs in
  refs1 = (length cells, S (length cells)) /\ length cells1 = S (S (length cells)) /\
  (forall j, j < length cells -> cell cells1 j = cell cells j) /\ deref cells1 refs1 = deref cells refs.
Proof.
  cbn [heap_clone]. split; [reflexivity|]. split; [rewrite app_length; cbn; lia|]. split.
  - intros j Hj. unfold cell. apply app_nth1. exact Hj.
  - unfold deref, cell. cbn [fst snd]. rewrite !app_nth2 by lia.
    replace (length cells - length cells) with 0 by lia. replace (S (length cells) - length cells) with 1 by lia. reflexivity.
Qed.

(* schemas whose set objects are left alone look the same from outside *)
Lemma heap_abs_frame cells cells' nodes :
  nodes_below (length cells) nodes ->
  (forall j, j < length cells -> cell cells' j = cell cells j) ->
  map (fun hn => {| v_fs := deref cells' (node_refs hn); v_stat := n_stat hn |}) nodes =
  map (fun hn => {| v_fs := deref cells (node_refs hn); v_stat := n_stat hn |}) nodes.
Proof.
  intros Hb H. apply map_ext_in. intros hn Hin. destruct (proj1 (Forall_forall _ _) Hb hn Hin) as [B1 B2].
  unfold deref, node_refs. cbn [fst snd]. rewrite (H _ B1), (H _ B2). reflexivity.
Qed.

Lemma heap_step_refines d st e :
  bounded st ->
  heap_abs (heap_step false d st e) = value_step d (heap_abs st) e /\ bounded (heap_step false d st e).
Proof.
  intros Hb. pose proof (proj1 (Forall_forall _ _) Hb) as Hb'. unfold heap_abs, bounded.
  destruct e as [p c|n]; cbn [heap_step value_step]; rewrite nth_error_map.
  - destruct (nth_error (h_nodes st) p) as [pn|] eqn:Ep; cbn [option_map v_fs]; [|split; [reflexivity | exact Hb]].
    pose proof (heap_clone_fresh (h_cells st) (node_refs pn)) as Hc.
    destruct (heap_clone false (h_cells st) (node_refs pn)) as [cells1 refs]. destruct Hc as [-> [L1 [F1 D1]]].
    destruct (heap_call_mirrors c (length (h_cells st), S (length (h_cells st))) cells1) as [L2 [F2 R2]]; cbn [fst snd]; try lia.
    rewrite D1 in R2. destruct (heap_call c _ cells1) as [cells2 ok]. cbn [fst snd h_cells h_nodes] in L2, F2, R2 |- *.
    (* the call on the clone leaves the set objects of every existing schema alone *)
    rewrite <- (heap_abs_frame _ cells2 _ Hb) by (intros j Hj; rewrite F2 by lia; exact (F1 j Hj)).
    assert (Hb2 : nodes_below (length cells2) (h_nodes st)) by (apply (nodes_below_mono (length (h_cells st))); [lia | exact Hb]).
    destruct (apply_call c (deref (h_cells st) (node_refs pn))) as [fs'|err].
    + destruct R2 as [-> D2]. split.
      * rewrite map_app, <- D2. reflexivity.
      * apply Forall_app. split; [exact Hb2|]. constructor; [|constructor]. cbn. lia.
    + subst ok. split; [reflexivity | exact Hb2].
  - destruct (nth_error (h_nodes st) n) as [hn|] eqn:En; cbn [option_map]; [|split; [reflexivity | exact Hb]].
    cbn [v_stat]. destruct (n_stat hn) as [s|] eqn:Es; [split; [reflexivity | exact Hb]|].
    cbn [h_cells h_nodes]. split; [rewrite map_upd; reflexivity|].
    apply Forall_upd; [exact Hb | exact (Hb' hn (nth_error_In _ _ En))].
Qed.

Lemma heap_run_refines d es : forall st,
  bounded st -> heap_abs (fold_left (heap_step false d) es st) = fold_left (value_step d) es (heap_abs st).
Proof.
  induction es as [|e es IH]; intros st Hb; cbn [fold_left]; [reflexivity|].
  destruct (heap_step_refines d st e Hb) as [Ha Hb']. rewrite (IH _ Hb'), Ha. reflexivity.
Qed.

Lemma heap_init_bounded : bounded heap_init.
Proof. unfold bounded, heap_init. cbn. repeat constructor. Qed.

Definition stat_fresh (d : doc) (vn : vnode) : Prop :=
  v_stat vn = None \/ v_stat vn = Some (measure_statistic (v_fs vn) d).

Lemma value_step_fresh d st e : Forall (stat_fresh d) st -> Forall (stat_fresh d) (value_step d st e).
Proof.
  intros H. destruct e as [p c|n]; cbn [value_step].
  - destruct (nth_error st p) as [pn|]; [|exact H]. destruct (apply_call c (v_fs pn)); [|exact H].
    apply Forall_app. split; [exact H|]. constructor; [left; reflexivity | constructor].
  - destruct (nth_error st n) as [vn|]; [|exact H]. destruct (v_stat vn); [exact H|].
    apply Forall_upd; [exact H | right; reflexivity].
Qed.

Lemma value_run_fresh d es : Forall (stat_fresh d) (value_run d es).
Proof.
  unfold value_run. apply fold_left_inv; [intros st e; apply value_step_fresh|]. constructor; [left; reflexivity | constructor].
Qed.

Lemma value_derive d st p c pn fs' :
  nth_error st p = Some pn -> apply_call c (v_fs pn) = Added fs' ->
  value_step d st (EDerive p c) = st ++ [{| v_fs := fs'; v_stat := None |}].
Proof. intros H1 H2. cbn [value_step]. rewrite H1, H2. reflexivity. Qed.

(* the traversal of the code neither reads nor writes the operation cache *)
Lemma traverse_item_false fs p item c : traverse_item false fs p item c = (c, item_operations fs p item).
Proof.
  induction item as [|[m od] r IH]; cbn [traverse_item item_operations flat_map]; [reflexivity|].
  destruct (negb (is_http_method m)) eqn:Hm; cbn [app]; [exact IH|].
  destruct (should_skip fs p m (od_resolved od)) eqn:Hs; cbn [app]; [exact IH|].
  unfold item_operations in IH. rewrite IH. reflexivity.
Qed.

Lemma traverse_false fs d c : traverse false fs d c = (c, get_all_operations fs d).
Proof.
  induction d as [|[p item] r IH]; cbn [traverse get_all_operations flat_map]; [reflexivity|].
  rewrite traverse_item_false. unfold get_all_operations in IH. rewrite IH. reflexivity.
Qed.

Definition astate_ok (d : doc) (fs : filter_set) (st : astate) : Prop :=
  match as_stat st with Some s => s = measure_statistic fs d | None => True end.

(* One induction for every statement about the observations of an access history: an invariant [I] of the state and
   a property [P] of the observations, which each step on an access satisfying [ok] keeps, resp. establishes. *)
Lemma access_run_invariant reuse d fs (ok : access -> bool) (I : astate -> Prop) (P : aobs -> Prop) :
  (forall st a st' o, ok a = true -> I st -> access_step reuse d fs st a = (st', o) -> I st' /\ P o) ->
  forall h st o, forallb ok h = true -> I st -> In o (access_run reuse d fs h st) -> P o.
Proof.
  intros Hstep. induction h as [|a h IH]; intros st o Hok HI Hin; cbn [access_run] in Hin; [contradiction|].
  cbn [forallb] in Hok. apply andb_true_iff in Hok. destruct Hok as [Ha Hh].
  destruct (access_step reuse d fs st a) as [st' o'] eqn:Hs. destruct (Hstep _ _ _ _ Ha HI Hs) as [HI' HP].
  destruct Hin as [<-|Hin]; [exact HP | exact (IH _ _ Hh HI' Hin)].
Qed.

Definition sm_all (Q : transition -> Prop) (r : sm_res) : Prop :=
  match r with SmDone ts _ => Forall Q ts | SmAbort => True end.

(* whatever the cache holds and returns: a transition is only ever made from the source of a link item to a label.
   (Not a consequence of sm_ops_spec below, which needs a cache that satisfies cache_ok.) *)
Lemma sm_run_all (Q : transition -> Prop) d labels items :
  (forall src l tgt, In (SLink src l) items -> In tgt labels ->
     Q {| t_source := src; t_status := l_status l; t_name := l_name l; t_target := tgt |}) ->
  forall c, sm_all Q (snd (sm_run d labels items c)).
Proof.
  induction items as [|[src l|] r IH]; intros HQ c; cbn [sm_run]; [constructor | | exact I].
  specialize (IH (fun s l0 t H => HQ s l0 t (or_intror H))).
  assert (Hk : forall o rest, sm_all Q rest -> sm_all Q (sm_keep labels src l o rest)).
  { intros o [|ts e] Hr; cbn [sm_keep]; [exact I|]. destruct (existsb (str_eqb (op_label o)) labels) eqn:E; [|exact Hr].
    constructor; [apply HQ; [left; reflexivity | apply existsb_str_in, E] | exact Hr]. }
  destruct (l_target l) as [i|ref|]; [| |exact I].
  - destruct (cache_by_id d c i) as [c1 res]. specialize (IH c1). destruct (sm_run d labels r c1) as [c2 rest].
    destruct res as [o|]; [exact (Hk o rest IH) | destruct rest; exact IH].
  - destruct (cache_by_ref d c ref) as [c1 [o|]]; [|exact I].
    specialize (IH c1). destruct (sm_run d labels r c1) as [c2 rest]. exact (Hk o rest IH).
Qed.

Lemma sm_items_source ops src l : In (SLink src l) (sm_items ops) -> In src (map op_label ops).
Proof.
  unfold sm_items. intros H. apply in_flat_map in H. destruct H as [o [Ho Hin]].
  destruct (links_of_raw (od_raw (o_def o))) as [ls|].
  - apply in_map_iff in Hin. destruct Hin as [l' [E _]]. inversion E; subst. apply in_map. exact Ho.
  - destruct Hin as [E|[]]. discriminate.
Qed.

(* so a link target that is not offered is dropped after it was looked up, cached or not *)
Lemma machine_step_false_sound d fs c c' ts t :
  machine_step false d fs c = (c', Some ts) -> In t ts ->
  In (t_source t) (map op_label (get_all_operations fs d)) /\ In (t_target t) (map op_label (get_all_operations fs d)).
Proof.
  unfold machine_step. rewrite traverse_false. intros H Ht.
  pose proof (sm_run_all (fun t => In (t_source t) (map op_label (get_all_operations fs d)) /\
                                   In (t_target t) (map op_label (get_all_operations fs d)))
                d (map op_label (get_all_operations fs d)) (sm_items (get_all_operations fs d))) as Hall.
  specialize (Hall (fun src l tgt Hin Htgt => conj (sm_items_source _ _ _ Hin) Htgt) c).
  destruct (sm_run d (map op_label (get_all_operations fs d)) (sm_items (get_all_operations fs d)) c) as [c2 [|ts0 [|]]];
    try discriminate H.
  injection H as _ ->. exact (proj1 (Forall_forall _ _) Hall t Ht).
Qed.

(* What an observation of the real code (reuse = false) has to be, whatever the cache holds; [stat_ok] stands for: the
   statistic cached in the state at the start, if there is one, was right. *)
Definition obs_sound (d : doc) (fs : filter_set) (stat_ok : Prop) (o : aobs) : Prop :=
  match o with
  | OLookup _ => True
  | OOffered l => l = offered_pairs (get_all_operations fs d)
  | OStatistic s => stat_ok -> s = stat_tuple (measure_statistic fs d)
  | OMachine r => forall ts src status name tgt, r = Some ts -> In (src, status, name, tgt) ts ->
      In src (map op_label (get_all_operations fs d)) /\ In tgt (map op_label (get_all_operations fs d))
  end.

Lemma obs_sound_weaken d fs (P Q : Prop) o : (Q -> P) -> obs_sound d fs P o -> obs_sound d fs Q o.
Proof. intros HQP Ho. destruct o; try exact Ho. (* OStatistic *) exact (fun H => Ho (HQP H)). Qed.

Lemma access_step_false_sound d fs st a st' o :
  access_step false d fs st a = (st', o) ->
  obs_sound d fs (astate_ok d fs st) o /\ (astate_ok d fs st -> astate_ok d fs st').
Proof.
  unfold astate_ok. intros H. destruct a as [i|r|p m| | | |]; cbn [access_step] in H.
  - (* AById *) injection H as <- <-. split; [exact I | exact (fun Hok => Hok)].
  - (* AByRef *) injection H as <- <-. split; [exact I | exact (fun Hok => Hok)].
  - (* AItem *) injection H as <- <-. split; [exact I | exact (fun Hok => Hok)].
  - (* ATraverse *) rewrite traverse_false in H. injection H as <- <-. split; [reflexivity | exact (fun Hok => Hok)].
  - (* AStat: the cached statistic if there is one, else a measurement that is then cached *)
    destruct (as_stat st) as [s|] eqn:Es; injection H as <- <-; cbn [obs_sound as_stat].
    + rewrite Es. split; [intros ->; reflexivity | exact (fun Hok => Hok)].
    + split; reflexivity.
  - (* AMeasure *) injection H as <- <-. split; [intros _; reflexivity | exact (fun Hok => Hok)].
  - (* AMachine *) destruct (machine_step false d fs (as_cache st)) as [c [ts0|]] eqn:Em; injection H as <- <-;
      (split; [|exact (fun Hok => Hok)]); intros ts src status name tgt [= <-] Ht.
    apply in_map_iff in Ht. destruct Ht as [t [[= <- _ _ <-] Ht]]. exact (machine_step_false_sound _ _ _ _ _ _ Em Ht).
Qed.

Lemma access_run_sound d fs h st o :
  In o (access_run false d fs h st) -> obs_sound d fs (astate_ok d fs st) o.
Proof.
  apply (access_run_invariant false d fs (fun _ => true) (fun st' => astate_ok d fs st -> astate_ok d fs st')).
  - intros st0 a st' o0 _ HI Hs. destruct (access_step_false_sound _ _ _ _ _ _ Hs) as [Ho Hok].
    split; [exact (fun H => Hok (HI H)) | exact (obs_sound_weaken _ _ _ _ _ HI Ho)].
  - apply forallb_forall. reflexivity.
  - exact (fun H => H).
Qed.

Lemma item_ids_of_ops p item : item_ids p item = map (fun io => (fst io, op_key (snd io))) (item_id_ops p item).
Proof.
  unfold item_ids, item_id_ops. induction item as [|[k od] r IH]; cbn [flat_map map fst snd]; [reflexivity|].
  rewrite map_app, <- IH. f_equal.
  destruct (is_http_method k); [|reflexivity].
  destruct (jget s_operationId (od_raw od)) as [[]|]; reflexivity.
Qed.

Lemma doc_ids_of_ops d : doc_ids d = map (fun io => (fst io, op_key (snd io))) (doc_id_ops d).
Proof.
  unfold doc_ids, doc_id_ops. induction d as [|[p item] r IH]; cbn [flat_map map fst snd]; [reflexivity|].
  rewrite map_app, <- IH, item_ids_of_ops. reflexivity.
Qed.

(* the lookups of the cache (which return operations) agree with the cache-free target resolution (which returns keys) *)
Lemma find_by_id_of_op d i : find_by_id d i = option_map op_key (find_op_by_id d i).
Proof. unfold find_by_id, find_op_by_id. rewrite doc_ids_of_ops, <- map_rev. apply assoc_get_map. Qed.

Lemma find_by_ref_of_op d r : find_by_ref d r = option_map op_key (find_op_by_ref d r).
Proof.
  unfold find_by_ref, find_op_by_ref. destruct (parse_ref r) as [[p m]|]; [|reflexivity].
  destruct (assoc_get p d) as [item|]; [|reflexivity]. destruct (assoc_get m item); reflexivity.
Qed.

Lemma key_eqb_eq a b : key_eqb a b = true -> a = b.
Proof.
  destruct a as [a1 a2], b as [b1 b2]. unfold key_eqb. cbn [fst snd]. intros H. apply andb_true_iff in H. destruct H as [H1 H2].
  apply str_eqb_spec in H1. apply str_eqb_spec in H2. subst. reflexivity.
Qed.

(* every entry of the cache is filed under the keys a fresh lookup would compute *)
Definition cache_ok (d : doc) (c : ocache) : Prop :=
  (forall k o, key_get k (oc_by_key c) = Some o -> op_key o = k) /\
  (forall i o, assoc_get i (oc_by_id c) = Some o -> find_by_id d i = Some (op_key o)) /\
  (forall r o, assoc_get r (oc_by_ref c) = Some o -> find_by_ref d r = Some (op_key o)).

Lemma cache_ok_empty d : cache_ok d oc_empty.
Proof. repeat split; intros ? ? H; discriminate. Qed.

Lemma oc_insert_ok d c o id ref :
  cache_ok d c ->
  (forall i, id = Some i -> find_by_id d i = Some (op_key o)) ->
  (forall r, ref = Some r -> find_by_ref d r = Some (op_key o)) ->
  cache_ok d (oc_insert o (op_key o) id ref c).
Proof.
  intros [Hk [Hi Hr]] Hid Href. unfold oc_insert. repeat split; cbn [oc_by_key oc_by_id oc_by_ref].
  - intros k o1 H1. cbn [key_get] in H1. destruct (key_eqb k (op_key o)) eqn:E; [|exact (Hk _ _ H1)].
    injection H1 as <-. symmetry. exact (key_eqb_eq _ _ E).
  - destruct id as [i|]; [|exact Hi]. intros j o1 H1. cbn [assoc_get] in H1.
    destruct (str_eqb j i) eqn:E; [|exact (Hi _ _ H1)].
    injection H1 as <-. apply str_eqb_spec in E. subst j. exact (Hid i eq_refl).
  - destruct ref as [r|]; [|exact Hr]. intros j o1 H1. cbn [assoc_get] in H1.
    destruct (str_eqb j r) eqn:E; [|exact (Hr _ _ H1)].
    injection H1 as <-. apply str_eqb_spec in E. subst j. exact (Href r eq_refl).
Qed.

Lemma cache_by_id_ok d c i c' res :
  cache_ok d c -> cache_by_id d c i = (c', res) -> cache_ok d c' /\ option_map op_key res = find_by_id d i.
Proof.
  intros Hok H. unfold cache_by_id in H.
  destruct (assoc_get i (oc_by_id c)) as [o|] eqn:Ei.
  { injection H as <- <-. split; [exact Hok|]. symmetry. exact (proj1 (proj2 Hok) _ _ Ei). }
  rewrite find_by_id_of_op. destruct (find_op_by_id d i) as [o|] eqn:Ef; [|injection H as <- <-; split; [exact Hok | reflexivity]].
  destruct (key_get (op_key o) (oc_by_key c)) as [o'|] eqn:Ek; injection H as <- <-.
  - split; [exact Hok|]. cbn. rewrite (proj1 Hok _ _ Ek). reflexivity.
  - split; [|reflexivity]. apply oc_insert_ok; [exact Hok | | discriminate].
    intros j [= <-]. rewrite find_by_id_of_op, Ef. reflexivity.
Qed.

Lemma cache_by_ref_ok d c r c' res :
  cache_ok d c -> cache_by_ref d c r = (c', res) -> cache_ok d c' /\ option_map op_key res = find_by_ref d r.
Proof.
  intros Hok H. unfold cache_by_ref in H.
  destruct (assoc_get r (oc_by_ref c)) as [o|] eqn:Ei.
  { injection H as <- <-. split; [exact Hok|]. symmetry. exact (proj2 (proj2 Hok) _ _ Ei). }
  rewrite find_by_ref_of_op. destruct (find_op_by_ref d r) as [o|] eqn:Ef; [|injection H as <- <-; split; [exact Hok | reflexivity]].
  destruct (key_get (op_key o) (oc_by_key c)) as [o'|] eqn:Ek; injection H as <- <-.
  - split; [exact Hok|]. cbn. rewrite (proj1 Hok _ _ Ek). reflexivity.
  - split; [|reflexivity]. apply oc_insert_ok; [exact Hok | discriminate |].
    intros j [= <-]. rewrite find_by_ref_of_op, Ef. reflexivity.
Qed.

Lemma cache_by_item_ok d c p m c' res :
  cache_ok d c -> item_access_consistent d p m = true -> cache_by_item d c p m = (c', res) -> cache_ok d c'.
Proof.
  intros Hok Hc H. unfold cache_by_item in H. unfold item_access_consistent in Hc.
  destruct (assoc_get p d) as [item|]; [|injection H as <- _; exact Hok]. cbv zeta in H.
  destruct (ci_find (lower_ascii m) item) as [od|]; [|injection H as <- _; exact Hok].
  destruct (key_get (p, lower_ascii m) (oc_by_key c)) as [o'|]; injection H as <- _; [exact Hok|].
  apply (oc_insert_ok d c {| o_path := p; o_method := lower_ascii m; o_def := od |}); [exact Hok | | discriminate].
  intros i Ei. rewrite Ei in Hc. destruct (find_by_id d i) as [k|]; [|discriminate].
  apply key_eqb_eq in Hc. subst k. reflexivity.
Qed.

(* one link whose target was looked up, in front of a result that is what [ot] followed by [T] gives: what
   op_transitions does with that link in front of [ot], followed by [T] *)
Lemma sm_keep_then labels src l o r (ot T : option (list transition)) :
  sm_final r = match ot, T with Some a, Some b => Some (a ++ b) | _, _ => None end ->
  sm_final (sm_keep labels src l o r) =
  match match ot with
        | Some rest =>
            if existsb (str_eqb (op_label o)) labels
            then Some ({| t_source := src; t_status := l_status l; t_name := l_name l; t_target := op_label o |} :: rest)
            else Some rest
        | None => None
        end, T with
  | Some a, Some b => Some (a ++ b)
  | _, _ => None
  end.
Proof.
  intros Hr. destruct r as [|ts e]; cbn [sm_keep sm_final] in Hr |- *.
  - (* aborted *) destruct ot, T, (existsb (str_eqb (op_label o)) labels); try discriminate Hr; reflexivity.
  - destruct (existsb (str_eqb (op_label o)) labels), e; cbn [sm_final] in Hr |- *; destruct ot, T; try discriminate Hr;
      try reflexivity; injection Hr as ->; reflexivity.
Qed.

(* On a cache that satisfies the invariant the run over the links of one operation, followed by items [rest] that
   yield [T], yields what op_transitions computes without a cache, followed by [T]. *)
Lemma sm_links_then d labels src rest T :
  (forall c, cache_ok d c ->
     cache_ok d (fst (sm_run d labels rest c)) /\ sm_final (snd (sm_run d labels rest c)) = T) ->
  forall ls c, cache_ok d c ->
    cache_ok d (fst (sm_run d labels (map (SLink src) ls ++ rest) c)) /\
    sm_final (snd (sm_run d labels (map (SLink src) ls ++ rest) c)) =
    match op_transitions d labels src ls, T with Some a, Some b => Some (a ++ b) | _, _ => None end.
Proof.
  intros Hrest. induction ls as [|l ls IH]; intros c Hok; cbn [map app].
  { destruct (Hrest c Hok) as [Hok' ->]. split; [exact Hok' | destruct T; reflexivity]. }
  cbn [sm_run op_transitions]. destruct (l_target l) as [i|ref|]; cbn [resolve_target].
  - (* TId: an id that is not found is an error, the run goes on *)
    destruct (cache_by_id d c i) as [c1 res] eqn:Ec. destruct (cache_by_id_ok _ _ _ _ _ Hok Ec) as [Hok1 <-].
    specialize (IH c1 Hok1). destruct (sm_run d labels (map (SLink src) ls ++ rest) c1) as [c2 r].
    cbn [fst snd] in IH |- *. destruct IH as [Hok2 Hr]. split; [exact Hok2|]. destruct res as [o|]; cbn [option_map].
    + exact (sm_keep_then labels src l o r _ T Hr).
    + destruct r as [|ts e]; reflexivity.
  - (* TRef: a reference that does not resolve aborts the run *)
    destruct (cache_by_ref d c ref) as [c1 res] eqn:Ec. destruct (cache_by_ref_ok _ _ _ _ _ Hok Ec) as [Hok1 <-].
    destruct res as [o|]; cbn [option_map]; [|split; [exact Hok1 | reflexivity]].
    specialize (IH c1 Hok1). destruct (sm_run d labels (map (SLink src) ls ++ rest) c1) as [c2 r].
    cbn [fst snd] in IH |- *. destruct IH as [Hok2 Hr]. split; [exact Hok2 | exact (sm_keep_then labels src l o r _ T Hr)].
  - (* TBad *) split; [exact Hok | reflexivity].
Qed.

Lemma sm_ops_spec d labels ops : forall c,
  cache_ok d c ->
  cache_ok d (fst (sm_run d labels (sm_items ops) c)) /\
  sm_final (snd (sm_run d labels (sm_items ops) c)) = transitions_of d labels ops.
Proof.
  induction ops as [|o ops IH]; intros c Hok; [split; [exact Hok | reflexivity]|].
  unfold sm_items. cbn [flat_map transitions_of]. fold (sm_items ops).
  destruct (links_of_raw (od_raw (o_def o))) as [ls|]; [|split; [exact Hok | reflexivity]].
  exact (sm_links_then d labels (op_label o) (sm_items ops) _ IH ls c Hok).
Qed.

Lemma machine_step_false_ok d fs c c' r :
  cache_ok d c -> machine_step false d fs c = (c', r) -> cache_ok d c' /\ r = collect_transitions fs d.
Proof.
  unfold machine_step, collect_transitions. rewrite traverse_false. intros Hok H.
  destruct (sm_ops_spec d (map op_label (get_all_operations fs d)) (get_all_operations fs d) c Hok) as [Hok2 Hr].
  destruct (sm_run d (map op_label (get_all_operations fs d)) (sm_items (get_all_operations fs d)) c) as [c2 r2].
  injection H as <- <-. split; [exact Hok2 | exact Hr].
Qed.

(* One step of the real code keeps the cache invariant, and under the invariant the state machine it builds is the one a
   fresh schema object builds. *)
Lemma access_step_stable d fs st a st' o :
  match a with AItem p m => item_access_consistent d p m | _ => true end = true ->
  cache_ok d (as_cache st) -> access_step false d fs st a = (st', o) ->
  cache_ok d (as_cache st') /\
  forall r, o = OMachine r -> r = option_map transition_tuples (collect_transitions fs d).
Proof.
  intros Ha Hok Hs. destruct a; cbn [access_step] in Hs.
  - (* AById *) destruct (cache_by_id d (as_cache st) id) as [c1 res] eqn:Ec. injection Hs as <- <-.
    split; [exact (proj1 (cache_by_id_ok _ _ _ _ _ Hok Ec)) | discriminate].
  - (* AByRef *) destruct (cache_by_ref d (as_cache st) ref) as [c1 res] eqn:Ec. injection Hs as <- <-.
    split; [exact (proj1 (cache_by_ref_ok _ _ _ _ _ Hok Ec)) | discriminate].
  - (* AItem *) destruct (cache_by_item d (as_cache st) path method) as [c1 res] eqn:Ec. injection Hs as <- <-.
    split; [exact (cache_by_item_ok _ _ _ _ _ _ Hok Ha Ec) | discriminate].
  - (* ATraverse *) rewrite traverse_false in Hs. injection Hs as <- <-. split; [exact Hok | discriminate].
  - (* AStat *) destruct (as_stat st); injection Hs as <- <-; (split; [exact Hok | discriminate]).
  - (* AMeasure *) injection Hs as <- <-. split; [exact Hok | discriminate].
  - (* AMachine *) destruct (machine_step false d fs (as_cache st)) as [c1 r1] eqn:Em. injection Hs as <- <-.
    destruct (machine_step_false_ok _ _ _ _ _ Hok Em) as [Hok1 ->]. split; [exact Hok1|]. intros r [= <-]. reflexivity.
Qed.

(* The witnesses.  w_doc_F* / w_calls_F* are the documents and calls of the C07 lines of known_findings.jsonl as the
   harness encodes them (the path item of F5 is w_item_F5); w_history / w_hist_doc serve the clone sentinel. *)
Definition w_s_a : str := [47;97]%N.
Definition w_s_b : str := [47;98]%N.
Definition w_s_get : str := [103;101;116]%N.
Definition w_s_getX : str := [103;101;116;88]%N.
Definition w_s_post : str := [112;111;115;116]%N.
Definition w_s_Post : str := [80;111;115;116]%N.
Definition w_s_delete : str := [100;101;108;101;116;101]%N.
Definition w_s_opA : str := [111;112;65]%N.

Definition w_same (j : json) : opdef := {| od_raw := j; od_resolved := j |}.
(* "responses": {"200": {"description": "ok"}}, with [links] beside the description *)
Definition w_response (links : list (str * json)) : str * json :=
  (s_responses, JObj [([50;48;48]%N, JObj (([100;101;115;99;114;105;112;116;105;111;110]%N, JStr [111;107]%N) :: links))]).
(* "links": {name: {key: value}} *)
Definition w_link (name key value : str) : list (str * json) := [(s_links, JObj [(name, JObj [(key, JStr value)])])].

(* F1: the parameter "id" of GET /a is behind a reference, that of GET /b is inline; the filter asks for
   /parameters/0/name == "id" *)
Definition w_param : json :=
  JObj [([110;97;109;101]%N, JStr [105;100]%N); ([105;110]%N, JStr [113;117;101;114;121]%N);
        ([115;99;104;101;109;97]%N, JObj [([116;121;112;101]%N, JStr [115;116;114;105;110;103]%N)])].
Definition w_with_param (p : json) : json := JObj [([112;97;114;97;109;101;116;101;114;115]%N, JArr [p]); w_response []].
Definition w_doc_F1 : doc :=
  [(w_s_a, [(w_s_get, {| od_raw := w_with_param (JObj [([36;114;101;102]%N, JStr [35;47;99;111;109;112;111;110;101;110;116;115;47;112;97;114;97;109;101;116;101;114;115;47;73;100]%N)]);
                         od_resolved := w_with_param w_param |})]);
   (w_s_b, [(w_s_get, w_same (w_with_param w_param))])].
Definition w_calls_F1 : list call :=
  [(CInclude {| a_func := Some (1%N, (expr_filter [47;112;97;114;97;109;101;116;101;114;115;47;48;47;110;97;109;101]%N true (JStr [105;100]%N))); a_name := {| aa_expected := (@None fvalue); aa_regex := (@None rx_arg) |}; a_method := {| aa_expected := (@None fvalue); aa_regex := (@None rx_arg) |}; a_path := {| aa_expected := (@None fvalue); aa_regex := (@None rx_arg) |}; a_tag := {| aa_expected := (@None fvalue); aa_regex := (@None rx_arg) |}; a_operation_id := {| aa_expected := (@None fvalue); aa_regex := (@None rx_arg) |} |})].
(* F2: POST /src links to operationId getX, which GET /a and GET /b both carry; /b is excluded *)
Definition w_doc_F2 : doc :=
  [([47;115;114;99]%N, [([112;111;115;116]%N, {| od_raw := (JObj [([111;112;101;114;97;116;105;111;110;73;100]%N, (JStr [109;107]%N)); ([114;101;115;112;111;110;115;101;115]%N, (JObj [([50;48;49]%N, (JObj [([100;101;115;99;114;105;112;116;105;111;110]%N, (JStr [99]%N)); ([108;105;110;107;115]%N, (JObj [([76]%N, (JObj [([111;112;101;114;97;116;105;111;110;73;100]%N, (JStr [103;101;116;88]%N))]))]))]))]))]); od_resolved := (JObj [([111;112;101;114;97;116;105;111;110;73;100]%N, (JStr [109;107]%N)); ([114;101;115;112;111;110;115;101;115]%N, (JObj [([50;48;49]%N, (JObj [([100;101;115;99;114;105;112;116;105;111;110]%N, (JStr [99]%N)); ([108;105;110;107;115]%N, (JObj [([76]%N, (JObj [([111;112;101;114;97;116;105;111;110;73;100]%N, (JStr [103;101;116;88]%N))]))]))]))]))]) |})]); ([47;97]%N, [([103;101;116]%N, {| od_raw := (JObj [([111;112;101;114;97;116;105;111;110;73;100]%N, (JStr [103;101;116;88]%N)); ([114;101;115;112;111;110;115;101;115]%N, (JObj [([50;48;48]%N, (JObj [([100;101;115;99;114;105;112;116;105;111;110]%N, (JStr [111;107]%N))]))]))]); od_resolved := (JObj [([111;112;101;114;97;116;105;111;110;73;100]%N, (JStr [103;101;116;88]%N)); ([114;101;115;112;111;110;115;101;115]%N, (JObj [([50;48;48]%N, (JObj [([100;101;115;99;114;105;112;116;105;111;110]%N, (JStr [111;107]%N))]))]))]) |})]); ([47;98]%N, [([103;101;116]%N, {| od_raw := (JObj [([111;112;101;114;97;116;105;111;110;73;100]%N, (JStr [103;101;116;88]%N)); ([114;101;115;112;111;110;115;101;115]%N, (JObj [([50;48;48]%N, (JObj [([100;101;115;99;114;105;112;116;105;111;110]%N, (JStr [111;107]%N))]))]))]); od_resolved := (JObj [([111;112;101;114;97;116;105;111;110;73;100]%N, (JStr [103;101;116;88]%N)); ([114;101;115;112;111;110;115;101;115]%N, (JObj [([50;48;48]%N, (JObj [([100;101;115;99;114;105;112;116;105;111;110]%N, (JStr [111;107]%N))]))]))]) |})])].
Definition w_calls_F2 : list call :=
  [(CExclude {| a_func := None; a_name := {| aa_expected := (@None fvalue); aa_regex := (@None rx_arg) |}; a_method := {| aa_expected := (@None fvalue); aa_regex := (@None rx_arg) |}; a_path := {| aa_expected := (Some (FStr [47;98]%N)); aa_regex := (@None rx_arg) |}; a_tag := {| aa_expected := (@None fvalue); aa_regex := (@None rx_arg) |}; a_operation_id := {| aa_expected := (@None fvalue); aa_regex := (@None rx_arg) |} |} false)].
(* F3: the fixture excludes DELETE *)
Definition w_doc_F3 : doc := [(w_s_a, [(w_s_get, w_same (JObj [w_response []])); (w_s_delete, w_same (JObj [w_response []]))])].
Definition w_fixture_calls_F3 : list call := [CExclude (arg_value AMethod [68;69;76;69;84;69]%N) false].
(* F4: a link by operationRef to the key Post, next to post *)
Definition w_doc_F4 : doc :=
  [(w_s_b, [(w_s_post, w_same (JObj [w_response (w_link [78]%N s_operationRef (s_paths_prefix ++ [126;49;98;47]%N ++ w_s_Post))]));
            (w_s_Post, w_same (JObj [w_response []]))])].
(* F5: two keys equal up to case *)
Definition w_item_F5 : path_item := [(w_s_post, w_same JNull); (w_s_Post, w_same JNull)].
(* F6: PUT /a links to operationId opA, which the key Post of /a and DELETE /b carry *)
Definition w_doc_F6 : doc :=
  [(w_s_a, [([112;117;116]%N, w_same (JObj [w_response (w_link [76]%N s_operationId w_s_opA)]));
            (w_s_Post, w_same (JObj [(s_operationId, JStr w_s_opA); w_response []]))]);
   (w_s_b, [(w_s_delete, w_same (JObj [(s_operationId, JStr w_s_opA); w_response []]))])].
(* a history in which a child is derived from a schema that already has a filter and a cached statistic *)
Definition w_history : list event :=
  [EDerive 0 (CInclude (arg_value ATag [116;49]%N)); EStat 1; EDerive 1 (CInclude (arg_value ATag [116;50]%N))].
Definition w_hist_doc : doc :=
  let od (t : str) := w_same (JObj [(s_tags, JArr [JStr t])]) in
  [(w_s_a, [(w_s_get, od [116;49]%N)]); (w_s_b, [(w_s_get, od [116;50]%N)])].

Definition fs_of (cs : list call) : filter_set :=
  match apply_calls cs fs_empty 0 with inl fs => fs | inr _ => fs_empty end.

(* non-vacuity of the partial theorem on the statistic: a filter set that does look at parameters, on a document
   without references *)
Example statistic_partial_nonvacuous :
  exists d, resolution_independent (fs_of w_calls_F1) d = true /\ no_references d = true /\
            st_ops_selected (measure_statistic (fs_of w_calls_F1) d) = 1 /\ st_ops_total (measure_statistic (fs_of w_calls_F1) d) = 2.
Proof. exists (skipn 1 w_doc_F1 ++ firstn 1 w_doc_F2). vm_compute. repeat split. Qed.

(* non-vacuity of the partial theorem on links: the first two path items of F2 (one link, by operationId, to GET /a)
   under exclude(path=/b) *)
Example links_partial_nonvacuous :
  exists d fs ts,
    resolution_independent fs d = true /\ unique_operation_ids d = true /\ unique_labels d = true /\
    refs_name_methods d = true /\ collect_transitions fs d = Some ts /\ length ts = 1 /\
    st_links_total (measure_statistic fs d) = 1 /\ st_ops_selected (measure_statistic fs d) = 2.
Proof. exists (firstn 2 w_doc_F2), (fs_of w_calls_F2). eexists. vm_compute. repeat split. Qed.

(* non-vacuity: a history with lookups of the excluded operation, two traversals, a cached and a fresh statistic and two
   state machines, on the document of F2 under exclude(path=/b) *)
Example access_history_nonvacuous :
  let fs := fs_of w_calls_F2 in
  let h := [ATraverse; AItem [47;115;114;99]%N [80;79;83;84]%N; AById w_s_getX; AStat; AMachine; AByRef (s_paths_prefix ++ [126;49;98;47]%N ++ w_s_get); ATraverse; AMachine; AStat; AMeasure] in
  item_accesses_consistent w_doc_F2 h = true /\ no_item_access h = false /\ resolution_independent fs w_doc_F2 = true /\
  access_run false w_doc_F2 fs h astate_init =
  [OOffered [([47;115;114;99]%N, [112;111;115;116]%N); (w_s_a, w_s_get)]; OLookup (Some ([47;115;114;99]%N, [112;111;115;116]%N));
   OLookup (Some (w_s_b, w_s_get)); OStatistic (3, 2, 1, 1);
   OMachine (Some []); OLookup (Some (w_s_b, w_s_get)); OOffered [([47;115;114;99]%N, [112;111;115;116]%N); (w_s_a, w_s_get)];
   OMachine (Some []); OStatistic (3, 2, 1, 1); OStatistic (3, 2, 1, 1)].
Proof. vm_compute. repeat split. Qed.
