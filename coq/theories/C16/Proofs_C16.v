(* Lemmas behind the C16 theorems, in the order of the parts of Model_C16.
   Part 1: the YAML scalar writers against the PyYAML decoders (hex digits, the fixed escape tables, one image per
   character; the index loop of write_double_quoted against its per-character form).
   Part 2: the JUnit handler; with failures[label] it crashes exactly outside the region (invariant junit_inv), with
   failures.get it never does and keeps every failure element.
   Part 3: the cassette writer loop over a variable [raises]; no_entry_raises is the one hypothesis of completeness,
   which HAR and VCR instantiate.
   Part 4: entries as functions of one interaction.  Part 5: the lifecycle of the writer thread (one invariant, linv,
   and exit_complete).  Part 6: the same handlers over whole ScenarioFinished events, by projection to the reduced
   events of Parts 2 and 3.  The witnesses of a part stand with its lemmas. *)
From Coq Require Import List NArith Bool Lia ZifyBool Arith.
From Verif Require Import Common.Str Common.Lists C16.Model_C16.
Import ListNotations.
Open Scope N_scope.

Lemma flat_map_nil {A B} (l : list A) : flat_map (fun _ => @nil B) l = [].
Proof. induction l as [|a l IH]; [reflexivity | exact IH]. Qed.

Lemma forallb_impl {A} (p q : A -> bool) l :
  (forall x, p x = true -> q x = true) -> forallb p l = true -> forallb q l = true.
Proof. intros H Hp. rewrite forallb_forall in *. auto. Qed.

Lemma unhex_hexd d : d < 16 -> unhex (hexd d) = Some d.
Proof.
  intros H. unfold unhex, hexd.
  destruct (d <? 10) eqn:E.
  - replace ((48 <=? 48 + d) && (48 + d <=? 57)) with true by lia. f_equal; lia.
  - replace ((48 <=? 55 + d) && (55 + d <=? 57)) with false by lia.
    replace ((65 <=? 55 + d) && (55 + d <=? 70)) with true by lia. f_equal; lia.
Qed.

Lemma unhex_hexd_l d : d < 16 -> unhex (hexd_l d) = Some d.
Proof.
  intros H. unfold unhex, hexd_l.
  destruct (d <? 10) eqn:E.
  - replace ((48 <=? 48 + d) && (48 + d <=? 57)) with true by lia. f_equal; lia.
  - replace ((48 <=? 87 + d) && (87 + d <=? 57)) with false by lia.
    replace ((65 <=? 87 + d) && (87 + d <=? 70)) with false by lia.
    replace ((97 <=? 87 + d) && (87 + d <=? 102)) with true by lia. f_equal; lia.
Qed.

Lemma mod16 v : v mod 16 < 16.
Proof. apply N.mod_lt; discriminate. Qed.

(* Horner step: the digits above weight m have been read as c / m' with m' = 16 m; the digit at weight m makes
   it c / m.  The digit strings below are folded with it from the left, starting from 0 = c / 16^n.  (m' is a
   parameter because rewrite does not see 16 * 4096 in 65536.) *)
Lemma hex_shift c m m' : m' = m * 16 -> m <> 0 -> 16 * (c / m') + c / m mod 16 = c / m.
Proof.
  intros -> Hm. rewrite <- N.div_div by (exact Hm || discriminate).
  symmetry. apply N.div_mod'.
Qed.

Lemma hexval_hex2 c : c < 256 -> hexval (hex2 c) = Some c.
Proof.
  intros H. unfold hexval, hex2. cbn [hexval_aux].
  rewrite !unhex_hexd by apply mod16. f_equal.
  replace 0 with (c / 256) by (apply N.div_small, H).
  rewrite (hex_shift c 16 256) by (reflexivity || discriminate). symmetry. apply N.div_mod'.
Qed.

Lemma digits4 c : c < 65536 ->
  16 * (16 * (16 * (16 * 0 + c / 4096 mod 16) + c / 256 mod 16) + c / 16 mod 16) + c mod 16 = c.
Proof.
  intros H. replace 0 with (c / 65536) by (apply N.div_small, H).
  rewrite (hex_shift c 4096 65536), (hex_shift c 256 4096), (hex_shift c 16 256) by (reflexivity || discriminate).
  symmetry. apply N.div_mod'.
Qed.

Lemma hexval_hex4 c : c < 65536 -> hexval (hex4 c) = Some c.
Proof.
  intros H. unfold hexval, hex4. cbn [hexval_aux].
  rewrite !unhex_hexd by apply mod16. f_equal. apply digits4, H.
Qed.

Lemma hexval_hex4_l c : c < 65536 -> hexval (hex4_l c) = Some c.
Proof.
  intros H. unfold hexval, hex4_l. cbn [hexval_aux].
  rewrite !unhex_hexd_l by apply mod16. f_equal. apply digits4, H.
Qed.

Lemma hexval_hex8 c : c < 4294967296 -> hexval (hex8 c) = Some c.
Proof.
  intros H. unfold hexval, hex8. cbn [hexval_aux].
  rewrite !unhex_hexd by apply mod16. f_equal.
  replace 0 with (c / 4294967296) by (apply N.div_small, H).
  rewrite (hex_shift c 268435456 4294967296), (hex_shift c 16777216 268435456), (hex_shift c 1048576 16777216),
    (hex_shift c 65536 1048576), (hex_shift c 4096 65536), (hex_shift c 256 4096), (hex_shift c 16 256) by (reflexivity || discriminate).
  symmetry. apply N.div_mod'.
Qed.

Lemma dq_body_lit strict c rest : dq_lit c = true ->
  dq_body strict (c :: rest) = option_map (cons c) (dq_body strict rest).
Proof.
  intros H0. pose proof H0 as H. unfold dq_lit in H.
  apply andb_true_iff in H; destruct H as [H Hb]. apply andb_true_iff in H; destruct H as [H Hq].
  apply negb_true_iff in Hb, Hq.
  cbn [dq_body]. rewrite Hq, Hb, H0. reflexivity.
Qed.

Lemma dq_body_tab strict e v rest : assoc e scan_tab = Some v ->
  dq_body strict (BS :: e :: rest) = option_map (cons v) (dq_body strict rest).
Proof.
  intros H. cbn [dq_body]. change (BS =? DQ) with false. change (BS =? BS) with true. cbv iota.
  rewrite H. reflexivity.
Qed.

Lemma dq_body_x strict h1 h2 rest :
  dq_body strict (BS :: 120 :: h1 :: h2 :: rest) = code strict [h1; h2] (dq_body strict rest).
Proof. reflexivity. Qed.
Lemma dq_body_u strict h1 h2 h3 h4 rest :
  dq_body strict (BS :: 117 :: h1 :: h2 :: h3 :: h4 :: rest) = code strict [h1; h2; h3; h4] (dq_body strict rest).
Proof. reflexivity. Qed.
Lemma dq_body_U strict h1 h2 h3 h4 h5 h6 h7 h8 rest :
  dq_body strict (BS :: 85 :: h1 :: h2 :: h3 :: h4 :: h5 :: h6 :: h7 :: h8 :: rest)
  = code strict [h1; h2; h3; h4; h5; h6; h7; h8] (dq_body strict rest).
Proof. reflexivity. Qed.

Lemma code_hexval strict hs v k : hexval hs = Some v -> code_ok strict v = true ->
  code strict hs k = option_map (cons v) k.
Proof. intros Hv Hok. unfold code. rewrite Hv, Hok. reflexivity. Qed.

Lemma table_rows (P : N -> N -> Prop) t : Forall (fun kv => P (fst kv) (snd kv)) t ->
  forall k v, assoc k t = Some v -> P k v.
Proof.
  intros F k v H. induction F as [|[a b] t Hab _ IH]; [discriminate|].
  cbn [assoc] in H. destruct (N.eqb_spec k a) as [->|_]; [injection H as <-; exact Hab | exact (IH H)].
Qed.

Lemma emit_scan_inverse c r : assoc c emit_tab = Some r -> assoc r scan_tab = Some c.
Proof. revert c r. apply table_rows. repeat constructor. Qed.

Lemma json_scan_inverse c r : assoc c json_tab = Some r -> assoc r scan_tab = Some c.
Proof. revert c r. apply table_rows. repeat constructor. Qed.

(* cassettes.py:329-333 read backwards: a character is copied as it is when it lies in one of the three raw ranges
   and is none of the six special characters *)
Lemma raw_char_ranges c : needs_escape c = false ->
  ((0x20 <=? c) && (c <=? 0x7E)) || ((0xA0 <=? c) && (c <=? 0xD7FF)) || ((0xE000 <=? c) && (c <=? 0xFFFD)) = true
  /\ mem c [34; 92; 0x85; 0x2028; 0x2029; 0xFEFF] = false.
Proof.
  unfold needs_escape. intros H. apply orb_false_iff in H. destruct H as [Hspecial Hrange].
  apply negb_false_iff in Hrange. exact (conj Hrange Hspecial).
Qed.

Lemma not_escaped_is_lit c : needs_escape c = false -> dq_lit c = true.
Proof.
  intros H. apply raw_char_ranges in H. unfold mem in H; cbn [existsb] in H.
  unfold dq_lit, printable, is_break, mem, DQ, BS; cbn [existsb]. lia.
Qed.

Lemma dq_body_char strict c rest : code_ok strict c = true ->
  dq_body strict (wdq_char c ++ rest) = option_map (cons c) (dq_body strict rest).
Proof.
  intros Hok. unfold wdq_char.
  destruct (needs_escape c) eqn:En.
  2:{ apply dq_body_lit, not_escaped_is_lit, En. }
  unfold escape. destruct (assoc c emit_tab) as [r|] eqn:Et.
  - apply dq_body_tab, emit_scan_inverse, Et.
  - destruct (c <=? 0xFF) eqn:E1; [|destruct (c <=? 0xFFFF) eqn:E2]; unfold hex2, hex4, hex8; cbn [app].
    + rewrite dq_body_x. apply code_hexval; [apply hexval_hex2; lia | exact Hok].
    + rewrite dq_body_u. apply code_hexval; [apply hexval_hex4; lia | exact Hok].
    + rewrite dq_body_U. apply code_hexval; [apply hexval_hex8 | exact Hok].
      unfold code_ok, is_cp in Hok. lia.
Qed.

(* both writers put the image of each character between two double quotes: what the decoder makes of the
   whole follows from what it makes of one image in front of any rest *)
Lemma dq_body_flat_map strict (f : N -> str) (ok : N -> bool) :
  (forall c rest, ok c = true -> dq_body strict (f c ++ rest) = option_map (cons c) (dq_body strict rest)) ->
  forall s, forallb ok s = true -> dq_body strict (flat_map f s ++ [DQ]) = Some s.
Proof.
  intros Hf. induction s as [|c s IH]; intros H; [reflexivity|].
  cbn [forallb] in H. apply andb_true_iff in H. destruct H as [Hc Hs].
  cbn [flat_map]. rewrite <- app_assoc, Hf, IH by assumption. reflexivity.
Qed.

Lemma dq_roundtrip_gen strict s : forallb (code_ok strict) s = true ->
  yaml_dq_decode_gen strict (write_double_quoted s) = Some s.
Proof. apply (dq_body_flat_map strict wdq_char), dq_body_char. Qed.

Lemma code_ok_all strict s : is_unicode s = true -> (strict = true -> no_surrogates s = true) ->
  forallb (code_ok strict) s = true.
Proof.
  unfold is_unicode, no_surrogates, code_ok. intros H1 H2. apply forallb_forall. intros c Hin.
  rewrite (proj1 (forallb_forall _ _) H1 c Hin). destruct strict; [|reflexivity].
  exact (proj1 (forallb_forall _ _) (H2 eq_refl) c Hin).
Qed.

(* non-vacuity: control characters with and without a letter escape, the two quotes and the backslash, both ends of
   the three raw ranges and their neighbours, the special NEL / LS / PS / BOM, lone surrogates, astral code points.
   93 = the two delimiters + 7 characters copied + 10 letter escapes of 2 + one x escape of 4 + five u escapes of 6
   + three U escapes of 10 *)
Definition nasty : str := [0; 9; 10; 13; 27; 32; 34; 39; 92; 0x7F; 0x85; 0xA0; 0xE9; 0x2028; 0x2029; 0xD7FF; 0xD800; 0xDFFF; 0xE000; 0xFEFF; 0xFFFD; 0xFFFE; 0xFFFF; 0x10000; 0x1F600; 0x10FFFF].
Example nasty_roundtrip : is_unicode nasty = true /\ yaml_dq_decode (write_double_quoted nasty) = Some nasty
  /\ length (write_double_quoted nasty) = 93%nat.
Proof. vm_compute. repeat split. Qed.

Lemma hexd_safe d : d < 16 -> line_safe (hexd d) = true.
Proof. intros H. assert (48 <= hexd d <= 70) by (unfold hexd; destruct (d <? 10) eqn:E; lia). unfold line_safe. lia. Qed.

Lemma emit_tab_safe c r : assoc c emit_tab = Some r -> line_safe r = true.
Proof. revert c r. apply table_rows. repeat constructor. Qed.

Lemma wdq_char_safe c : forallb line_safe (wdq_char c) = true.
Proof.
  unfold wdq_char. destruct (needs_escape c) eqn:En.
  - unfold escape. destruct (assoc c emit_tab) as [r|] eqn:Et.
    + cbn [forallb]. rewrite (emit_tab_safe c r Et). reflexivity.
    + destruct (c <=? 0xFF); [|destruct (c <=? 0xFFFF)];
        unfold hex2, hex4, hex8; cbn [forallb]; rewrite !hexd_safe by apply mod16; reflexivity.
  - cbn [forallb]. rewrite andb_true_r.
    apply raw_char_ranges in En. unfold mem in En; cbn [existsb] in En. unfold line_safe. lia.
Qed.

Lemma wdq_chars_safe s : forallb line_safe (flat_map wdq_char s) = true.
Proof.
  induction s as [|c s IH]; [reflexivity|].
  cbn [flat_map]. rewrite forallb_app, wdq_char_safe, IH. reflexivity.
Qed.

Lemma nth_error_skipn_add {A} (l : list A) : forall s n, nth_error (skipn s l) n = nth_error l (s + n).
Proof.
  induction l as [|x l IH]; intros s n.
  - rewrite skipn_nil. destruct n, s; reflexivity.
  - destruct s; [reflexivity|]. cbn [skipn Nat.add nth_error]. apply IH.
Qed.

Lemma firstn_S_nth {A} (l : list A) : forall n c, nth_error l n = Some c -> firstn (S n) l = firstn n l ++ [c].
Proof.
  induction l as [|x l IH]; intros n c H.
  - destruct n; discriminate.
  - destruct n.
    + cbn in H. injection H as ->. reflexivity.
    + cbn [nth_error] in H. change (x :: firstn (S n) l = (x :: firstn n l) ++ [c]). rewrite (IH n c H). reflexivity.
Qed.

Lemma skipn_nth {A} (l : list A) : forall n c, nth_error l n = Some c -> skipn n l = c :: skipn (S n) l.
Proof.
  induction l as [|x l IH]; intros n c H.
  - destruct n; discriminate.
  - destruct n.
    + cbn in H. injection H as ->. reflexivity.
    + cbn [nth_error] in H. cbn [skipn]. apply IH, H.
Qed.

Lemma slice_snoc text s e c : (s <= e)%nat -> nth_error text e = Some c ->
  slice text s (S e) = slice text s e ++ [c].
Proof.
  intros Hle Hn. unfold slice. replace (S e - s)%nat with (S (e - s)) by lia.
  apply firstn_S_nth. rewrite nth_error_skipn_add. replace (s + (e - s))%nat with e by lia. exact Hn.
Qed.

Lemma slice_empty text s : slice text s s = [].
Proof. unfold slice. rewrite Nat.sub_diag. reflexivity. Qed.

(* flushing the pending run text[start:end] appends it, also when it is empty and nothing is written *)
Lemma flush_run text start end_ out : (start <= end_)%nat ->
  (if Nat.ltb start end_ then out ++ slice text start end_ else out) = out ++ slice text start end_.
Proof.
  intros Hse. destruct (Nat.ltb start end_) eqn:El; [reflexivity|].
  apply Nat.ltb_ge in El. replace start with end_ by lia. rewrite slice_empty, app_nil_r. reflexivity.
Qed.

Lemma wdq_loop_past_end text fuel start out : wdq_loop text fuel start (S (length text)) out = out.
Proof.
  destruct fuel; [reflexivity|]. cbn [wdq_loop].
  replace (Nat.leb (S (length text)) (length text)) with false by (symmetry; apply Nat.leb_gt; lia). reflexivity.
Qed.

(* the invariant of the loop: text[start:end] is a run not yet written *)
Lemma wdq_loop_spec text : forall fuel start end_ out,
  (start <= end_)%nat -> (end_ <= length text)%nat ->
  (length text + 2 <= fuel + end_)%nat ->
  wdq_loop text fuel start end_ out = out ++ slice text start end_ ++ flat_map wdq_char (skipn end_ text).
Proof.
  induction fuel as [|fuel IH]; intros start end_ out Hse Hel Hfuel; [lia|].
  cbn [wdq_loop]. replace (Nat.leb end_ (length text)) with true by (symmetry; apply Nat.leb_le; exact Hel).
  destruct (nth_error text end_) as [c|] eqn:En.
  - assert (Hlt : (end_ < length text)%nat) by (apply nth_error_Some; rewrite En; discriminate).
    rewrite (skipn_nth text end_ c En). cbn [flat_map].
    destruct (needs_escape c) eqn:Ee.
    + (* a character to escape: the run is flushed, the escape written, a new run starts behind it *)
      rewrite (flush_run text start end_ out Hse). rewrite IH; [ | reflexivity | exact Hlt | rewrite (Nat.add_succ_r fuel); exact Hfuel].
      rewrite slice_empty. unfold wdq_char. rewrite Ee. cbn [app]. rewrite <- !app_assoc. reflexivity.
    + (* a raw character extends the run *)
      rewrite IH; [ | apply Nat.le_le_succ_r, Hse | exact Hlt | rewrite (Nat.add_succ_r fuel); exact Hfuel].
      rewrite (slice_snoc text start end_ c Hse En). unfold wdq_char. rewrite Ee. rewrite <- !app_assoc. reflexivity.
  - (* the end of the text: the run is flushed and the next iteration leaves the loop *)
    apply nth_error_None in En. assert (end_ = length text) by lia. subst end_.
    rewrite skipn_all. cbn [flat_map]. rewrite app_nil_r.
    rewrite <- (flush_run text start (length text) out Hse).
    destruct (Nat.ltb start (length text)); apply wdq_loop_past_end.
Qed.

(* decoding strictly shortens: the closing quote is consumed, a doubled quote gives one.  sq_body skips two
   characters on a doubled quote, hence the induction on the length *)
Lemma sq_body_len l : forall r, sq_body l = Some r -> (length r < length l)%nat.
Proof.
  induction l as [l IH] using (well_founded_induction (Wf_nat.well_founded_ltof _ (@length N))).
  unfold ltof in IH. intros r H. destruct l as [|c rest]; [discriminate|].
  cbn [sq_body] in H. destruct (c =? SQ).
  - destruct rest as [|d rest'].
    + injection H as <-. cbn. lia.
    + destruct (d =? SQ); [|discriminate].
      destruct (sq_body rest') as [r'|] eqn:E; [|discriminate].
      injection H as <-. apply IH in E; cbn in *; lia.
  - destruct (sq_lit c); [|discriminate].
    destruct (sq_body rest) as [r'|] eqn:E; [|discriminate].
    injection H as <-. apply IH in E; cbn in *; lia.
Qed.

Lemma sq_lit_not_quote c : sq_lit c = true -> (c =? SQ) = false.
Proof. unfold sq_lit. intros H. apply andb_true_iff in H. destruct H as [_ H]. apply negb_true_iff in H. exact H. Qed.

Lemma sq_body_free s : sq_free s = true -> sq_body (s ++ [SQ]) = Some s.
Proof.
  induction s as [|c s IH]; intros H; [reflexivity|].
  cbn [sq_free forallb] in H. apply andb_true_iff in H; destruct H as [Hc Hs].
  cbn [app sq_body]. rewrite (sq_lit_not_quote c Hc), Hc. fold (sq_free s) in Hs. rewrite IH by exact Hs. reflexivity.
Qed.

Lemma sq_body_only_free s : sq_body (s ++ [SQ]) = Some s -> sq_free s = true.
Proof.
  induction s as [|c s IH]; intros H; [reflexivity|].
  cbn [app sq_body] in H. destruct (c =? SQ) eqn:Eq.
  - (* a quote inside s is read as the end of the scalar or as half of a doubled quote: the result is shorter than s *)
    exfalso. destruct s as [|d s'].
    + cbn [app] in H. change (SQ =? SQ) with true in H. cbn in H. discriminate.
    + cbn [app] in H. destruct (d =? SQ); [|discriminate].
      destruct (sq_body (s' ++ [SQ])) as [r|] eqn:E; [|discriminate].
      apply sq_body_len in E. injection H as Hc Hr. subst r. rewrite app_length in E. cbn in E. lia.
  - destruct (sq_lit c) eqn:El; [|discriminate].
    destruct (sq_body (s ++ [SQ])) as [r|] eqn:E; [|discriminate].
    injection H as ->. cbn [sq_free forallb]. rewrite El. apply IH. reflexivity.
Qed.

(* http://h/users(QUOTE1QUOTE) : an OData style path template *)
Definition url_with_quote : str :=
  [104;116;116;112;58;47;47;104;47;117;115;101;114;115;40;39;49;39;41].
Lemma sq_refuted : is_unicode url_with_quote = true /\ forallb line_safe url_with_quote = true
  /\ yaml_sq_decode (emit_sq url_with_quote) = None.
Proof. vm_compute. repeat split. Qed.
(* and a doubled quote silently decodes to a different string *)
Lemma sq_refuted_silent : yaml_sq_decode (emit_sq [97; 39; 39; 98]) = Some [97; 39; 98].
Proof. vm_compute; reflexivity. Qed.
Example sq_nonvacuous : sq_free [104;116;116;112;58;47;47;104;47;63;113;61;34;92;37;50;55] = true.
Proof. vm_compute; reflexivity. Qed.

(* the sites that double the quote (since commit 059139b3): uri, command, encoding *)
Lemma sq_lit_one_line c : sq_lit c = one_line_char c && negb (c =? SQ).
Proof. reflexivity. Qed.

Lemma sq_body_escaped s : sq_body (escape_sq s ++ [SQ]) = if one_line s then Some s else None.
Proof.
  unfold escape_sq, replace_char. induction s as [|c s IH]; [reflexivity|].
  cbn [flat_map one_line forallb]. destruct (N.eqb c SQ) eqn:Ec.
  - apply N.eqb_eq in Ec. subst c. cbn [app sq_body]. change (SQ =? SQ) with true. cbv iota.
    rewrite IH. change (one_line_char SQ) with true. cbn [andb]. fold (one_line s). destruct (one_line s); reflexivity.
  - cbn [app sq_body]. change (c =? SQ) with (N.eqb c SQ). rewrite Ec.
    rewrite sq_lit_one_line, Ec, andb_true_r, IH. fold (one_line s). destruct (one_line_char c), (one_line s); reflexivity.
Qed.

Lemma sq_escaped_decode s : yaml_sq_decode (emit_sq_escaped s) = if one_line s then Some s else None.
Proof. apply sq_body_escaped. Qed.

Lemma dq_raw_body s : dq_raw_free s = true -> dq_body false (s ++ [DQ]) = Some s.
Proof.
  induction s as [|c s IH]; intros H; [reflexivity|].
  cbn [dq_raw_free forallb] in H. apply andb_true_iff in H; destruct H as [Hc Hs].
  cbn [app]. rewrite dq_body_lit by exact Hc. fold (dq_raw_free s) in Hs. rewrite IH by exact Hs. reflexivity.
Qed.
(* X-A then a double quote then x: not a scalar.  A backslash then n: a different name *)
Lemma dq_raw_refuted : yaml_dq_decode (emit_dq_raw [88;45;65;34;120]) = None
  /\ yaml_dq_decode (emit_dq_raw [92; 110]) = Some [10].
Proof. split; vm_compute; reflexivity. Qed.

Lemma json_char_body c rest : (c <? 0x10000) = true ->
  dq_body false (json_char c ++ rest) = option_map (cons c) (dq_body false rest).
Proof.
  intros Hc. unfold json_char. destruct (assoc c json_tab) as [r|] eqn:Et.
  - apply dq_body_tab, json_scan_inverse, Et.
  - destruct ((0x20 <=? c) && (c <=? 0x7E)) eqn:E1.
    + apply dq_body_lit.
      unfold json_tab in Et; cbn [assoc] in Et.
      destruct (c =? 34) eqn:E34; [discriminate|]. destruct (c =? 92) eqn:E92; [discriminate|].
      unfold dq_lit, printable, is_break, mem, DQ, BS; cbn [existsb]. lia.
    + rewrite Hc. unfold hex4_l. cbn [app]. rewrite dq_body_u.
      apply code_hexval; [apply hexval_hex4_l; lia | unfold code_ok, is_cp; cbn [andb]; lia].
Qed.

(* an astral character comes back as two lone surrogates (PyYAML) or not at all (libyaml) *)
Lemma json_refuted : yaml_dq_decode (json_dumps [0x1F600]) = Some [0xD83D; 0xDE00]
  /\ yaml_dq_decode_strict (json_dumps [0x1F600]) = None.
Proof. split; vm_compute; reflexivity. Qed.
Example json_nonvacuous : is_bmp [0; 9; 34; 92; 0x7F; 0x85; 0xE9; 0xFF; 0x2028; 0xFEFF] = true
  /\ yaml_dq_decode (json_dumps [0; 9; 34; 92; 0x7F; 0x85; 0xE9; 0xFF; 0x2028; 0xFEFF]) = Some [0; 9; 34; 92; 0x7F; 0x85; 0xE9; 0xFF; 0x2028; 0xFEFF].
Proof. split; vm_compute; reflexivity. Qed.

Lemma mem_app c a b : mem c (a ++ b) = mem c a || mem c b.
Proof. unfold mem. apply existsb_app. Qed.

Lemma dget_dset {A} k k' (v : A) d : dget k' (dset k v d) = if N.eqb k' k then Some v else dget k' d.
Proof.
  induction d as [|[a w] d IH]; cbn [dset dget]; [reflexivity|].
  destruct (N.eqb k a) eqn:E; cbn [dget].
  - apply N.eqb_eq in E; subst a. destruct (N.eqb k' k); reflexivity.
  - rewrite IH. destruct (N.eqb_spec k' k) as [->|_]; [rewrite E|]; reflexivity.
Qed.

Definition is_nil {A} (l : list A) : bool := match l with [] => true | _ => false end.

Lemma is_nil_dset {A} k (v : A) d : is_nil (dset k v d) = false.
Proof. destruct d as [|[a w] d]; cbn [dset]; [|destruct (N.eqb k a)]; reflexivity. Qed.

(* has_fresh and failed_keys of the model take a recorder; scan_checks and scan_cases recurse on the checks of one
   case and on a list of cases, so the same notions are needed on those lists *)
Definition fresh_in (uniq : list fkey) (fs : list fkey) : bool := existsb (fun f => negb (mem f uniq)) fs.

Lemma fresh_in_ext u1 u2 fs : (forall f, mem f u1 = mem f u2) -> fresh_in u1 fs = fresh_in u2 fs.
Proof.
  intros H. unfold fresh_in. induction fs as [|f fs IH]; [reflexivity|].
  cbn [existsb]. rewrite H, IH. reflexivity.
Qed.

Lemma fresh_in_app u a b : fresh_in u (a ++ b) = fresh_in u a || fresh_in u b.
Proof. unfold fresh_in. apply existsb_app. Qed.

Lemma scan_checks_spec checks : forall uniq cur uniq1 cur1,
  scan_checks checks uniq cur = (uniq1, cur1) ->
  (forall f, mem f uniq1 = mem f uniq || mem f (case_failed checks))
  /\ is_nil cur1 = is_nil cur && negb (fresh_in uniq (case_failed checks)).
Proof.
  induction checks as [|[f|] cs IH]; intros uniq cur uniq1 cur1 H; cbn [scan_checks case_failed] in *.
  - injection H as <- <-. split.
    + intros f. cbn. rewrite orb_false_r. reflexivity.
    + cbn. rewrite andb_true_r. reflexivity.
  - unfold fresh_in. cbn [existsb]. fold (fresh_in uniq (case_failed cs)).
    destruct (mem f uniq) eqn:Em; apply IH in H; destruct H as [Hmem Hnil].
    + (* f is known already: skipped *)
      split; [|exact Hnil].
      intros g. rewrite Hmem. cbn [mem existsb]. fold (mem g (case_failed cs)).
      destruct (N.eqb g f) eqn:Eg; [|reflexivity].
      apply N.eqb_eq in Eg; subst g. rewrite Em. reflexivity.
    + (* f is fresh: appended to both lists, the batch is not empty any more *)
      split.
      * intros g. rewrite Hmem. rewrite mem_app. cbn [mem existsb]. fold (mem g (case_failed cs)).
        rewrite orb_false_r. rewrite <- orb_assoc. reflexivity.
      * rewrite Hnil. cbn [negb orb]. rewrite andb_false_r. destruct cur; reflexivity.
  - apply IH in H. exact H.
Qed.

Definition cases_failed (cases : list case_rec) : list fkey := flat_map (fun c => case_failed (c_checks c)) cases.

Lemma scan_cases_spec cases : forall uniq fl uniq1 fl1,
  scan_cases cases uniq fl = (uniq1, fl1) ->
  (forall f, mem f uniq1 = mem f uniq || mem f (cases_failed cases))
  /\ is_nil fl1 = is_nil fl && negb (fresh_in uniq (cases_failed cases)).
Proof.
  induction cases as [|c cs IH]; intros uniq fl uniq1 fl1 H.
  - cbn in H. injection H as <- <-. split.
    + intros f. cbn. rewrite orb_false_r. reflexivity.
    + cbn. rewrite andb_true_r. reflexivity.
  - cbn [scan_cases] in H. cbn [cases_failed flat_map]. fold (cases_failed cs).
    destruct (c_checks c) as [|ch chs] eqn:Ec.
    + apply IH in H. exact H.
    + rewrite <- Ec in *. clear Ec ch chs.
      destruct (scan_checks (c_checks c) uniq []) as [uniqA cur] eqn:Es.
      apply scan_checks_spec in Es. destruct Es as [Hm Hc]. cbn [is_nil andb] in Hc. symmetry in Hc.
      rewrite fresh_in_app.
      assert (Hmem : forall uniq1, (forall f, mem f uniq1 = mem f uniqA || mem f (cases_failed cs)) ->
                forall f, mem f uniq1 = mem f uniq || mem f (case_failed (c_checks c) ++ cases_failed cs)).
      { intros u Hu f. rewrite Hu, Hm, mem_app, orb_assoc. reflexivity. }
      destruct cur as [|x cur]; apply IH in H; destruct H as [H1 H2]; (split; [exact (Hmem _ H1)|]).
      * (* the case had nothing fresh: no group is stored for it, and uniqA has the same members as uniq *)
        apply negb_true_iff in Hc. rewrite H2, Hc. cbn [orb].
        rewrite (fresh_in_ext uniqA uniq); [reflexivity|].
        intros f. rewrite Hm. destruct (mem f uniq) eqn:E1; [reflexivity|]. cbn [orb].
        destruct (mem f (case_failed (c_checks c))) eqn:E2; [|reflexivity].
        exfalso. unfold fresh_in in Hc. rewrite <- not_true_iff_false in Hc. apply Hc.
        apply existsb_exists. exists f. split; [apply mem_spec; exact E2 | rewrite E1; reflexivity].
      * (* something was fresh: its group is stored under the case id *)
        apply negb_false_iff in Hc. rewrite H2, Hc, is_nil_dset. cbn [orb negb]. rewrite andb_false_r. reflexivity.
Qed.

Definition present (l : label) (s : stat) : bool :=
  match dget l (failures s) with Some _ => true | None => false end.

(* the handler's dictionaries against the two sets the region is stated with *)
Definition junit_inv (s : stat) (seen : list fkey) (known : list label) : Prop :=
  (forall f, mem f (unique s) = mem f seen) /\ (forall l, present l s = mem l known).

Lemma junit_inv_init : junit_inv stat0 [] [].
Proof. split; reflexivity. Qed.

Lemma failed_keys_cases r : failed_keys r = cases_failed (r_cases r).
Proof. reflexivity. Qed.

Lemma has_fresh_fresh_in seen r : has_fresh seen r = fresh_in seen (failed_keys r).
Proof. reflexivity. Qed.

Lemma junit_inv_step s seen known r : junit_inv s seen known ->
  junit_inv (on_scenario_finished s r) (seen ++ failed_keys r)
      (if has_fresh seen r then r_label r :: known else known).
Proof.
  intros (I1 & I2). unfold on_scenario_finished.
  destruct (scan_cases (r_cases r) (unique s)
             match dget (r_label r) (failures s) with Some g => g | None => [] end) as [uniq1 fl1] eqn:Es.
  apply scan_cases_spec in Es. destruct Es as [Hm Hfl].
  rewrite has_fresh_fresh_in, <- (fresh_in_ext (unique s) seen _ I1), failed_keys_cases.
  split.
  - intros f. cbn [unique]. rewrite Hm, mem_app, I1. reflexivity.
  - intros l. unfold present. cbn [failures].
    destruct fl1 as [|g1 fl1]; cbn [is_nil] in Hfl; symmetry in Hfl.
    + (* nothing stored: nothing was fresh *)
      apply andb_true_iff in Hfl. destruct Hfl as [_ Hfr]. apply negb_true_iff in Hfr. rewrite Hfr. apply I2.
    + rewrite dget_dset. destruct (N.eqb_spec l (r_label r)) as [->|Hne].
      * (* the label of the recorder: present from here on *)
        destruct (fresh_in (unique s) (cases_failed (r_cases r))).
        -- cbn [mem existsb]. rewrite N.eqb_refl. reflexivity.
        -- (* not fresh, yet stored: the label was present already *)
           rewrite <- I2. unfold present.
           destruct (dget (r_label r) (failures s)); [reflexivity | discriminate Hfl].
      * (* any other label: as before *)
        fold (present l s). rewrite I2.
        destruct (fresh_in (unique s) (cases_failed (r_cases r))); [|reflexivity].
        cbn [mem existsb]. apply N.eqb_neq in Hne. rewrite Hne. reflexivity.
Qed.

Definition crashes_from (s : stat) (t : tcases) (w : option tcases) (h : list event) : bool :=
  match junit_from true s t w h with Crash _ => true | Running _ _ _ => false end.

Lemma junit_crash_iff h : forall s t w seen known, junit_inv s seen known ->
  crashes_from s t w h = negb (fresh_or_known_from seen known h).
Proof.
  induction h as [|e h IH]; intros s t w seen known HI; [reflexivity|].
  unfold crashes_from in *. cbn [junit_from fresh_or_known_from].
  destruct e as [r st reason | l | | ].
  - pose proof (junit_inv_step s seen known r HI) as HI'.
    set (known' := if has_fresh seen r then r_label r :: known else known) in *.
    pose proof (proj2 HI' (r_label r)) as J2. unfold present in J2.
    cbn [junit_step].
    destruct st; try (cbn [andb]; rewrite (IH _ _ _ _ _ HI'); reflexivity).
    + (* FAILURE *)
      destruct (dget (r_label r) (failures (on_scenario_finished s r))) as [g|] eqn:Eg.
      * rewrite <- J2. cbn [andb]. apply IH. exact HI'.
      * rewrite <- J2. reflexivity.
    + (* SKIP *)
      destruct reason; cbn [andb]; apply IH; exact HI'.
  - cbn [junit_step]. apply IH. exact HI.
  - cbn [junit_step]. apply IH. exact HI.
  - cbn [junit_step]. apply IH. exact HI.
Qed.

Lemma junit_step_runs s t w e : exists s1 t1 w1, junit_step false s t w e = Running s1 t1 w1.
Proof.
  destruct e as [r st reason | l | | ]; cbn [junit_step]; eauto.
  destruct st; eauto.
  - destruct (dget (r_label r) (failures (on_scenario_finished s r))); eauto.
  - destruct reason; eauto.
Qed.

Lemma junit_from_runs h : forall s t w, exists s1 t1 w1, junit_from false s t w h = Running s1 t1 w1.
Proof.
  induction h as [|e h IH]; intros s t w; [cbn; eauto|].
  cbn [junit_from]. destruct (junit_step_runs s t w e) as (s1 & t1 & w1 & ->). apply IH.
Qed.


Lemma dget_app_absent {A} k (d : list (N * A)) v : dget k d = None -> dget k (d ++ [(k, v)]) = Some v.
Proof.
  induction d as [|[a x] d IH]; cbn [app dget]; intros H.
  - rewrite N.eqb_refl. reflexivity.
  - destruct (N.eqb k a); [discriminate | apply IH, H].
Qed.
Lemma dget_app_present {A} k (d : list (N * A)) x tl : dget k d = Some x -> dget k (d ++ tl) = Some x.
Proof.
  induction d as [|[a y] d IH]; cbn [app dget]; intros H; [discriminate|].
  destruct (N.eqb k a); [exact H | apply IH, H].
Qed.
Lemma dget_app_other {A} k k' (d : list (N * A)) v : k' <> k -> dget k' (d ++ [(k, v)]) = dget k' d.
Proof.
  intros Hne. induction d as [|[a x] d IH]; cbn [app dget].
  - apply N.eqb_neq in Hne. rewrite Hne. reflexivity.
  - destruct (N.eqb k' a); [reflexivity | exact IH].
Qed.

Lemma dget_tupdate l l' f t : dget l' (tupdate l f t) = if N.eqb l' l then option_map f (dget l' t) else dget l' t.
Proof.
  unfold tupdate. induction t as [|[a c] t IH]; cbn [map dget fst snd].
  - destruct (N.eqb l' l); reflexivity.
  - destruct (N.eqb a l) eqn:Eal; cbn [dget fst snd]; destruct (N.eqb l' a) eqn:El'a.
    + apply N.eqb_eq in Eal, El'a. subst. rewrite N.eqb_refl. reflexivity.
    + exact IH.
    + apply N.eqb_eq in El'a. subst a. rewrite Eal. reflexivity.
    + exact IH.
Qed.

Lemma has_failure_get_or_create l l' t : has_failure l' t = true -> has_failure l' (get_or_create l t) = true.
Proof.
  unfold has_failure, get_or_create. intros H. destruct (dget l t) eqn:E; [exact H|].
  destruct (dget l' t) as [c|] eqn:E'; [|discriminate]. rewrite (dget_app_present l' t c _ E'). exact H.
Qed.

Lemma get_or_create_present l t : exists c, dget l (get_or_create l t) = Some c.
Proof.
  unfold get_or_create. destruct (dget l t) as [c|] eqn:E; [exists c; exact E|].
  exists tcase0. apply dget_app_absent, E.
Qed.

Definition grows (f : tcase -> tcase) : Prop := forall c, t_failures c <> [] -> t_failures (f c) <> [].

Lemma has_failure_tupdate l l' f t : grows f -> has_failure l' t = true -> has_failure l' (tupdate l f t) = true.
Proof.
  unfold has_failure. intros Hg H. rewrite dget_tupdate. destruct (N.eqb l' l); [|exact H].
  destruct (dget l' t) as [c|]; [|discriminate]. cbn [option_map].
  destruct (t_failures c) eqn:Ec; [discriminate|].
  destruct (t_failures (f c)) eqn:Ef; [|reflexivity]. exfalso. apply (Hg c); [rewrite Ec; discriminate | exact Ef].
Qed.

Lemma has_failure_added l g t : has_failure l (tupdate l (add_failure_groups g) (get_or_create l t)) = true.
Proof.
  unfold has_failure. rewrite dget_tupdate, N.eqb_refl. destruct (get_or_create_present l t) as [c ->].
  cbn. destruct (t_failures c); reflexivity.
Qed.

Lemma grows_add g : grows (add_failure_groups g).
Proof. intros c H. cbn. destruct (t_failures c); [congruence | discriminate]. Qed.

Lemma grows_same f : (forall c, t_failures (f c) = t_failures c) -> grows f.
Proof. intros Hf c H. rewrite Hf. exact H. Qed.

Lemma junit_step_keeps l s t w e s1 t1 w1 : junit_step false s t w e = Running s1 t1 w1 ->
  has_failure l t = true -> has_failure l t1 = true.
Proof.
  intros Hs H. destruct e as [r st reason | l0 | | ]; cbn [junit_step] in Hs.
  - (* ScenarioFinished: the test case is looked up or created, then updated according to the status *)
    pose proof (has_failure_get_or_create (r_label r) l t H) as H'.
    destruct st.
    + (* SUCCESS *) injection Hs as <- <- <-. exact H'.
    + (* FAILURE: a failure element is added *)
      destruct (dget (r_label r) (failures (on_scenario_finished s r))); injection Hs as <- <- <-;
        apply has_failure_tupdate; [apply grows_add | exact H' | apply grows_add | exact H'].
    + (* ERROR *) injection Hs as <- <- <-. exact H'.
    + (* SKIP: only the skipped counter moves *)
      destruct reason; injection Hs as <- <- <-; [|exact H'].
      apply has_failure_tupdate; [apply grows_same; reflexivity | exact H'].
    + (* INTERRUPTED *) injection Hs as <- <- <-. exact H'.
  - (* NonFatalError: only the error counter moves *)
    injection Hs as <- <- <-.
    apply has_failure_tupdate; [apply grows_same; reflexivity | apply has_failure_get_or_create, H].
  - (* EngineFinished *) injection Hs as <- <- <-. exact H.
  - (* any other event *) injection Hs as <- <- <-. exact H.
Qed.

Lemma junit_from_keeps l h : forall s t w s1 t1 w1, junit_from false s t w h = Running s1 t1 w1 ->
  has_failure l t = true -> has_failure l t1 = true.
Proof.
  induction h as [|e h IH]; intros s t w s1 t1 w1 Hr H.
  - cbn in Hr. injection Hr as <- <- <-. exact H.
  - cbn [junit_from] in Hr. destruct (junit_step false s t w e) as [?|s' t' w'] eqn:Es; [discriminate|].
    apply (IH _ _ _ _ _ _ Hr). apply (junit_step_keeps l _ _ _ _ _ _ _ Es H).
Qed.

Lemma junit_from_reports h : forall s t w s1 t1 w1 l, junit_from false s t w h = Running s1 t1 w1 ->
  In l (failure_labels h) -> has_failure l t1 = true.
Proof.
  induction h as [|e h IH]; intros s t w s1 t1 w1 l Hr Hin; [destruct Hin|].
  cbn [junit_from] in Hr. destruct (junit_step false s t w e) as [?|s' t' w'] eqn:Es; [discriminate|].
  destruct e as [r st reason | l0 | | ]; try (cbn [failure_labels] in Hin; apply (IH _ _ _ _ _ _ l Hr Hin)).
  destruct st; try (cbn [failure_labels] in Hin; apply (IH _ _ _ _ _ _ l Hr Hin)).
  cbn [failure_labels] in Hin. destruct Hin as [<-|Hin]; [|apply (IH _ _ _ _ _ _ l Hr Hin)].
  apply (junit_from_keeps (r_label r) h _ _ _ _ _ _ Hr).
  cbn [junit_step] in Es. destruct (dget (r_label r) (failures (on_scenario_finished s r))); injection Es as <- <- <-; apply has_failure_added.
Qed.


(* GET /u = label 1, Stateful tests = label 2; failure identity 7 = ServerError for GET /u *)
Definition rec_fuzz : recorder := {| r_label := 1; r_cases := [{| c_id := 10; c_checks := [None; Some 7] |}] |}.
Definition rec_stateful : recorder := {| r_label := 2; r_cases := [{| c_id := 20; c_checks := [Some 7] |}] |}.
Definition h_rediscovered : list event :=
  [ScenarioFinished rec_fuzz StFailure false; ScenarioFinished rec_stateful StFailure false; EngineFinished].

(* non-vacuity: two labels with their own failures, a rediscovery under a known label, a skip, an error; the file is written *)
Definition rec_b : recorder := {| r_label := 2; r_cases := [{| c_id := 20; c_checks := [Some 7; Some 8] |}; {| c_id := 21; c_checks := [] |}] |}.
Definition rec_a2 : recorder := {| r_label := 1; r_cases := [{| c_id := 11; c_checks := [Some 7] |}] |}.
Definition h_fine : list event :=
  [ScenarioFinished rec_fuzz StFailure false; ScenarioFinished rec_b StFailure false; ScenarioFinished rec_a2 StFailure false;
   ScenarioFinished {| r_label := 3; r_cases := [] |} StSkip true; NonFatalError 4; EngineFinished].
Example junit_fine : fresh_failure_or_known_label h_fine = true
  /\ match junit_run h_fine with
     | Running _ _ (Some t) => map fst t = [1; 2; 3; 4]
         /\ map (fun kv => length (t_failures (snd kv))) t = [2; 1; 0; 0]%nat
     | _ => False
     end.
Proof. split; [vm_compute; reflexivity | vm_compute; split; reflexivity]. Qed.

(* the rediscovery history under the handler with failures.get: both labels carry a failure element, the second one
   with no group of its own (the already-reported message), and the file is written *)
Example junit_rediscovered_now :
  match junit_run h_rediscovered with
  | Running _ _ (Some t) => map fst t = [1; 2] /\ map (fun kv => t_failures (snd kv)) t = [[[(10, [7])]]; [[]]]
  | _ => False
  end.
Proof. vm_compute. split; reflexivity. Qed.

Definition qprocs (h : list cevent) : list qmsg :=
  flat_map (fun e => match e with CScenario ints => [QProcess ints] | COther => [] end) h.

Lemma cassette_queue_qprocs h : cassette_queue h = QInit :: qprocs h ++ [QFinalize].
Proof. reflexivity. Qed.

Lemma map_fst_complete l : map fst (complete l) = l.
Proof. unfold complete. rewrite map_map. apply map_id. Qed.

Section WriterProofs.
Variable raises : wconf -> inter -> bool.

Lemma write_entries_ok w ints : forall out,
  forallb (fun i => negb (raises w i)) ints = true ->
  write_entries_gen raises w ints out = (out ++ complete (map i_id ints), true).
Proof.
  induction ints as [|i ints IH]; intros out H.
  - cbn. rewrite app_nil_r. reflexivity.
  - cbn [forallb] in H. apply andb_true_iff in H; destruct H as [Hi Hs]. apply negb_true_iff in Hi.
    cbn [write_entries_gen map complete]. rewrite Hi. rewrite IH by exact Hs. rewrite <- app_assoc. reflexivity.
Qed.

(* the ids in the file stay a prefix of the ids handed over: those of out, then those of ints; a scenario that
   went through has added all of its own *)
Lemma write_entries_prefix w ints : forall out, exists rest,
  map fst out ++ map i_id ints = map fst (fst (write_entries_gen raises w ints out)) ++ rest
  /\ (snd (write_entries_gen raises w ints out) = true -> rest = []).
Proof.
  induction ints as [|i ints IH]; intros out.
  - exists []. split; reflexivity.
  - cbn [write_entries_gen map]. destruct (raises w i).
    + cbn [fst snd]. unfold truncated_entry. destruct (w_fmt w).
      * exists (map i_id ints). rewrite map_app, <- app_assoc. split; [reflexivity | discriminate].
      * exists (i_id i :: map i_id ints). rewrite app_nil_r. split; [reflexivity | discriminate].
    + destruct (IH (out ++ [(i_id i, true)])) as (rest & Hr & Hok).
      exists rest. rewrite map_app, <- app_assoc in Hr. exact (conj Hr Hok).
Qed.

Lemma writer_loop_ok w h : forall out, no_entry_raises_gen raises w h = true ->
  writer_loop_gen raises w (qprocs h ++ [QFinalize]) out = (out ++ complete (delivered h), Closed).
Proof.
  induction h as [|e h IH]; intros out H.
  - cbn. rewrite app_nil_r. reflexivity.
  - cbn [no_entry_raises_gen forallb] in H. apply andb_true_iff in H; destruct H as [He Hh].
    destruct e as [ints|].
    + cbn [qprocs flat_map app writer_loop_gen delivered]. rewrite write_entries_ok by exact He.
      fold (qprocs h). fold (delivered h). rewrite IH by exact Hh. unfold complete. rewrite map_app, <- app_assoc. reflexivity.
    + cbn [qprocs flat_map app delivered]. fold (qprocs h). fold (delivered h). apply IH, Hh.
Qed.

Lemma each_interaction_once w h : no_entry_raises_gen raises w h = true -> written_gen raises w h = (complete (delivered h), Closed).
Proof. unfold written_gen. rewrite cassette_queue_qprocs. apply (writer_loop_ok w h []). Qed.

Lemma writer_loop_prefix w h : forall out, exists rest,
  map fst out ++ delivered h = map fst (fst (writer_loop_gen raises w (qprocs h ++ [QFinalize]) out)) ++ rest.
Proof.
  induction h as [|e h IH]; intros out.
  - exists []. reflexivity.
  - destruct e as [ints|]; cbn [qprocs flat_map app delivered]; fold (qprocs h); fold (delivered h); [|apply IH].
    cbn [writer_loop_gen]. destruct (write_entries_prefix w ints out) as (r1 & Hr1 & Hok).
    destruct (write_entries_gen raises w ints out) as [out1 ok]. cbn [fst snd] in Hr1, Hok.
    rewrite app_assoc, Hr1. destruct ok.
    + rewrite (Hok eq_refl), app_nil_r. apply IH.
    + exists (r1 ++ delivered h). rewrite app_assoc. reflexivity.
Qed.

Lemma written_is_prefix w h : exists rest, delivered h = map fst (fst (written_gen raises w h)) ++ rest.
Proof. unfold written_gen. rewrite cassette_queue_qprocs. apply (writer_loop_prefix w h []). Qed.

End WriterProofs.

Definition har_sanitized : wconf := {| w_fmt := HAR; w_sanitize := true; w_preserve := false |}.
Definition vcr_default : wconf := {| w_fmt := VCR; w_sanitize := true; w_preserve := false |}.
Definition i_plain (n : N) : inter := {| i_id := n; i_userinfo := false; i_response := true; i_codec := CodecOk; i_cookie_values := [] |}.
Definition i_user (n : N) : inter := {| i_id := n; i_userinfo := true; i_response := true; i_codec := CodecOk; i_cookie_values := [] |}.
Definition i_bogus (n : N) : inter := {| i_id := n; i_userinfo := false; i_response := true; i_codec := CodecUnknown; i_cookie_values := [] |}.
Definition i_undefined (n : N) : inter := {| i_id := n; i_userinfo := false; i_response := true; i_codec := CodecRaises; i_cookie_values := [] |}.

(* HAR: _extract_cookies hands SimpleCookie one character at a time, and a one-character string is never a
   key=value pair: no CookieError, whatever the Cookie header holds *)
Lemma cookie_error_short p : (length p < 3)%nat -> cookie_error p = false.
Proof. intros H. unfold cookie_error. apply Nat.leb_gt in H. rewrite H. reflexivity. Qed.

Lemma pieces_now_never_raise v : existsb cookie_error (pieces_now v) = false.
Proof.
  unfold pieces_now. induction v as [|c v IH]; [reflexivity|].
  cbn [map existsb]. rewrite cookie_error_short, IH by (cbn; lia). reflexivity.
Qed.
Lemma cookies_never_raise vs : existsb cookie_error (flat_map pieces_now vs) = false.
Proof.
  induction vs as [|v vs IH]; [reflexivity|].
  cbn [flat_map]. rewrite existsb_app, pieces_now_never_raise, IH. reflexivity.
Qed.

Lemma har_entry_never_raises san pres i : entry_raises {| w_fmt := HAR; w_sanitize := san; w_preserve := pres |} i = false.
Proof. apply cookies_never_raise. Qed.

(* no_entry_raises is the one hypothesis under which a writer is complete; it holds of every HAR history ... *)
Lemma har_never_raises san pres h : no_entry_raises {| w_fmt := HAR; w_sanitize := san; w_preserve := pres |} h = true.
Proof.
  apply forallb_forall. intros e _. destruct e as [ints|]; [|reflexivity].
  apply forallb_forall. intros i _. rewrite har_entry_never_raises. reflexivity.
Qed.

(* ... and of the VCR histories without a codec that raises: a charset Python does not know falls back to utf8 *)
Definition no_raising_codec (h : list cevent) : bool :=
  forallb (fun e => match e with CScenario ints => forallb (fun i => match i_codec i with CodecRaises | CodecBadName => false | _ => true end) ints | COther => true end) h.
Lemma vcr_no_raising_codec san pres h : no_raising_codec h = true ->
  no_entry_raises {| w_fmt := VCR; w_sanitize := san; w_preserve := pres |} h = true.
Proof.
  apply forallb_impl. intros [ints|]; [|reflexivity]. apply forallb_impl. intros i H.
  unfold entry_raises. cbn [w_fmt w_preserve]. destruct (i_codec i); try discriminate; rewrite ?andb_false_r; reflexivity.
Qed.

(* a Cookie header value that SimpleCookie refuses when it is handed over whole (witness of entry_raises_whole) *)
Definition c_tenant : str := [116;101;110;97;110;116;47;105;100;61;49].     (* tenant/id=1 *)
Definition i_cookie (n : N) (v : str) : inter :=
  {| i_id := n; i_userinfo := false; i_response := true; i_codec := CodecOk; i_cookie_values := [v] |}.

(* outside the region: a codec that exists and raises (charset=undefined) *)
Lemma once_refuted_vcr : delivered [CScenario [i_plain 1; i_undefined 2; i_plain 3]] = [1; 2; 3]
  /\ written vcr_default [CScenario [i_plain 1; i_undefined 2; i_plain 3]] = ([(1, true); (2, false)], Died).
Proof. split; reflexivity. Qed.
Example once_nonvacuous : no_raising_codec [CScenario [i_user 1; i_bogus 2]; COther; CScenario []; CScenario [i_plain 3]] = true
  /\ written vcr_default [CScenario [i_user 1; i_bogus 2]; COther; CScenario []; CScenario [i_plain 3]] = (complete [1; 2; 3], Closed)
  /\ written har_sanitized [CScenario [i_user 1; i_bogus 2]; COther; CScenario []; CScenario [i_plain 3]] = (complete [1; 2; 3], Closed).
Proof. vm_compute. repeat split. Qed.

Lemma har_step_entry p v x : snd (har_step p v x) = har_entry p x.
Proof.
  unfold har_step, har_entry. destruct (q_body (x_req x)), (x_resp x); reflexivity.
Qed.

Lemma har_loop_pointwise p xs : forall v, har_loop p v xs = map (har_entry p) xs.
Proof.
  induction xs as [|x xs IH]; intros v; [reflexivity|].
  cbn [har_loop map]. rewrite (surjective_pairing (har_step p v x)), har_step_entry, IH. reflexivity.
Qed.

Lemma vcr_step_entry p v x : snd (vcr_step p v x) = vcr_entry p x.
Proof. unfold vcr_entry, vcr_step. destruct (x_resp x); [destruct (x_checks x)|]; reflexivity. Qed.

Lemma vcr_loop_pointwise p xs : forall v, vcr_loop p v xs = map (vcr_entry p) xs.
Proof.
  induction xs as [|x xs IH]; intros v; [reflexivity|].
  cbn [vcr_loop map]. rewrite (surjective_pairing (vcr_step p v x)), vcr_step_entry, IH. reflexivity.
Qed.

Lemma nth_error_map_mid {A B} (f : A -> B) pre x post :
  nth_error (map f (pre ++ x :: post)) (length pre) = Some (f x).
Proof. induction pre as [|a pre IH]; [reflexivity | exact IH]. Qed.

(* non-vacuity: POST with a body, then GET without: the second entry carries nothing of the first *)
Definition x_post : xchg :=
  {| x_id := 1; x_req := {| q_method := [112;111;115;116]; q_uri := [47;105]; q_headers := [(s_content_type, [[106]])]; q_body := Some [123;125] |};
     x_resp := Some {| p_status := 201; p_message := [79;75]; p_headers := []; p_content := [123;125]; p_encoding := None; p_codec := CodecOk; p_version := [49;46;49] |};
     x_checks := Some [([97], false); ([98], true)] |}.
Definition x_get : xchg :=
  {| x_id := 2; x_req := {| q_method := [71;69;84]; q_uri := [47;105]; q_headers := []; q_body := None |}; x_resp := None; x_checks := None |}.
Example pointwise_nonvacuous :
  map he_post (har_loop false hvars0 [x_post; x_get; x_post]) = [Some ([106], Utf8Replace [123;125]); None; Some ([106], Utf8Replace [123;125])]
  /\ map ve_status (vcr_loop true vvars0 [x_post; x_get]) = [VFailure; VError]
  /\ map he_method (har_loop false hvars0 [x_post]) = [[80;79;83;84]].
Proof. vm_compute. repeat split. Qed.

(* two test vectors: an unknown charset is written as utf8; the query string is what lies between ? and # *)
Example unknown_charset_falls_back :
  vcr_resp_body false {| p_status := 200; p_message := []; p_headers := []; p_content := [104]; p_encoding := Some [98;111;103;117;115]; p_codec := CodecUnknown; p_version := [] |}
  = Some (s_utf8, CodecReplace s_utf8 [104])
  /\ query_of [104;58;47;47;91;70;93;64;104;47;112;63;97;61;49;38;98;35;102;63;120] = [97;61;49;38;98].
Proof. split; reflexivity. Qed.

(* writer_item of the model is the loop body at entry_raises, so these two are not over a variable [raises] *)
Lemma writer_loop_step w m q out :
  writer_loop_gen entry_raises w (m :: q) out =
  match writer_item w m out with
  | (out1, None) => writer_loop_gen entry_raises w q out1
  | (out1, Some e) => (out1, e)
  end.
Proof.
  destruct m as [|ints|]; cbn [writer_loop_gen writer_item]; try reflexivity.
  destruct (write_entries_gen entry_raises w ints out) as [o ok]. destruct ok; reflexivity.
Qed.

Lemma drain_loop w : forall q out,
  writer_loop_gen entry_raises w q out =
  (fst (drain true w q out), match snd (drain true w q out) with Some e => e | None => Waiting end).
Proof.
  induction q as [|m q IH]; intros out.
  - reflexivity.
  - rewrite writer_loop_step. cbn [drain writer_take].
    destruct (writer_item w m out) as [o [e|]]; [reflexivity | apply IH].
Qed.

Lemma drain_finalize op w : forall q out, exists o e, drain op w (q ++ [QFinalize]) out = (o, Some e).
Proof.
  induction q as [|m q IH]; intros out.
  - cbn [app drain]. destruct op; cbn [writer_take writer_item writer_item_closed].
    + exists out, Closed. reflexivity.
    + destruct (w_fmt w); [exists out, Closed | exists out, Died]; reflexivity.
  - cbn [app drain]. destruct (writer_take op w m out) as [o [e|]].
    + exists o, e. reflexivity.
    + apply IH.
Qed.

(* the non-daemon thread of the code as it is, writing to a file that Click does not close *)
Definition safe_conf (c : lconf) : Prop := lc_daemon c = false /\ report_dir_owned c = true.

(* before the exit: the handle is open, and the writer has ended with what the loop produces on the whole queue
   or will produce it from what is queued and what is still to be put *)
Definition on_course (w : wconf) (h : list cevent) (st : lstate) : Prop :=
  l_open st = true /\
  match l_writer st with
  | LRunning => writer_loop_gen entry_raises w (l_queue st ++ l_todo st) (l_out st) = written w h
  | LEnded e => (l_out st, e) = written w h
  | LKilled => False
  end.

(* a writer still running when the join has returned is a join that timed out: that is survived by safe_conf only *)
Definition linv (c : lconf) (w : wconf) (h : list cevent) (st : lstate) : Prop :=
  match l_phase st with
  | MRun => on_course w h st
  | MTeardown => on_course w h st /\ l_todo st = [] /\ (l_writer st = LRunning -> safe_conf c)
  | MExited => exists e, l_writer st = LEnded e /\ (l_out st, e) = written w h
  end.

Lemma linv_init c w h : linv c w h (linit h).
Proof. split; reflexivity. Qed.

(* the projections of a state written out as a record, and nothing else: a plain cbn also unfolds written and the loop *)
Ltac lproj := cbn [l_phase l_todo l_queue l_out l_writer l_open].

Lemma linv_step c w h st s : is_timeout s = false \/ safe_conf c -> linv c w h st -> linv c w h (lstep c w st s).
Proof.
  intros Hs. unfold linv. destruct s; cbn [lstep].
  - (* SMain *)
    destruct (l_phase st) eqn:Hp.
    + intros Hc. destruct (l_todo st) as [|m t] eqn:Ht.
      * (* the join returns once the thread has ended *)
        destruct (l_writer st) eqn:Ew.
        -- rewrite Hp. exact Hc.
        -- split; [exact Hc | split; [exact Ht | cbn; rewrite Ew; discriminate]].
        -- destruct Hc as [_ Hw]. rewrite Ew in Hw. destruct Hw.
      * (* queue.put *)
        destruct Hc as [Ho Hw]. rewrite Ht in Hw. split; [exact Ho|]. lproj.
        destruct (l_writer st); try exact Hw. rewrite <- app_assoc. exact Hw.
    + (* sys.exit *)
      intros ([Ho Hw] & Ht & Hsafe). unfold exit_step. rewrite Ho. cbn [andb].
      destruct (l_writer st) as [|e|] eqn:Ew; [|exists e; split; [reflexivity | exact Hw]|destruct Hw].
      (* a running writer is waited for: drain_loop *)
      destruct (Hsafe eq_refl) as [Hd Hk]. unfold report_dir_owned in Hk. rewrite Hd, Hk.
      pose proof Hw as Hl. rewrite Ht, app_nil_r, drain_loop in Hl.
      destruct (drain true w (l_queue st) (l_out st)) as [o [e|]]; lproj.
      * exists e. split; [reflexivity | exact Hl].
      * rewrite Hp. split; [split; [exact Ho | rewrite Ew; exact Hw] | split; [exact Ht | intros _; exact (Hsafe eq_refl)]].
    + rewrite Hp. intros H. exact H.
  - (* SWriter takes one item: writer_loop_step *)
    intros Hc. destruct (l_writer st) eqn:Ew; try (rewrite Ew; exact Hc).
    destruct (l_queue st) as [|m q] eqn:Eq; [rewrite Ew; exact Hc|].
    destruct (writer_take (l_open st) w m (l_out st)) as [o e] eqn:Et. lproj.
    set (st' := {| l_todo := l_todo st; l_phase := l_phase st; l_queue := q; l_out := o;
                   l_writer := match e with None => LRunning | Some e' => LEnded e' end; l_open := l_open st |}).
    assert (Hitem : on_course w h st -> on_course w h st').
    { intros [Ho Hw]. rewrite Ew, Eq in Hw. rewrite Ho in Et. cbn [writer_take app] in *.
      rewrite writer_loop_step, Et in Hw. split; [exact Ho | destruct e; exact Hw]. }
    revert Hc. destruct (l_phase st).
    + exact Hitem.
    + intros (Hc & Ht & Hsafe). split; [exact (Hitem Hc) | split; [exact Ht | intros _; exact (Hsafe eq_refl)]].
    + intros (e' & He & _). discriminate He.
  - (* STimeout *)
    destruct (l_phase st) eqn:Hp; try (rewrite Hp; intros H; exact H).
    destruct (l_todo st) eqn:Ht; [|rewrite Hp; intros H; exact H].
    intros Hc. destruct Hs as [Hs|Hs]; [discriminate Hs|]. split; [exact Hc | split; [exact Ht | intros _; exact Hs]].
Qed.

Lemma linv_run c w h sched : safe_conf c \/ join_never_timed_out sched = true -> linv c w h (lrun c w h sched).
Proof.
  intros Hs. unfold lrun. generalize (linv_init c w h). generalize (linit h).
  induction sched as [|s sched IH]; intros st Hst; [exact Hst|].
  cbn [fold_left]. apply IH.
  - destruct Hs as [Hs|Hs]; [left; exact Hs|]. right. cbn in Hs. apply andb_true_iff in Hs. apply Hs.
  - apply linv_step; [|exact Hst].
    destruct Hs as [Hs|Hs]; [right; exact Hs|]. left. cbn in Hs. apply andb_true_iff in Hs. apply negb_true_iff, Hs.
Qed.

Lemma exit_complete c w h sched : safe_conf c \/ join_never_timed_out sched = true ->
  lexited (lrun c w h sched) = true ->
  lresult (lrun c w h sched) = (fst (written w h), LEnded (snd (written w h))).
Proof.
  intros Hs Hex. pose proof (linv_run c w h sched Hs) as H. unfold linv, lexited, lresult in *.
  destruct (l_phase (lrun c w h sched)); try discriminate Hex.
  destruct H as (e & -> & <-). reflexivity.
Qed.

Lemma report_complete_at_exit w h sched : no_entry_raises w h = true ->
  lexited (lrun lconf_report_dir w h sched) = true ->
  lresult (lrun lconf_report_dir w h sched) = (complete (delivered h), LEnded Closed).
Proof.
  intros Hreg Hex. rewrite exit_complete by (exact Hex || (left; split; reflexivity)).
  unfold written. rewrite each_interaction_once by exact Hreg. reflexivity.
Qed.

(* the main thread puts everything while the writer is not scheduled *)
Lemma feed_all c w : forall todo q out wr op,
  fold_left (lstep c w) (map (fun _ => SMain) todo)
    {| l_todo := todo; l_phase := MRun; l_queue := q; l_out := out; l_writer := wr; l_open := op |} =
    {| l_todo := []; l_phase := MRun; l_queue := q ++ todo; l_out := out; l_writer := wr; l_open := op |}.
Proof.
  induction todo as [|m t IH]; intros q out wr op.
  - cbn. rewrite app_nil_r. reflexivity.
  - cbn [map fold_left lstep l_phase l_todo l_queue l_out l_writer l_open]. rewrite IH, <- app_assoc. reflexivity.
Qed.

(* ... and the join times out: the whole backlog is in the queue, nothing is in the file *)
Lemma lrun_full_backlog c w h :
  lrun c w h (map (fun _ => SMain) (cassette_queue h) ++ [STimeout]) =
  {| l_todo := []; l_phase := MTeardown; l_queue := cassette_queue h; l_out := []; l_writer := LRunning; l_open := true |}.
Proof. unfold lrun, linit. rewrite fold_left_app, feed_all. reflexivity. Qed.

(* a running writer whose queue ends with Finalize does not keep the process from exiting: a daemon is killed, a
   non-daemon is waited for and ends at Finalize at the latest *)
Lemma exit_step_exits c w st q : l_writer st = LRunning -> l_queue st = q ++ [QFinalize] ->
  lexited (exit_step c w st) = true.
Proof.
  intros Hw Hq. unfold exit_step. rewrite Hw, Hq. destruct (lc_daemon c); [reflexivity|].
  destruct (drain_finalize (l_open st && negb (lc_click_owned c)) w q (l_out st)) as (o & e & Hd).
  rewrite Hd. reflexivity.
Qed.

Lemma full_backlog_exits c w h : lexited (lrun c w h (sched_full_backlog h)) = true.
Proof.
  unfold sched_full_backlog, lrun. change [STimeout; SMain] with ([STimeout] ++ [SMain]).
  rewrite app_assoc, fold_left_app. fold (lrun c w h (map (fun _ => SMain) (cassette_queue h) ++ [STimeout])).
  rewrite lrun_full_backlog. apply (exit_step_exits c w _ (QInit :: qprocs h)); reflexivity.
Qed.

Definition h_three : list cevent := [CScenario [i_plain 1]; CScenario [i_plain 2]; CScenario [i_plain 3]].
(* everything is put (Initialize, three Process, Finalize), the writer gets as far as the first exchange, the join times out, exit *)
Definition sched_slow_writer : list sstep := [SMain; SMain; SMain; SMain; SMain; SWriter; SWriter; STimeout; SMain].
Definition lconf_daemon : lconf := {| lc_daemon := true; lc_click_owned := false |}.

(* non-vacuity of the join region: a schedule without a timeout that exits, on a history with a backlog *)
Example join_region_nonvacuous :
  join_never_timed_out [SMain; SMain; SWriter; SMain; SMain; SWriter; SMain; SWriter; SWriter; SWriter; SMain; SMain] = true
  /\ lexited (lrun lconf_daemon vcr_default h_three [SMain; SMain; SWriter; SMain; SMain; SWriter; SMain; SWriter; SWriter; SWriter; SMain; SMain]) = true
  /\ lresult (lrun lconf_daemon vcr_default h_three [SMain; SMain; SWriter; SMain; SMain; SWriter; SMain; SWriter; SWriter; SWriter; SMain; SMain]) = (complete [1; 2; 3], LEnded Closed).
Proof. vm_compute. repeat split. Qed.

Lemma cassette_queue_ev_proj fwd h : cassette_queue_ev fwd h = cassette_queue (map (cevent_of fwd) h).
Proof.
  unfold cassette_queue_ev, cassette_queue. f_equal. f_equal.
  induction h as [|e h IH]; [reflexivity|].
  cbn [map flat_map]. rewrite IH. destruct e as [e| | |]; cbn [cassette_handle cevent_of]; try reflexivity.
  destruct (fwd e); reflexivity.
Qed.

Lemma written_ev_proj fwd w h : written_ev_gen fwd w h = written w (map (cevent_of fwd) h).
Proof. unfold written_ev_gen, written, written_gen. rewrite cassette_queue_ev_proj. reflexivity. Qed.

Lemma delivered_proj fwd h : delivered (map (cevent_of fwd) h) = recorded_by fwd h.
Proof.
  unfold delivered, recorded_by. induction h as [|e h IH]; [reflexivity|].
  cbn [map flat_map]. rewrite IH. destruct e as [e| | |]; cbn [cevent_of]; try reflexivity.
  destruct (fwd e); reflexivity.
Qed.

Lemma recorded_all h : recorded_by forward_all h = delivered_ev h.
Proof. reflexivity. Qed.

Lemma no_raising_codec_proj fwd h : no_raising_codec_ev h = true -> no_raising_codec (map (cevent_of fwd) h) = true.
Proof.
  unfold no_raising_codec_ev, no_raising_codec. induction h as [|e h IH]; [reflexivity|].
  cbn [map forallb]. intros H. apply andb_true_iff in H; destruct H as [He Hh]. rewrite (IH Hh), andb_true_r.
  destruct e as [e| | |]; cbn [cevent_of]; try reflexivity. destruct (fwd e); [exact He | reflexivity].
Qed.

Lemma written_by_rule fwd w h : no_entry_raises w (map (cevent_of fwd) h) = true ->
  written_ev_gen fwd w h = (complete (recorded_by fwd h), Closed).
Proof. intros H. rewrite written_ev_proj, <- delivered_proj. apply each_interaction_once, H. Qed.


Lemma counted_once w h e i : written_ev w h = (complete (delivered_ev h), Closed) ->
  NoDup (delivered_ev h) -> In (FScenario e) h -> In i (sf_inters e) ->
  count_occ N.eq_dec (map fst (fst (written_ev w h))) (i_id i) = 1%nat /\ In (i_id i, true) (fst (written_ev w h)).
Proof.
  intros -> Hnd He Hi. cbn [fst]. rewrite map_fst_complete.
  assert (Hin : In (i_id i) (delivered_ev h)).
  { apply in_flat_map. exists (FScenario e). split; [exact He | apply in_map, Hi]. }
  split.
  - apply (proj1 (NoDup_count_occ' N.eq_dec (delivered_ev h)) Hnd), Hin.
  - apply (in_map (fun k => (k, true))), Hin.
Qed.

Lemma delivered_split_length fwd h : length (delivered_ev h) = (length (recorded_by fwd h) + length (lost_by fwd h))%nat.
Proof.
  unfold delivered_ev, recorded_by, lost_by. induction h as [|e h IH]; [reflexivity|].
  cbn [flat_map]. rewrite !app_length, IH. destruct e as [e| | |]; cbn [length]; try lia.
  destruct (fwd e); cbn [length]; lia.
Qed.

Lemma recorded_eq_iff fwd h : recorded_by fwd h = delivered_ev h <-> lost_by fwd h = [].
Proof.
  split.
  - intros H. pose proof (delivered_split_length fwd h) as L. rewrite <- H in L.
    destruct (lost_by fwd h); [reflexivity | cbn [length] in L; lia].
  - unfold delivered_ev, recorded_by, lost_by. induction h as [|e h IH]; [reflexivity|].
    cbn [flat_map]. intros H. apply app_eq_nil in H. destruct H as [He Hh]. rewrite (IH Hh).
    destruct e as [e| | |]; try reflexivity. destruct (fwd e); [reflexivity|]. rewrite He. reflexivity.
Qed.

Lemma rule_complete_iff fwd w h : written_ev_gen fwd w h = (complete (recorded_by fwd h), Closed) ->
  (written_ev_gen fwd w h = (complete (delivered_ev h), Closed) <-> lost_by fwd h = []).
Proof.
  intros ->. rewrite <- recorded_eq_iff. split.
  - intros H. injection H as H. rewrite <- (map_fst_complete (recorded_by fwd h)), H. apply map_fst_complete.
  - intros ->. reflexivity.
Qed.

(* the sentinel: a stateful run in which the second, link-derived step meets a transport error.  Hypothesis
   replays the failing sequence once more (is_final = true): fresh case ids 4 and 5, real traffic *)
Definition i_neterr (n : N) : inter := {| i_id := n; i_userinfo := false; i_response := false; i_codec := CodecOk; i_cookie_values := [] |}.
Definition ev_stateful (final : bool) (st : status) (cases : list case_rec) (ints : list inter) : sf_event :=
  {| sf_phase := PhStateful; sf_label := None; sf_status := st; sf_skip_reason := false; sf_is_final := final;
     sf_rlabel := 2; sf_cases := cases; sf_inters := ints |}.
Definition h_final_replay : list fevent :=
  [FScenario (ev_stateful false StError [] [i_plain 1; i_neterr 2]); FScenario (ev_stateful false StSuccess [] [i_plain 3]);
   FScenario (ev_stateful true StError [] [i_plain 4; i_neterr 5]); FNonFatal 2; FEngineFinished].

Lemma final_replay_nodup : NoDup (delivered_ev h_final_replay).
Proof. change (NoDup [1; 2; 3; 4; 5]). repeat constructor; cbn; intuition discriminate. Qed.

(* JUnit over full events: every lemma is about an arbitrary except clause c (catch_rule); the code as it is and
   the handler before 22e8a9e1 are two instances *)
Lemma bad_ids_nil c e : forallb (fun i => negb (text_raises_gen c i)) (sf_inters e) = true -> bad_ids_gen c e = [].
Proof.
  intros H. unfold bad_ids_gen. rewrite filter_none; [reflexivity|].
  intros i Hi. apply negb_true_iff. exact (proj1 (forallb_forall _ _) H i Hi).
Qed.

Lemma find_mem_nil (g : groups) : find (fun cg => mem (fst cg) []) g = None.
Proof. induction g as [|cg g IH]; [reflexivity | exact IH]. Qed.

(* inside the region of c the handler is the dictionary-level machine of Part 2 *)
Lemma junit_step_ev_decodable c s t w e h : texts_decodable_c c (e :: h) = true ->
  junit_step_ev_c c forward_all s t w [] e = lift_ev [] (junit_step false s t w (jevent_of e)).
Proof.
  intros He. apply andb_true_iff in He. destruct He as [He _].
  destruct e as [e| | |]; try reflexivity.
  cbn [junit_step_ev_c forward_all]. rewrite (bad_ids_nil c e He). cbn [app].
  destruct (sf_status e); try reflexivity. rewrite find_mem_nil. reflexivity.
Qed.

Lemma junit_from_ev_decodable c h : texts_decodable_c c h = true -> forall s t w,
  junit_from_ev_c c forward_all s t w [] h = lift_ev [] (junit_from false s t w (map jevent_of h)).
Proof.
  induction h as [|e h IH]; intros H s t w; [reflexivity|].
  cbn [junit_from_ev_c junit_from map]. rewrite (junit_step_ev_decodable c s t w e h H).
  apply andb_true_iff in H. destruct H as [_ Hh].
  destruct (junit_step false s t w (jevent_of e)); cbn [lift_ev]; [reflexivity | apply IH, Hh].
Qed.

Lemma junit_ev_never_crashes_c c h : texts_decodable_c c h = true ->
  exists s t w, junit_run_ev_c c forward_all h = RunningEv s t w [].
Proof.
  intros H. unfold junit_run_ev_c. rewrite (junit_from_ev_decodable c h H).
  destruct (junit_from_runs (map jevent_of h) stat0 [] None) as (s & t & w & Hr).
  rewrite Hr. exists s, t, w. reflexivity.
Qed.

Lemma texts_decodable_mono c1 c2 h : (forall x, c1 x = true -> c2 x = true) ->
  texts_decodable_c c1 h = true -> texts_decodable_c c2 h = true.
Proof.
  intros Hc. apply forallb_impl. intros [e| | |]; try reflexivity. apply forallb_impl. intros i.
  unfold text_raises_gen. destruct (text_exn_of i) as [x|]; [|reflexivity].
  destruct (c1 x) eqn:E; [rewrite (Hc x E); reflexivity | discriminate].
Qed.

Lemma texts_decodable_catch_all c h : (forall x, c x = true) -> texts_decodable_c c h = true.
Proof.
  intros Hc. apply forallb_forall. intros e _. destruct e as [e| | |]; try reflexivity.
  apply forallb_forall. intros i _. unfold text_raises_gen. destruct (text_exn_of i) as [x|]; [rewrite Hc|]; reflexivity.
Qed.

(* what the region of an except clause says, read on one interaction: a response was received and the clause lets
   through what its codec raises *)
Lemma text_raises_gen_meaning c i : text_raises_gen c i = true <->
  i_response i = true /\ match i_codec i with
                         | CodecOk => False
                         | CodecUnknown => c ExLookup = false
                         | CodecRaises => c ExUnicode = false
                         | CodecBadName => c ExValue = false
                         end.
Proof.
  unfold text_raises_gen, text_exn_of. destruct (i_response i); destruct (i_codec i); cbn [negb];
    rewrite ?negb_true_iff; intuition congruence.
Qed.


(* whenever the run is not aborted, the handler state is the state of the dictionary-level machine *)
Lemma junit_step_ev_running c s t w bad e s1 t1 w1 bad1 : junit_step_ev_c c forward_all s t w bad e = RunningEv s1 t1 w1 bad1 ->
  junit_step false s t w (jevent_of e) = Running s1 t1 w1.
Proof.
  assert (Hlift : forall b r, lift_ev b r = RunningEv s1 t1 w1 bad1 -> r = Running s1 t1 w1).
  { intros b [l|s' t' w'] H; [discriminate | injection H as <- <- <- _; reflexivity]. }
  destruct e as [e| | |]; cbn [junit_step_ev_c forward_all]; try apply Hlift.
  destruct (sf_status e); try apply Hlift. destruct (find _ _); [discriminate | apply Hlift].
Qed.

Lemma junit_from_ev_running c h : forall s t w bad s1 t1 w1 bad1, junit_from_ev_c c forward_all s t w bad h = RunningEv s1 t1 w1 bad1 ->
  junit_from false s t w (map jevent_of h) = Running s1 t1 w1.
Proof.
  induction h as [|e h IH]; intros s t w bad s1 t1 w1 bad1 H.
  - cbn in H. injection H as <- <- <- _. reflexivity.
  - cbn [junit_from_ev_c] in H. destruct (junit_step_ev_c c forward_all s t w bad e) as [a|s' t' w' bad'] eqn:Es; [discriminate|].
    cbn [map junit_from]. rewrite (junit_step_ev_running _ _ _ _ _ _ _ _ _ _ Es). apply (IH _ _ _ _ _ _ _ _ H).
Qed.

Lemma failure_labels_proj h : failure_labels (map jevent_of h) = failure_labels_ev h.
Proof.
  induction h as [|e h IH]; [reflexivity|].
  cbn [map]. destruct e as [e| | |]; cbn [jevent_of failure_labels failure_labels_ev]; try exact IH.
  destruct (sf_status e); cbn [recorder_of r_label]; rewrite IH; reflexivity.
Qed.

Lemma in_failure_labels_ev h e : In (FScenario e) h -> sf_status e = StFailure -> In (sf_rlabel e) (failure_labels_ev h).
Proof.
  intros Hin Hst. induction h as [|x h IH]; [destruct Hin|].
  destruct Hin as [->|Hin].
  - cbn [failure_labels_ev]. rewrite Hst. left. reflexivity.
  - specialize (IH Hin). destruct x as [x| | |]; cbn [failure_labels_ev]; try exact IH.
    destruct (sf_status x); try exact IH. right. exact IH.
Qed.

Lemma junit_ev_failure_reported_c c h s t w bad e : junit_run_ev_c c forward_all h = RunningEv s t w bad ->
  In (FScenario e) h -> sf_status e = StFailure -> has_failure (sf_rlabel e) t = true.
Proof.
  intros Hr Hin Hst. apply junit_from_ev_running in Hr.
  apply (junit_from_reports _ _ _ _ _ _ _ _ Hr). rewrite failure_labels_proj. apply in_failure_labels_ev; assumption.
Qed.

Definition ev_unit (l : label) (st : status) (cases : list case_rec) (ints : list inter) : sf_event :=
  {| sf_phase := PhFuzzing; sf_label := Some l; sf_status := st; sf_skip_reason := false; sf_is_final := false;
     sf_rlabel := l; sf_cases := cases; sf_inters := ints |}.
(* charset=bogus / charset=undefined: the witnesses of finding C16-F11 (caught since 22e8a9e1) *)
Definition h_bogus_failure : list fevent :=
  [FScenario (ev_unit 1 StFailure [{| c_id := 1; c_checks := [Some 7] |}] [i_bogus 1]); FEngineFinished].
Definition h_bogus_then_failure : list fevent :=
  [FScenario (ev_unit 1 StSuccess [{| c_id := 1; c_checks := [Some 7] |}] [i_undefined 1]);
   FScenario (ev_unit 1 StFailure [{| c_id := 2; c_checks := [Some 8] |}] [i_plain 2]); FEngineFinished].
(* a charset name with a NUL character: not caught (finding C16-F12) *)
Definition i_nul (n : N) : inter := {| i_id := n; i_userinfo := false; i_response := true; i_codec := CodecBadName; i_cookie_values := [] |}.
Definition h_nul_failure : list fevent :=
  [FScenario (ev_unit 1 StFailure [{| c_id := 1; c_checks := [Some 7] |}] [i_nul 1]); FEngineFinished].
Definition h_nul_then_failure : list fevent :=
  [FScenario (ev_unit 1 StSuccess [{| c_id := 1; c_checks := [Some 7] |}] [i_nul 1]);
   FScenario (ev_unit 1 StFailure [{| c_id := 2; c_checks := [Some 8] |}] [i_plain 2]); FEngineFinished].

Example junit_ev_region_nonvacuous :
  texts_decodable h_final_replay = true
  /\ texts_decodable [FScenario (ev_unit 1 StFailure [{| c_id := 1; c_checks := [Some 7] |}] [i_plain 1]); FScenario (ev_stateful true StFailure [{| c_id := 2; c_checks := [Some 7] |}] [i_neterr 2])] = true
  /\ texts_decodable [FScenario (ev_unit 1 StFailure [{| c_id := 1; c_checks := [Some 7] |}] [i_bogus 1; i_undefined 2]); FEngineFinished] = true
  /\ texts_decodable_old h_final_replay = true.
Proof. vm_compute. repeat split. Qed.

(* sentinel: a JUnit handler that passed over final scenarios *)
Definition h_final_failure : list fevent :=
  [FScenario (ev_stateful false StSuccess [{| c_id := 10; c_checks := [None] |}] [i_plain 10]);
   FScenario (ev_stateful true StFailure [{| c_id := 20; c_checks := [Some 7] |}] [i_plain 20]); FEngineFinished].
Definition reported (l : label) (r : jresult_ev) : bool :=
  match r with RunningEv _ t _ _ => has_failure l t | Aborted _ => false end.

Example all_events_nonvacuous :
  no_raising_codec_ev h_final_replay = true /\ NoDup (delivered_ev h_final_replay)
  /\ In (FScenario (ev_stateful true StError [] [i_plain 4; i_neterr 5])) h_final_replay.
Proof. split; [reflexivity|]. split; [apply final_replay_nodup|]. cbn; auto. Qed.
