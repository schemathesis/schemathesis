(* C16 property theorems, each followed by Print Assumptions.  They instantiate the lemmas and general theorems of
   Proofs_C16; what is proved here beyond that is the evaluation of a witness or a case analysis of one definition. *)
From Coq Require Import List NArith Bool Lia ZifyBool.
From Verif Require Import Common.Str C16.Model_C16 C16.Proofs_C16.
Import ListNotations.
Open Scope N_scope.

(* whatever Python string is written by write_double_quoted, PyYAML reads back exactly
   that string (is_unicode = the code points of a Python str, at most x10FFFF) *)
Theorem C16_dq_roundtrip : forall s, is_unicode s = true ->
  yaml_dq_decode (write_double_quoted s) = Some s.
Proof. intros s H. apply (dq_roundtrip_gen false), code_ok_all; [exact H | discriminate]. Qed.
Print Assumptions C16_dq_roundtrip.

(* the same through libyaml (CSafeLoader), which refuses escapes of lone surrogates *)
Theorem C16_dq_roundtrip_libyaml_partial : forall s, is_unicode s = true -> no_surrogates s = true ->
  yaml_dq_decode_strict (write_double_quoted s) = Some s.
Proof. intros s H1 H2. apply (dq_roundtrip_gen true), code_ok_all; [exact H1 | intros _; exact H2]. Qed.
Print Assumptions C16_dq_roundtrip_libyaml_partial.

Theorem C16_dq_roundtrip_libyaml_refuted : exists s, is_unicode s = true /\
  yaml_dq_decode_strict (write_double_quoted s) = None.
Proof. exists [0xD800]. split; vm_compute; reflexivity. Qed.
Print Assumptions C16_dq_roundtrip_libyaml_refuted.

(* the output is a single line of printable characters: no control character, no line
   break (LF CR NEL LS PS), no DEL, no BOM, for every list of numbers *)
Theorem C16_dq_single_line : forall s, forallb line_safe (write_double_quoted s) = true.
Proof.
  intros s. unfold write_double_quoted. cbn [forallb]. rewrite forallb_app, wdq_chars_safe. reflexivity.
Qed.
Print Assumptions C16_dq_single_line.

Theorem C16_line_safe_meaning : forall c, line_safe c = true ->
  printable c = true /\ is_break c = false /\ (32 <= c) /\ c <> 0x7F /\ c <> 0xFEFF.
Proof. intros c. unfold line_safe, printable, is_break, mem; cbn [existsb]. intros H. lia. Qed.
Print Assumptions C16_line_safe_meaning.

(* the index loop of the source (start / end / slices) computes the per character form
   the theorems above are about *)
Theorem C16_dq_loop_is_functional : forall s, write_double_quoted_loop s = write_double_quoted s.
Proof.
  intros s. unfold write_double_quoted_loop, write_double_quoted.
  rewrite wdq_loop_spec by lia. rewrite slice_empty. reflexivity.
Qed.
Print Assumptions C16_dq_loop_is_functional.

(* uri, command and the two encoding sites double the single quote (since commit 059139b3): the value is read back
   unchanged exactly when it is one line of printable characters - quotes, doubled quotes, leading and
   trailing quotes included *)
Theorem C16_sq_escaped_valid_iff : forall s, yaml_sq_decode (emit_sq_escaped s) = Some s <-> one_line s = true.
Proof. intros s. rewrite sq_escaped_decode. destruct (one_line s); split; congruence. Qed.
Print Assumptions C16_sq_escaped_valid_iff.

(* outside the region of that site: an unprintable character (a charset holding DEL, written with --report-preserve-bytes) *)
Theorem C16_sq_escaped_valid_refuted : exists s, is_unicode s = true /\ yaml_sq_decode (emit_sq_escaped s) = None.
Proof. exists [97; 127; 98]. split; vm_compute; reflexivity. Qed.
Print Assumptions C16_sq_escaped_valid_refuted.

(* the sites that write the value as it is (method, check name, id, status, ...): read back unchanged
   exactly when the value has no single quote (and no unprintable character / line break) *)
Theorem C16_sq_valid_iff_no_quote : forall s, yaml_sq_decode (emit_sq s) = Some s <-> sq_free s = true.
Proof. intros s. split; [apply sq_body_only_free | apply sq_body_free]. Qed.
Print Assumptions C16_sq_valid_iff_no_quote.

(* regression sentinel: the raw rule on a URL with quotes is not a scalar, a doubled quote reads back as one;
   the escaping rule reads both back verbatim *)
Theorem C16_sq_raw_rule_refuted :
  one_line url_with_quote = true
  /\ yaml_sq_decode (emit_sq url_with_quote) = None
  /\ yaml_sq_decode (emit_sq [97; 39; 39; 98]) = Some [97; 39; 98]
  /\ yaml_sq_decode (emit_sq_escaped url_with_quote) = Some url_with_quote
  /\ yaml_sq_decode (emit_sq_escaped [39; 97; 39; 39; 98; 39]) = Some [39; 97; 39; 39; 98; 39].
Proof.
  split; [reflexivity|]. split; [apply sq_refuted|]. split; [exact sq_refuted_silent|].
  split; rewrite sq_escaped_decode; reflexivity.
Qed.
Print Assumptions C16_sq_raw_rule_refuted.

(* header names between raw double quotes *)
Theorem C16_dq_raw_valid_partial : forall s, dq_raw_free s = true -> yaml_dq_decode (emit_dq_raw s) = Some s.
Proof. intros s. apply dq_raw_body. Qed.
Print Assumptions C16_dq_raw_valid_partial.

Theorem C16_dq_raw_valid_refuted : exists s t, yaml_dq_decode (emit_dq_raw s) = None /\
  yaml_dq_decode (emit_dq_raw t) <> Some t.
Proof. exists [88;45;65;34;120], [92; 110]. destruct dq_raw_refuted as [H1 H2]. split; [exact H1 | rewrite H2; discriminate]. Qed.
Print Assumptions C16_dq_raw_valid_refuted.

(* json.dumps (header values, reason phrase) read back as YAML: exact for every string of
   the Basic Multilingual Plane, in particular for all latin-1 text *)
Theorem C16_json_site_roundtrip_partial : forall s, is_bmp s = true -> yaml_dq_decode (json_dumps s) = Some s.
Proof. intros s. apply (dq_body_flat_map false json_char), json_char_body. Qed.
Print Assumptions C16_json_site_roundtrip_partial.

Theorem C16_json_site_roundtrip_refuted : exists s, is_unicode s = true /\ yaml_dq_decode (json_dumps s) <> Some s.
Proof. exists [0x1F600]. split; [reflexivity|]. rewrite (proj1 json_refuted). discriminate. Qed.
Print Assumptions C16_json_site_roundtrip_refuted.

(* a case without metadata glues null to the quoted status *)
Theorem C16_meta_none_refuted : sq_line_ok (status_line_tail MetaNone) = false /\
  sq_line_ok (status_line_tail MetaFuzzing) = true /\ sq_line_ok (status_line_tail MetaCoverage) = true.
Proof. repeat split. Qed.
Print Assumptions C16_meta_none_refuted.

(* the handler with failures.get(label, {}) (since commit 12c14c85) has no KeyError to raise, for every history; this is
   the dictionary-level machine, which does not render response texts (for those see the C16_junit_all_events theorems) *)
Theorem C16_junit_never_crashes : forall h, exists s t w, junit_run h = Running s t w.
Proof. intros h. apply junit_from_runs. Qed.
Print Assumptions C16_junit_never_crashes.

(* ... and every FAILURE-status scenario leaves at least one failure element in the test case of its label *)
Theorem C16_junit_failure_is_reported : forall h s t w l,
  junit_run h = Running s t w -> In l (failure_labels h) -> has_failure l t = true.
Proof. intros h s t w l. apply junit_from_reports. Qed.
Print Assumptions C16_junit_failure_is_reported.

Theorem C16_junit_region_satisfiable : exists h, fresh_failure_or_known_label h = true /\
  match junit_run h with
  | Running _ _ (Some t) => map fst t = [1; 2; 3; 4] /\ map (fun kv => length (t_failures (snd kv))) t = [2; 1; 0; 0]%nat
  | _ => False
  end.
Proof. exists h_fine. exact junit_fine. Qed.
Print Assumptions C16_junit_region_satisfiable.

(* regression sentinel: the handler with failures[label] (before commit 12c14c85) raises KeyError exactly on the
   histories outside the region; the witness is the failure found in fuzzing and again by the stateful phase *)
Theorem C16_junit_old_handler_crashes_iff : forall h, junit_crashes_old h = negb (fresh_failure_or_known_label h).
Proof. intros h. apply (junit_crash_iff h stat0 [] None [] [] junit_inv_init). Qed.
Print Assumptions C16_junit_old_handler_crashes_iff.

Theorem C16_junit_old_handler_never_crashes_partial : forall h, fresh_failure_or_known_label h = true ->
  exists s t w, junit_run_old h = Running s t w.
Proof.
  intros h H. pose proof (C16_junit_old_handler_crashes_iff h) as Hc. rewrite H in Hc. unfold junit_crashes_old in Hc.
  destruct (junit_run_old h) as [l|s t w]; [discriminate|]. eauto.
Qed.
Print Assumptions C16_junit_old_handler_never_crashes_partial.

Theorem C16_junit_old_handler_never_crashes_refuted : exists h l, junit_run_old h = Crash l.
Proof. exists h_rediscovered, 2. vm_compute; reflexivity. Qed.
Print Assumptions C16_junit_old_handler_never_crashes_refuted.

(* HAR: every interaction delivered through ScenarioFinished events is written exactly once, in order,
   and the file is closed - for every history, with or without sanitization (commit 8fd7266e) *)
Theorem C16_each_interaction_once_har : forall sanitize preserve h,
  written {| w_fmt := HAR; w_sanitize := sanitize; w_preserve := preserve |} h = (complete (delivered h), Closed).
Proof. intros sanitize preserve h. apply each_interaction_once, har_never_raises. Qed.
Print Assumptions C16_each_interaction_once_har.

(* the reason for HAR: _extract_cookies hands SimpleCookie single characters, which never form a key=value pair,
   so no CookieError can escape (and the cookies lists of the HAR file are always empty) *)
Theorem C16_har_cookie_pieces_never_raise : forall values, existsb cookie_error (flat_map pieces_now values) = false.
Proof. exact cookies_never_raise. Qed.
Print Assumptions C16_har_cookie_pieces_never_raise.

Theorem C16_har_cookies_always_empty : forall name d, har_cookies name d = [].
Proof.
  (* morsels_char of the model is constantly empty: SimpleCookie finds no morsel in a one-character string *)
  intros name d. unfold har_cookies.
  erewrite flat_map_ext; [apply flat_map_nil|]. intros v. exact (flat_map_nil v).
Qed.
Print Assumptions C16_har_cookies_always_empty.

(* sentinel: a comprehension repaired to iterate over header values (seeded C16_b) lets CookieError escape for a
   cookie named tenant/id when sanitization is off; the code as it is does not *)
Theorem C16_whole_value_cookies_would_raise :
  written_whole {| w_fmt := HAR; w_sanitize := false; w_preserve := false |} [CScenario [i_plain 1; i_cookie 2 c_tenant; i_plain 3]] = ([(1, true)], Died)
  /\ written_whole {| w_fmt := HAR; w_sanitize := true; w_preserve := false |} [CScenario [i_plain 1; i_cookie 2 c_tenant; i_plain 3]] = (complete [1; 2; 3], Closed)
  /\ written {| w_fmt := HAR; w_sanitize := false; w_preserve := false |} [CScenario [i_plain 1; i_cookie 2 c_tenant; i_plain 3]] = (complete [1; 2; 3], Closed).
Proof. vm_compute. repeat split. Qed.
Print Assumptions C16_whole_value_cookies_would_raise.

(* VCR: the same, unless a response names a codec that exists and raises on decode (since commit ad7dc72b an
   unknown charset falls back to utf8) *)
Theorem C16_each_interaction_once_partial : forall sanitize preserve h, no_raising_codec h = true ->
  written {| w_fmt := VCR; w_sanitize := sanitize; w_preserve := preserve |} h = (complete (delivered h), Closed).
Proof. intros sanitize preserve h H. apply each_interaction_once, vcr_no_raising_codec, H. Qed.
Print Assumptions C16_each_interaction_once_partial.

(* unconditionally: nothing is invented, duplicated or reordered *)
Theorem C16_written_is_prefix_of_delivered : forall w h, exists rest, delivered h = map fst (fst (written w h)) ++ rest.
Proof. intros w h. apply written_is_prefix. Qed.
Print Assumptions C16_written_is_prefix_of_delivered.

(* VCR with charset=undefined *)
Theorem C16_each_interaction_once_refuted : exists w h i, In i (delivered h) /\ ~ In i (map fst (fst (written w h))) /\
  snd (written w h) = Died.
Proof.
  exists vcr_default, [CScenario [i_plain 1; i_undefined 2; i_plain 3]], 3.
  destruct once_refuted_vcr as [H1 H2]. rewrite H1, H2. repeat split; [right; right; left; reflexivity|].
  cbn. intros [H|[H|[]]]; discriminate.
Qed.
Print Assumptions C16_each_interaction_once_refuted.

(* regression sentinel: the writers before commits 8fd7266e and ad7dc72b lost exchanges where the present ones do not *)
Theorem C16_old_writers_lost_exchanges : 
  written_old har_sanitized [CScenario [i_user 1]; CScenario [i_plain 2]] = ([], Died)
  /\ written har_sanitized [CScenario [i_user 1]; CScenario [i_plain 2]] = (complete [1; 2], Closed)
  /\ written_old vcr_default [CScenario [i_plain 1; i_bogus 2; i_plain 3]] = ([(1, true); (2, false)], Died)
  /\ written vcr_default [CScenario [i_plain 1; i_bogus 2; i_plain 3]] = (complete [1; 2; 3], Closed).
Proof. vm_compute. repeat split. Qed.
Print Assumptions C16_old_writers_lost_exchanges.

(* the writer loops carry Python locals (post_data, response, headers, checks, status) from one
   iteration to the next; whatever their values, the list of entries is the pointwise image of
   the delivered interactions *)
Theorem C16_entries_are_pointwise : forall preserve hv vv xs,
  har_loop preserve hv xs = map (har_entry preserve) xs /\ vcr_loop preserve vv xs = map (vcr_entry preserve) xs.
Proof. intros preserve hv vv xs. split; [apply har_loop_pointwise | apply vcr_loop_pointwise]. Qed.
Print Assumptions C16_entries_are_pointwise.

Theorem C16_entry_independent_of_history : forall preserve hv vv pre x post,
  nth_error (har_loop preserve hv (pre ++ x :: post)) (length pre) = Some (har_entry preserve x)
  /\ nth_error (vcr_loop preserve vv (pre ++ x :: post)) (length pre) = Some (vcr_entry preserve x).
Proof. intros preserve hv vv pre x post. rewrite har_loop_pointwise, vcr_loop_pointwise. split; apply nth_error_map_mid. Qed.
Print Assumptions C16_entry_independent_of_history.

Theorem C16_bodyless_request_has_no_body : forall preserve x, q_body (x_req x) = None ->
  he_post (har_entry preserve x) = None /\ ve_body (vcr_entry preserve x) = None.
Proof. intros preserve x H. unfold har_entry, vcr_entry, vcr_step, vcr_req_body. cbn. rewrite H. split; reflexivity. Qed.
Print Assumptions C16_bodyless_request_has_no_body.

(* queue of Initialize / Process / Finalize, a writer that takes one item at a time and may be arbitrarily slow,
   shutdown = put Finalize + join with a timeout that may expire at ANY point, then sys.exit: Click closes the
   handles it owns, the interpreter waits for a non-daemon writer and kills a daemon one.
   For every history, every interleaving and every point at which the join times out: once the process has
   exited, the file holds what the writer loop produces on the whole queue and the writer has ended in the
   state the loop ends in - for the non-daemon thread of the code as it is and report files of its own
   (--report / --report-dir) *)
Theorem C16_exit_flushes_backlog_partial : forall c w h sched,
  lc_daemon c = false -> report_dir_owned c = true ->
  lexited (lrun c w h sched) = true ->
  lresult (lrun c w h sched) = (fst (written w h), LEnded (snd (written w h))).
Proof. intros c w h sched Hd Ho. apply exit_complete. left. exact (conj Hd Ho). Qed.
Print Assumptions C16_exit_flushes_backlog_partial.

(* with the theorems about the loop: every delivered exchange is in the file, the footer is written *)
Theorem C16_report_complete_at_exit_har : forall sanitize preserve h sched,
  lexited (lrun lconf_report_dir {| w_fmt := HAR; w_sanitize := sanitize; w_preserve := preserve |} h sched) = true ->
  lresult (lrun lconf_report_dir {| w_fmt := HAR; w_sanitize := sanitize; w_preserve := preserve |} h sched) = (complete (delivered h), LEnded Closed).
Proof. intros sanitize preserve h sched. apply report_complete_at_exit, har_never_raises. Qed.
Print Assumptions C16_report_complete_at_exit_har.

Theorem C16_report_complete_at_exit_vcr_partial : forall sanitize preserve h sched, no_raising_codec h = true ->
  lexited (lrun lconf_report_dir {| w_fmt := VCR; w_sanitize := sanitize; w_preserve := preserve |} h sched) = true ->
  lresult (lrun lconf_report_dir {| w_fmt := VCR; w_sanitize := sanitize; w_preserve := preserve |} h sched) = (complete (delivered h), LEnded Closed).
Proof. intros sanitize preserve h sched H. apply report_complete_at_exit, vcr_no_raising_codec, H. Qed.
Print Assumptions C16_report_complete_at_exit_vcr_partial.

(* the hypothesis is satisfiable in the worst way: for every configuration and history the process does exit when
   the join times out with the WHOLE backlog still in the queue and nothing in the file *)
Theorem C16_exit_reachable_with_full_backlog : forall c w h,
  l_queue (lrun c w h (map (fun _ => SMain) (cassette_queue h) ++ [STimeout])) = cassette_queue h
  /\ l_out (lrun c w h (map (fun _ => SMain) (cassette_queue h) ++ [STimeout])) = []
  /\ lexited (lrun c w h (sched_full_backlog h)) = true.
Proof.
  intros c w h. rewrite lrun_full_backlog. split; [reflexivity|]. split; [reflexivity | apply full_backlog_exits].
Qed.
Print Assumptions C16_exit_reachable_with_full_backlog.

(* the code as it is with --report-vcr-path / --report-har-path (click.File handles): Click closes the handle at
   context teardown, the non-daemon writer dies on its next write: exchange 3 of three is lost, the writer Died *)
Theorem C16_exit_flushes_backlog_refuted : exists w h sched i,
  lexited (lrun lconf_report_path w h sched) = true /\ In i (delivered h)
  /\ ~ In i (map fst (fst (lresult (lrun lconf_report_path w h sched))))
  /\ snd (lresult (lrun lconf_report_path w h sched)) = LEnded Died.
Proof.
  exists vcr_default, h_three, sched_slow_writer, 3. vm_compute. repeat split; try reflexivity.
  - right; right; left; reflexivity.
  - intros [H|[]]. discriminate H.
Qed.
Print Assumptions C16_exit_flushes_backlog_refuted.

Theorem C16_click_owned_file_loses_backlog :
  delivered h_three = [1; 2; 3]
  /\ lexited (lrun lconf_report_path vcr_default h_three sched_slow_writer) = true
  /\ lresult (lrun lconf_report_path vcr_default h_three sched_slow_writer) = ([(1, true)], LEnded Died)
  /\ lresult (lrun lconf_report_path har_sanitized h_three sched_slow_writer) = ([(1, true)], LEnded Died)
  /\ lresult (lrun lconf_report_dir vcr_default h_three sched_slow_writer) = (complete [1; 2; 3], LEnded Closed)
  /\ lresult (lrun lconf_report_dir har_sanitized h_three sched_slow_writer) = (complete [1; 2; 3], LEnded Closed).
Proof. vm_compute. repeat split. Qed.
Print Assumptions C16_click_owned_file_loses_backlog.

(* every configuration, daemon or not, Click-owned or not: when no join timed out *)
Theorem C16_join_returned_then_complete_partial : forall c w h sched, join_never_timed_out sched = true ->
  lexited (lrun c w h sched) = true ->
  lresult (lrun c w h sched) = (fst (written w h), LEnded (snd (written w h))).
Proof. intros c w h sched H. apply exit_complete. right. exact H. Qed.
Print Assumptions C16_join_returned_then_complete_partial.

(* sentinel (seeded C16_c): were the writer a daemon thread, the same schedules would leave one exchange of three
   (or nothing at all) in the file, the thread killed in its backlog; the code as it is creates a non-daemon thread *)
Theorem C16_daemon_writer_would_lose_backlog :
  lexited (lrun lconf_daemon vcr_default h_three sched_slow_writer) = true
  /\ lresult (lrun lconf_daemon vcr_default h_three sched_slow_writer) = ([(1, true)], LKilled)
  /\ lresult (lrun lconf_daemon har_sanitized h_three sched_slow_writer) = ([(1, true)], LKilled)
  /\ lresult (lrun lconf_daemon vcr_default h_three (sched_full_backlog h_three)) = ([], LKilled)
  /\ lresult (lrun lconf_report_dir vcr_default h_three (sched_full_backlog h_three)) = (complete [1; 2; 3], LEnded Closed)
  /\ lc_daemon lconf_report_dir = false /\ lc_daemon lconf_report_path = false.
Proof. vm_compute. repeat split. Qed.
Print Assumptions C16_daemon_writer_would_lose_backlog.

(* C16_each_interaction_once_har / _partial over whole events: for every history of events with ANY phase, event label (or none),
   status, skip_reason, is_final and recorder, the file holds the interactions of every delivered recorder *)
Theorem C16_each_interaction_once_all_events_har : forall sanitize preserve h,
  written_ev {| w_fmt := HAR; w_sanitize := sanitize; w_preserve := preserve |} h = (complete (delivered_ev h), Closed).
Proof. intros sanitize preserve h. apply (written_by_rule forward_all), har_never_raises. Qed.
Print Assumptions C16_each_interaction_once_all_events_har.

Theorem C16_each_interaction_once_all_events_partial : forall sanitize preserve h, no_raising_codec_ev h = true ->
  written_ev {| w_fmt := VCR; w_sanitize := sanitize; w_preserve := preserve |} h = (complete (delivered_ev h), Closed).
Proof. intros sanitize preserve h H. apply (written_by_rule forward_all), vcr_no_raising_codec, no_raising_codec_proj, H. Qed.
Print Assumptions C16_each_interaction_once_all_events_partial.

(* the same read as a count: case ids unique in the run, then the id of every interaction of every delivered
   recorder occurs exactly once in the file, as a complete entry *)
Theorem C16_every_delivered_interaction_counted_once_har : forall sanitize preserve h e i,
  NoDup (delivered_ev h) -> In (FScenario e) h -> In i (sf_inters e) ->
  count_occ N.eq_dec (map fst (fst (written_ev {| w_fmt := HAR; w_sanitize := sanitize; w_preserve := preserve |} h))) (i_id i) = 1%nat
  /\ In (i_id i, true) (fst (written_ev {| w_fmt := HAR; w_sanitize := sanitize; w_preserve := preserve |} h)).
Proof. intros sanitize preserve h e i. apply counted_once, C16_each_interaction_once_all_events_har. Qed.
Print Assumptions C16_every_delivered_interaction_counted_once_har.

Theorem C16_every_delivered_interaction_counted_once_partial : forall sanitize preserve h e i, no_raising_codec_ev h = true ->
  NoDup (delivered_ev h) -> In (FScenario e) h -> In i (sf_inters e) ->
  count_occ N.eq_dec (map fst (fst (written_ev {| w_fmt := VCR; w_sanitize := sanitize; w_preserve := preserve |} h))) (i_id i) = 1%nat
  /\ In (i_id i, true) (fst (written_ev {| w_fmt := VCR; w_sanitize := sanitize; w_preserve := preserve |} h)).
Proof. intros sanitize preserve h e i H. apply counted_once, C16_each_interaction_once_all_events_partial, H. Qed.
Print Assumptions C16_every_delivered_interaction_counted_once_partial.

(* ANY rule by which handle_event might pass over some ScenarioFinished events is right exactly when the events it
   passes over carry no interaction *)
Theorem C16_forward_rule_complete_iff_har : forall fwd sanitize preserve h,
  written_ev_gen fwd {| w_fmt := HAR; w_sanitize := sanitize; w_preserve := preserve |} h = (complete (delivered_ev h), Closed)
  <-> lost_by fwd h = [].
Proof. intros fwd sanitize preserve h. apply rule_complete_iff, written_by_rule, har_never_raises. Qed.
Print Assumptions C16_forward_rule_complete_iff_har.

Theorem C16_forward_rule_complete_iff_partial : forall fwd sanitize preserve h, no_raising_codec_ev h = true ->
  (written_ev_gen fwd {| w_fmt := VCR; w_sanitize := sanitize; w_preserve := preserve |} h = (complete (delivered_ev h), Closed)
   <-> lost_by fwd h = []).
Proof. intros fwd sanitize preserve h H. apply rule_complete_iff, written_by_rule, vcr_no_raising_codec, no_raising_codec_proj, H. Qed.
Print Assumptions C16_forward_rule_complete_iff_partial.

(* sentinel (seeded C16_d): the rule that skips final scenarios silently loses the final replay of a failing stateful
   sequence; the code as it is (forward_all) writes all five exchanges *)
Theorem C16_skip_final_rule_refuted : exists w h e i,
  In (FScenario e) h /\ In i (sf_inters e) /\ NoDup (delivered_ev h)
  /\ ~ In (i_id i) (map fst (fst (written_ev_gen skip_final w h)))
  /\ snd (written_ev_gen skip_final w h) = Closed.
Proof.
  exists vcr_default, h_final_replay, (ev_stateful true StError [] [i_plain 4; i_neterr 5]), (i_plain 4).
  split; [cbn; auto|]. split; [cbn; auto|]. split; [apply final_replay_nodup|].
  split; [|vm_compute; reflexivity].
  vm_compute. intros H. repeat (destruct H as [H|H]; [discriminate|]). exact H.
Qed.
Print Assumptions C16_skip_final_rule_refuted.

Theorem C16_skip_final_rule_loses_final_replay :
  delivered_ev h_final_replay = [1; 2; 3; 4; 5] /\ NoDup (delivered_ev h_final_replay)
  /\ lost_by skip_final h_final_replay = [4; 5]
  /\ written_ev_gen skip_final vcr_default h_final_replay = (complete [1; 2; 3], Closed)
  /\ written_ev_gen skip_final har_sanitized h_final_replay = (complete [1; 2; 3], Closed)
  /\ written_ev vcr_default h_final_replay = (complete [1; 2; 3; 4; 5], Closed)
  /\ written_ev har_sanitized h_final_replay = (complete [1; 2; 3; 4; 5], Closed).
Proof. repeat split; try (vm_compute; reflexivity). apply final_replay_nodup. Qed.
Print Assumptions C16_skip_final_rule_loses_final_replay.

(* JUnit: the handler reads recorder.label, status and skip_reason - and, through format_failures, the TEXT of the
   responses of the failure groups stored under the label.  No event attribute makes it crash or pass over a failure.
   Since 22e8a9e1 format_failures catches (UnicodeError, LookupError) around response.text: unknown charsets and
   raising codecs (finding C16-F11) are inside the region.  Outside it is a charset NAME Python
   refuses before any lookup (NUL character: ValueError), finding C16-F12 *)
Theorem C16_junit_all_events_never_crashes_partial : forall h, texts_decodable h = true ->
  exists s t w, junit_run_ev h = RunningEv s t w [].
Proof. intros h. apply junit_ev_never_crashes_c. Qed.
Print Assumptions C16_junit_all_events_never_crashes_partial.

(* the region, read on one interaction: only a received response whose charset name is refused *)
Theorem C16_junit_region_meaning : forall i, text_raises i = true <-> (i_response i = true /\ i_codec i = CodecBadName).
Proof.
  intros i. unfold text_raises. rewrite text_raises_gen_meaning. destruct (i_codec i); cbn; intuition congruence.
Qed.
Print Assumptions C16_junit_region_meaning.

(* inside the region both halves hold together: the run goes on AND every FAILURE event is in the report *)
Theorem C16_junit_all_events_runs_and_reports_partial : forall h, texts_decodable h = true ->
  exists s t w, junit_run_ev h = RunningEv s t w []
    /\ forall e, In (FScenario e) h -> sf_status e = StFailure -> has_failure (sf_rlabel e) t = true.
Proof.
  intros h H. destruct (junit_ev_never_crashes_c _ h H) as (s & t & w & Hr). exists s, t, w. split; [exact Hr|].
  intros e. apply (junit_ev_failure_reported_c _ h s t w [] e Hr).
Qed.
Print Assumptions C16_junit_all_events_runs_and_reports_partial.

Theorem C16_junit_all_events_never_crashes_refuted : exists h a, junit_run_ev h = Aborted a.
Proof. exists h_nul_failure, (AbortText 1). vm_compute; reflexivity. Qed.
Print Assumptions C16_junit_all_events_never_crashes_refuted.

(* the witnesses: a failed check on a response whose charset name carries a NUL character aborts the run at once; a
   group stored by a SUCCESS-status event aborts it at the next FAILURE event of the label; the dictionary-level
   machine of Part 2 (C16_junit_never_crashes) does not see the response text and keeps running *)
Theorem C16_junit_aborts_on_undecodable_failure_text :
  texts_decodable h_nul_failure = false /\ junit_run_ev h_nul_failure = Aborted (AbortText 1)
  /\ junit_run_ev h_nul_then_failure = Aborted (AbortText 1)
  /\ (exists s t w, junit_run (map jevent_of h_nul_failure) = Running s t w).
Proof. repeat split; try (vm_compute; reflexivity). apply junit_from_runs. Qed.
Print Assumptions C16_junit_aborts_on_undecodable_failure_text.

(* for EVERY except clause around response.text: inside its own region the handler never aborts; a clause that lets
   nothing through (the complete repair) has every history in its region *)
Theorem C16_junit_any_catch_rule_never_crashes_partial : forall c h, texts_decodable_c c h = true ->
  exists s t w, junit_run_ev_c c forward_all h = RunningEv s t w [].
Proof. exact junit_ev_never_crashes_c. Qed.
Print Assumptions C16_junit_any_catch_rule_never_crashes_partial.

Theorem C16_junit_catch_all_rule_never_crashes : forall c h, (forall x, c x = true) ->
  exists s t w, junit_run_ev_c c forward_all h = RunningEv s t w [].
Proof. intros c h Hc. apply junit_ev_never_crashes_c, texts_decodable_catch_all, Hc. Qed.
Print Assumptions C16_junit_catch_all_rule_never_crashes.

(* sentinel for the handler before 22e8a9e1 (except UnicodeDecodeError): its region was every charset decodable; the
   repair only enlarged the region; on the two witnesses of C16-F11 (charset=bogus under a FAILURE event;
   charset=undefined under a SUCCESS event, then a FAILURE event of the label) the old clause aborts the run, the
   code as it is keeps running and writes the report with a failure element under the label *)
Theorem C16_junit_old_catch_rule_never_crashes_partial : forall h, texts_decodable_old h = true ->
  exists s t w, junit_run_ev_old h = RunningEv s t w [].
Proof. intros h. apply junit_ev_never_crashes_c. Qed.
Print Assumptions C16_junit_old_catch_rule_never_crashes_partial.

Theorem C16_junit_repair_enlarged_the_region : forall h, texts_decodable_old h = true -> texts_decodable h = true.
Proof. intros h. apply texts_decodable_mono. discriminate. Qed.
Print Assumptions C16_junit_repair_enlarged_the_region.

Theorem C16_junit_old_catch_rule_refuted : exists h a, texts_decodable h = true /\ junit_run_ev_old h = Aborted a.
Proof. exists h_bogus_failure, (AbortText 1). split; vm_compute; reflexivity. Qed.
Print Assumptions C16_junit_old_catch_rule_refuted.

Theorem C16_junit_old_catch_rule_aborted_on_unknown_charset :
  texts_decodable_old h_bogus_failure = false /\ texts_decodable h_bogus_failure = true
  /\ texts_decodable_old h_bogus_then_failure = false /\ texts_decodable h_bogus_then_failure = true
  /\ junit_run_ev_old h_bogus_failure = Aborted (AbortText 1)
  /\ junit_run_ev_old h_bogus_then_failure = Aborted (AbortText 1)
  /\ (exists s t w, junit_run_ev h_bogus_failure = RunningEv s t (Some w) [] /\ has_failure 1 w = true)
  /\ (exists s t w, junit_run_ev h_bogus_then_failure = RunningEv s t (Some w) [] /\ has_failure 1 w = true).
Proof.
  repeat split; try (vm_compute; reflexivity).
  - vm_compute. eexists _, _, _. split; reflexivity.
  - vm_compute. eexists _, _, _. split; reflexivity.
Qed.
Print Assumptions C16_junit_old_catch_rule_aborted_on_unknown_charset.

(* every history, no region: a run that was not aborted has a failure element for every FAILURE-status event *)
Theorem C16_junit_all_events_failure_is_reported : forall h s t w bad e, junit_run_ev h = RunningEv s t w bad ->
  In (FScenario e) h -> sf_status e = StFailure -> has_failure (sf_rlabel e) t = true.
Proof. intros h s t w bad e. apply junit_ev_failure_reported_c. Qed.
Print Assumptions C16_junit_all_events_failure_is_reported.

Theorem C16_junit_skip_final_would_miss_failure :
  failure_labels_ev h_final_failure = [2]
  /\ reported 2 (junit_run_ev h_final_failure) = true
  /\ reported 2 (junit_run_ev_gen skip_final h_final_failure) = false.
Proof. vm_compute. repeat split. Qed.
Print Assumptions C16_junit_skip_final_would_miss_failure.

(* the report at process exit (Part 5), over full events *)
Theorem C16_report_complete_at_exit_all_events_har : forall sanitize preserve h sched,
  lexited (lrun lconf_report_dir {| w_fmt := HAR; w_sanitize := sanitize; w_preserve := preserve |} (map (cevent_of forward_all) h) sched) = true ->
  lresult (lrun lconf_report_dir {| w_fmt := HAR; w_sanitize := sanitize; w_preserve := preserve |} (map (cevent_of forward_all) h) sched)
  = (complete (delivered_ev h), LEnded Closed).
Proof.
  intros sanitize preserve h sched Hex. rewrite <- (delivered_proj forward_all).
  apply report_complete_at_exit; [apply har_never_raises | exact Hex].
Qed.
Print Assumptions C16_report_complete_at_exit_all_events_har.
