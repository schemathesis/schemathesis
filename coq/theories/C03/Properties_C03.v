(* C03 property theorems, each followed by Print Assumptions.  A fact about one definition of Model_C03 that the proof file
   itself needs is a lemma of Proofs_C03 and is cited here; one that only theorems of this file use is proved under the first
   of them and cited by the others, so that every statement stands once.  Witnesses are checked by evaluation where they are
   stated.  F1 .. F11 are the findings of notes/C03.md. *)
From Coq Require Import List NArith ZArith Bool Lia.
From Verif Require Import C03.Model_C03 C03.Proofs_C03.
Import ListNotations.
Open Scope Z_scope.

(* numbers: every value of the positive plan that is not the author's own example/default conforms to the numeric
   keywords, outside three regions.  Maximum 0 is not one of them: since commit 0b606a31 no truthiness test of a 0 bound
   decides about a checked value ("not minimum and not maximum" only chooses whether the foreign default is drawn,
   "smaller > 0" only drops a value) *)
Theorem C03_positive_numbers_valid_partial : forall s ok v d,
  numeric_exclusive s = true -> exclusive_dominates s = true ->
  multiple_satisfiable s = true ->
  In (Some v, d) (fst (positive_number_plan s ok)) -> authored d = false ->
  num_valid s v = true.
Proof. exact positive_plan_valid. Qed.
Print Assumptions C03_positive_numbers_valid_partial.

(* F1, sentinel: the planner before commit 0b606a31, with the guard "not maximum or larger <= maximum", yields 1 for
   minimum 0, maximum 0; the code does not *)
Theorem C03_legacy_max_zero_guard_refuted : exists s v d,
  In (Some v, d) (fst (positive_number_plan_legacy s true)) /\ authored d = false /\ num_valid s v = false
  /\ numeric_exclusive s = true /\ exclusive_dominates s = true /\ multiple_satisfiable s = true
  /\ max_not_zero_with_min s = false
  /\ fst (positive_number_plan s true) = [(None, DValid); (Some 0, DMinimum)].
Proof. exists w_zero, 1, DNear. vm_compute. intuition. Qed.
Print Assumptions C03_legacy_max_zero_guard_refuted.

(* a 0 bound together with a step (minimum -1, maximum 0, multipleOf 5): the legacy planner yields 5,
   the repaired one only the valid 0 *)
Theorem C03_zero_bound_with_step_repaired : exists s,
  fst (positive_number_plan s true) = [(Some 0, DMinimum)] /\
  In (Some 5, DNear) (fst (positive_number_plan_legacy s true)).
Proof. exists w_zero_step. vm_compute. intuition. Qed.
Print Assumptions C03_zero_bound_with_step_repaired.

(* each region is needed: outside it the statement is false of the code.  F2: minimum 5, exclusiveMinimum true
   (OpenAPI 3.0) yields 2 *)
Theorem C03_positive_numbers_valid_refuted_bool_exclusive : exists s v d,
  In (Some v, d) (fst (positive_number_plan s true)) /\ authored d = false /\ num_valid s v = false
  /\ multiple_satisfiable s = true.
Proof. exists w_bool, 2, DMinimum. vm_compute. intuition. Qed.
Print Assumptions C03_positive_numbers_valid_refuted_bool_exclusive.

(* F2 again, inside every other region: minimum 2, exclusiveMinimum true yields 2 *)
Theorem C03_positive_numbers_valid_refuted_bool_exclusive_only : exists s v d,
  In (Some v, d) (fst (positive_number_plan s true)) /\ authored d = false /\ num_valid s v = false
  /\ exclusive_dominates s = true /\ multiple_satisfiable s = true.
Proof. exists w_bool2, 2, DMinimum. vm_compute. intuition. Qed.
Print Assumptions C03_positive_numbers_valid_refuted_bool_exclusive_only.

(* F3: 5..7 multipleOf 4 yields 8 (and 4) *)
Theorem C03_positive_numbers_valid_refuted_no_multiple : exists s v d,
  In (Some v, d) (fst (positive_number_plan s true)) /\ authored d = false /\ num_valid s v = false
  /\ numeric_exclusive s = true /\ exclusive_dominates s = true.
Proof. exists w_mult, 8, DMinimum. vm_compute. intuition. Qed.
Print Assumptions C03_positive_numbers_valid_refuted_no_multiple.

(* F4: minimum 10, exclusiveMinimum 3 yields 4 *)
Theorem C03_positive_numbers_valid_refuted_both_bounds : exists s v d,
  In (Some v, d) (fst (positive_number_plan s true)) /\ authored d = false /\ num_valid s v = false
  /\ numeric_exclusive s = true /\ multiple_satisfiable s = true.
Proof. exists w_both, 4, DMinimum. vm_compute. intuition. Qed.
Print Assumptions C03_positive_numbers_valid_refuted_both_bounds.

Theorem C03_positive_numbers_hypotheses_satisfiable : exists s,
  numeric_exclusive s = true /\ exclusive_dominates s = true /\
  multiple_satisfiable s = true /\
  fst (positive_number_plan s true) = [(Some 4, DMinimum); (Some 8, DNear); (Some 20, DMaximum); (Some 16, DNear)].
Proof. exists w_good. vm_compute. intuition. Qed.
Print Assumptions C03_positive_numbers_hypotheses_satisfiable.

(* numbers: every value yielded for a numeric key violates that key, for all
   key orders and all contents of the shared seen set *)
Theorem C03_negative_numbers_invalid_partial : forall keys seen v d k,
  forallb numeric_key keys = true ->
  In (Some v, d, k) (negative_numbers keys seen) -> In k keys /\ violates k v = true.
Proof.
  intros keys seen v d k Hk Hin. destruct (negative_numbers_in _ _ _ _ _ Hin) as [Hkin Hv].
  split; [exact Hkin|]. apply derived_value_violates; [exact (forallb_in _ _ _ Hk Hkin)|symmetry; exact Hv].
Qed.
Print Assumptions C03_negative_numbers_invalid_partial.

Theorem C03_negative_numbers_invalid_refuted : exists keys v d k,
  In (Some v, d, k) (negative_numbers keys []) /\ violates k v = false.
Proof. exists [KMinimum 5; KExMin (PBool true)], (PBool true), NSmaller, (KExMin (PBool true)). vm_compute. intuition. Qed.
Print Assumptions C03_negative_numbers_invalid_refuted.

(* strings: every length range requested from the generator lies inside the
   declared [minLength, maxLength] and is non-empty, for satisfiable ranges *)
Theorem C03_lengths_in_range_partial : forall s d lo hi,
  range_ok (s_min s) (s_max s) = true ->
  In (d, lo, hi) (string_plan s) -> within (s_min s) (s_max s) lo hi = true.
Proof. intros s d lo hi Hr Hin. pose proof (string_plan_within s Hr) as H. rewrite Forall_forall in H. exact (H _ Hin). Qed.
Print Assumptions C03_lengths_in_range_partial.

(* the region is needed (the strings' counterpart of F3): minLength 3, maxLength 0 plans a string of length 3 *)
Theorem C03_lengths_in_range_refuted : exists s d lo hi,
  In (d, lo, hi) (string_plan s) /\ within (s_min s) (s_max s) lo hi = false.
Proof. exists w_str, SMinimum, (Some 3), (Some 3). vm_compute. intuition. Qed.
Print Assumptions C03_lengths_in_range_refuted.

Theorem C03_lengths_hypotheses_satisfiable : exists s,
  range_ok (s_min s) (s_max s) = true /\
  string_plan s = [(SMinimum, Some 2, Some 2); (SNear, Some 3, Some 3); (SMaximum, Some 5, Some 5); (SNear, Some 4, Some 4)].
Proof. exists w_str_ok. vm_compute. intuition. Qed.
Print Assumptions C03_lengths_hypotheses_satisfiable.

(* the length requested for a negative string violates the bound it is described by *)
Theorem C03_negative_lengths_violate : forall v l,
  (negative_min_length v = Some l -> 0 <= l < v) /\ (negative_max_length v = Some l -> v < l).
Proof.
  intros v l. unfold negative_min_length, negative_max_length, BUFFER_SIZE. split.
  - destruct (Z.ltb_spec 0 v), (Z.ltb_spec v 8192); intros E; inversion E; lia.
  - destruct (Z.ltb_spec v 8192); intros E; inversion E; lia.
Qed.
Print Assumptions C03_negative_lengths_violate.

(* arrays: the same for sizes; L is the size of the template array drawn by
   the foreign generator, assumed inside the declared range *)
Theorem C03_sizes_in_range_partial : forall s L d lo hi,
  range_ok (a_min s) (a_max s) = true ->
  within (a_min s) (a_max s) (Some L) (Some L) = true ->
  In (d, lo, hi) (array_plan s L) -> within (a_min s) (a_max s) lo hi = true.
Proof. intros s L d lo hi Hr HL Hin. exact (proj1 (Forall_forall _ _) (array_plan_within s L Hr HL) _ Hin). Qed.
Print Assumptions C03_sizes_in_range_partial.

(* the same for the arrays themselves, for ALL non-negative bounds (0/0, 0/n, n/n included): whatever size n the
   foreign generator returns for a planned request (contract: n lies in the request), minItems <= n <= maxItems *)
Theorem C03_positive_array_sizes_valid_partial : forall s L d lo hi n,
  range_ok (a_min s) (a_max s) = true ->
  arr_size_valid s L = true ->
  In (d, lo, hi) (array_plan s L) -> size_in_request lo hi n = true ->
  arr_size_valid s n = true.
Proof.
  intros s L d lo hi n Hr HL Hin Hn. apply (within_size_valid s lo hi n); [|exact Hn].
  exact (proj1 (Forall_forall _ _) (array_plan_within s L Hr (size_valid_within s L HL)) _ Hin).
Qed.
Print Assumptions C03_positive_array_sizes_valid_partial.

Theorem C03_sizes_in_range_refuted : exists s L d lo hi,
  In (d, lo, hi) (array_plan s L) /\ within (a_min s) (a_max s) lo hi = false.
Proof. exists w_arr, 3, AMaximum, (Some 1), (Some 1). vm_compute. intuition. Qed.
Print Assumptions C03_sizes_in_range_refuted.

Theorem C03_sizes_hypotheses_satisfiable : exists s,
  range_ok (a_min s) (a_max s) = true /\
  array_plan s 1 = [(AValid, Some 1, Some 1); (ANear, Some 2, Some 2); (AMaximum, Some 4, Some 4); (ANear, Some 3, Some 3)].
Proof. exists w_arr_ok. vm_compute. intuition. Qed.
Print Assumptions C03_sizes_hypotheses_satisfiable.

(* maxItems 0, minItems absent or an explicit 0: only the (empty) template is planned *)
Theorem C03_sizes_max_zero_only_template : forall s,
  a_max s = Some 0 -> (a_min s = None \/ a_min s = Some 0) -> a_authored s = false ->
  array_plan s 0 = [(AValid, Some 0, Some 0)].
Proof.
  intros [mn mx au] Hmx Hmn Hau. cbn [a_min a_max a_authored] in *. subst mx au.
  destruct Hmn as [Hmn|Hmn]; subst mn; reflexivity.
Qed.
Print Assumptions C03_sizes_max_zero_only_template.

(* non-vacuity at the zero / equal bounds: minItems 0 maxItems 0 satisfies the hypotheses; 0/1, 2/2, 0/absent *)
Theorem C03_sizes_zero_bounds_examples : exists s s',
  a_min s = Some 0 /\ a_max s = Some 0 /\ a_min s' = None /\ a_max s' = Some 0 /\
  range_ok (a_min s) (a_max s) = true /\ arr_size_valid s 0 = true /\
  array_plan s 0 = [(AValid, Some 0, Some 0)] /\
  array_plan s' 0 = [(AValid, Some 0, Some 0)] /\
  array_plan {| a_min := Some 0; a_max := Some 1; a_authored := false |} 0 = [(AValid, Some 0, Some 0); (ANear, Some 1, Some 1)] /\
  array_plan {| a_min := Some 2; a_max := Some 2; a_authored := false |} 2 = [(AValid, Some 2, Some 2)] /\
  array_plan {| a_min := Some 0; a_max := None; a_authored := false |} 0 = [(AValid, Some 0, Some 0); (ANear, Some 1, Some 1)].
Proof. exists w_arr_zero, w_arr_zero_nomin. vm_compute. intuition. Qed.
Print Assumptions C03_sizes_zero_bounds_examples.

(* sentinel (not the code): the planner with the truthiness guard "not max_items or larger <= max_items"
   requests a one-item array for minItems 0 / maxItems 0 (inside the hypotheses of the theorem above), which is
   outside the declared bounds; the code as it is (max_items is None) plans the template only; the two planners
   differ on maxItems 0 only *)
Theorem C03_array_falsy_max_guard_refuted : exists s L d lo hi n,
  In (d, lo, hi) (array_plan_falsy_max s L)
  /\ range_ok (a_min s) (a_max s) = true /\ arr_size_valid s L = true
  /\ size_in_request lo hi n = true /\ arr_size_valid s n = false
  /\ array_plan s L = [(AValid, Some 0, Some 0)].
Proof. exists w_arr_zero, 0, ANear, (Some 1), (Some 1), 1. vm_compute. intuition. Qed.
Print Assumptions C03_array_falsy_max_guard_refuted.

Theorem C03_array_falsy_max_guard_differs_only_at_zero : forall s L,
  a_max s <> Some 0 -> array_plan_falsy_max s L = array_plan s L.
Proof.
  intros [mn mx au] L H.
  unfold array_plan_falsy_max, array_plan, array_plan_with, upper_absent_falsy, upper_absent_is_none, truthy.
  cbn [a_min a_max a_authored] in *.
  destruct mx as [M|]; [|reflexivity].
  destruct (Z.eqb_spec M 0) as [->|E]; [exfalso; apply H; reflexivity|]. reflexivity.
Qed.
Print Assumptions C03_array_falsy_max_guard_differs_only_at_zero.

(* cases: the case is labelled negative exactly when one of the values it
   carries is negative or it is a missing-required / duplicate / unexpected-method
   case.  True when every value the template is built from is positive, except for
   the 2nd..n-th value of a body ... *)
Theorem C03_case_label_iff_partial : forall sh c,
  In c (fst (coverage_cases sh)) ->
  is_body_tail (c_kind c) = false ->
  template_positive sh = true ->
  (c_mode c = Neg <-> (has_neg_part c = true \/ structural (c_kind c) = true)).
Proof. intros sh c Hin Hk Htp. exact (case_label_iff sh c Hin (or_introl (conj Htp Hk))). Qed.
Print Assumptions C03_case_label_iff_partial.

(* ... and for every case, body tails included, in negative-only generation *)
Theorem C03_case_label_iff_negative_only : forall sh c,
  In c (fst (coverage_cases sh)) ->
  all_modes_neg sh = true ->
  (c_mode c = Neg <-> (has_neg_part c = true \/ structural (c_kind c) = true)).
Proof. intros sh c Hin Han. exact (case_label_iff sh c Hin (or_intror Han)). Qed.
Print Assumptions C03_case_label_iff_negative_only.

(* F5: the 2nd..n-th value of a body inherits the case label of the first value *)
Theorem C03_case_label_iff_refuted_body_tail : exists sh c,
  In c (fst (coverage_cases sh)) /\ template_positive sh = true /\
  c_mode c = Pos /\ has_neg_part c = true.
Proof. exists sh_tail, c_tail. vm_compute. intuition. Qed.
Print Assumptions C03_case_label_iff_refuted_body_tail.

(* F6: a parameter whose first value is negative puts that value into every case *)
Theorem C03_case_label_iff_refuted_template : exists sh c,
  In c (fst (coverage_cases sh)) /\ is_body_tail (c_kind c) = false /\
  c_mode c = Pos /\ has_neg_part c = true.
Proof. exists sh_tmpl, c_tmpl. vm_compute. intuition. Qed.
Print Assumptions C03_case_label_iff_refuted_template.

Theorem C03_case_label_hypotheses_satisfiable : exists sh,
  template_positive sh = true /\ length (fst (coverage_cases sh)) = 10%nat /\ snd (coverage_cases sh) = Completed.
Proof. exists sh_ok. vm_compute. intuition. Qed.
Print Assumptions C03_case_label_hypotheses_satisfiable.

Theorem C03_case_label_negative_only_satisfiable : exists sh,
  all_modes_neg sh = true /\ length (fst (coverage_cases sh)) = 6%nat.
Proof. exists sh_negonly. vm_compute. intuition. Qed.
Print Assumptions C03_case_label_negative_only_satisfiable.

(* the exact shape of F5: the j-th value (j >= 1) of the i-th body is sent in a case whose
   label is the label m0 of the first value, while the body component carries its own label mj *)
Theorem C03_body_tail_inherits_first : forall sh c i j,
  In c (fst (coverage_cases sh)) -> c_kind c = KBodyTail i j ->
  exists b m0 tl mj,
    nth_error (sh_bodies sh) i = Some b /\ b_modes b = m0 :: tl /\ (1 <= j)%nat /\ nth_error tl (j - 1) = Some mj /\
    c_mode c = m0 /\ comp_get CBody (c_comps c) = Some mj.
Proof.
  intros sh c i j Hin Hk.
  assert (Ht : is_body_tail (c_kind c) = true) by (rewrite Hk; reflexivity).
  apply cases_pieces in Hin. destruct Hin as [Hin|Hin]; [|apply later_cases_kind in Hin; congruence].
  unfold body_stage in Hin. destruct (sh_bodies sh) as [|b0 r].
  - cbn [snd] in Hin. destruct (sh_pos sh); [|destruct Hin]. destruct Hin as [<-|[]]. discriminate Hk.
  - apply body_cases_shape in Hin. destruct Hin as (k & b & m0 & tl & Hn & Em & [->|(j' & mj & Hj & Hmj & ->)]); [discriminate Hk|].
    injection Hk as -> ->. exists b, m0, tl, mj.
    repeat split; try assumption. apply comp_get_set.
Qed.
Print Assumptions C03_body_tail_inherits_first.

(* anyOf / oneOf over numeric branches: a yielded value violates the branch it was derived
   from (for all branch lists, key orders and seen sets) ... *)
Theorem C03_anyof_negative_partial : forall bs seen i v d k,
  forallb (forallb numeric_key) bs = true ->
  In (i, (Some v, d, k)) (anyof_negative_numbers bs seen) ->
  exists b, nth_error bs i = Some b /\ In k b /\ violates k v = true.
Proof.
  intros bs seen i v d k Hn Hin.
  destruct (anyof_negative_numbers_in _ _ _ _ Hin) as (b & seen' & Hb & Hit). exists b. split; [exact Hb|].
  exact (C03_negative_numbers_invalid_partial _ _ _ _ _ (forallb_in _ _ _ Hn (nth_error_In _ _ Hb)) Hit).
Qed.
Print Assumptions C03_anyof_negative_partial.

(* F7: ... but the sibling branches are not consulted: the value may conform to the anyOf *)
Theorem C03_anyof_negative_refuted : exists bs i v d k,
  In (i, (Some v, d, k)) (anyof_negative_numbers bs []) /\ existsb (fun b => conforms b v) bs = true.
Proof. exists [[KMinimum 5]; [KMaximum 10]], O, (PInt 4), NSmaller, (KMinimum 5). vm_compute. intuition. Qed.
Print Assumptions C03_anyof_negative_refuted.

(* positive values under anyOf / oneOf over numeric branches (each branch planned on its own, siblings not
   consulted): when every branch is inside the regions of the positive-number theorem, a non-authored value conforms
   to its own branch, hence to the anyOf; under oneOf it conforms when no sibling accepts it as well *)
Theorem C03_anyof_positive_partial : forall bs ok i v d,
  forallb branch_in_regions bs = true ->
  In (i, (Some v, d)) (combined_positive_numbers bs ok) -> authored d = false ->
  anyof_valid bs v = true.
Proof.
  intros bs ok i v d Hreg Hin Hau.
  destruct (combined_positive_own_branch _ _ _ _ _ Hreg Hin Hau) as (b & Hn & Hv).
  unfold anyof_valid. apply existsb_exists. exists b. split; [eapply nth_error_In; exact Hn|exact Hv].
Qed.
Print Assumptions C03_anyof_positive_partial.

Theorem C03_oneof_positive_partial : forall bs ok i v d,
  forallb branch_in_regions bs = true ->
  In (i, (Some v, d)) (combined_positive_numbers bs ok) -> authored d = false ->
  others_reject bs i v = true ->
  oneof_valid bs v = true.
Proof.
  intros bs ok i v d Hreg Hin Hau Ho.
  destruct (combined_positive_own_branch _ _ _ _ _ Hreg Hin Hau) as (b & Hn & Hv).
  unfold oneof_valid. rewrite (others_reject_count _ _ _ _ Hn Hv Ho). reflexivity.
Qed.
Print Assumptions C03_oneof_positive_partial.

(* F10: ... and the hypothesis is needed: oneOf [minimum -5, maximum 0] [maximum -3] yields -5 as the positive
   Minimum value of the first branch although it conforms to both branches, i.e. not to the oneOf *)
Theorem C03_oneof_positive_refuted : exists bs i v d,
  In (i, (Some v, d)) (combined_positive_numbers bs true) /\ authored d = false
  /\ forallb branch_in_regions bs = true /\ oneof_valid bs v = false /\ anyof_valid bs v = true.
Proof. exists w_oneof, O, (-5), DMinimum. vm_compute. intuition. Qed.
Print Assumptions C03_oneof_positive_refuted.

Theorem C03_oneof_positive_hypotheses_satisfiable : exists bs,
  forallb branch_in_regions bs = true /\
  combined_positive_numbers bs true =
    [(O, (Some 1, DMinimum)); (O, (Some 2, DNear)); (O, (Some 3, DMaximum));
     (1%nat, (Some 7, DMinimum)); (1%nat, (Some 8, DNear)); (1%nat, (Some 9, DMaximum))] /\
  forallb (fun x => match snd x with (Some v, _) => others_reject bs (fst x) v | _ => true end)
          (combined_positive_numbers bs true) = true.
Proof. exists w_oneof_ok. vm_compute. intuition. Qed.
Print Assumptions C03_oneof_positive_hypotheses_satisfiable.

(* object / array wrappers (_negative_properties, _negative_pattern_properties, _negative_items,
   _negative_required, additionalProperties: false), for every context, every key order and all
   sub-schemas whose own generator respects the requested modes: whatever they yield as NegativeValue
   wraps a NEGATIVE value of the sub-schema or is a structural violation; nothing is yielded unless
   NEGATIVE is requested.  Labels of sub-values are never flipped. *)
Theorem C03_object_wrappers_keep_labels : forall c template_ok keys it,
  forallb key_respects_modes keys = true ->
  In it (object_negatives c template_ok keys) ->
  snd c = true /\ oi_label it = Neg /\ (oi_sub it = Some Neg \/ oi_sub it = None).
Proof.
  intros c tok keys it H Hin. unfold object_negatives in Hin.
  destruct (snd c); [|destruct Hin]. split; [reflexivity|].
  apply in_flat_map in Hin. destruct Hin as (k & Hk & Hin).
  exact (object_key_negatives_labels c tok k it (forallb_in _ _ _ H Hk) Hin).
Qed.
Print Assumptions C03_object_wrappers_keep_labels.

(* the statement is about the context switch: iterating the sub-schema with the caller's context
   (both modes) wraps a positive sub-value as negative; and the theorem is not vacuous (8 items) *)
Theorem C03_object_wrappers_need_negative_context :
  In {| oi_label := Neg; oi_via := WPatternProperty 0; oi_sub := Some Pos |} (wrap_all_callers_ctx (true, true) WPatternProperty [sub_string])
  /\ sub_respects_modes sub_string = true
  /\ length (object_negatives (true, true) true [OKProperties [sub_string]; OKPatternProperties [sub_string]; OKRequired 1; OKAdditional AddlFalse]) = 8%nat.
Proof. vm_compute. intuition. Qed.
Print Assumptions C03_object_wrappers_need_negative_context.

(* the "Object with unexpected properties" value is built exactly when additionalProperties is falsy
   in Python; unless it is the empty schema, that means additional properties are forbidden ... *)
Theorem C03_additional_negative_partial : forall c template_ok a it,
  a <> AddlEmptySchema -> In it (object_negatives c template_ok [OKAdditional a]) -> addl_forbids a = true.
Proof.
  intros c tok a it Ha Hin. unfold object_negatives in Hin. destruct (snd c); [|destruct Hin].
  cbn [flat_map object_key_negatives app] in Hin. destruct a; cbn in Hin; [reflexivity|congruence|destruct Hin].
Qed.
Print Assumptions C03_additional_negative_partial.

(* F9: ... additionalProperties: {} allows everything and still gets the negative value *)
Theorem C03_additional_negative_refuted : exists c a it,
  In it (object_negatives c true [OKAdditional a]) /\ oi_label it = Neg /\ addl_forbids a = false.
Proof.
  exists (true, true), AddlEmptySchema, {| oi_label := Neg; oi_via := WAdditional; oi_sub := None |}.
  destruct additional_negative_refuted as [E F]. rewrite E. split; [left; reflexivity|split; [reflexivity|exact F]].
Qed.
Print Assumptions C03_additional_negative_refuted.

(* _positive_object: the objects built by dropping optional properties keep at least
   minProperties properties when the required ones alone suffice ... *)
Theorem C03_object_subset_sizes_partial : forall r o extra minp d n,
  (minp <= r)%nat -> In (d, n) (object_subset_sizes r o extra) -> (minp <= n)%nat.
Proof.
  intros r o extra minp d n Hr Hin. unfold object_subset_sizes in Hin.
  apply in_app_or in Hin. destruct Hin as [Hin|Hin].
  - destruct (Nat.eqb o 1 && negb extra); [destruct Hin|]. apply in_map_iff in Hin. destruct Hin as (x & H & _). inversion H. lia.
  - apply in_app_or in Hin. destruct Hin as [Hin|Hin].
    + apply in_map_iff in Hin. destruct Hin as (x & H & _). inversion H. lia.
    + destruct (Nat.eqb o 0); [destruct Hin|]. destruct Hin as [H|[]]. inversion H. lia.
Qed.
Print Assumptions C03_object_subset_sizes_partial.

(* F8: ... and not otherwise: minProperties is never consulted *)
Theorem C03_object_subset_sizes_refuted : exists r o minp d n,
  In (d, n) (object_subset_sizes r o false) /\ (n < minp)%nat.
Proof. exists 0%nat, 2%nat, 1%nat, OOnlyRequired, 0%nat. vm_compute. intuition. Qed.
Print Assumptions C03_object_subset_sizes_refuted.

Theorem C03_object_subset_sizes_nonvacuous :
  object_subset_sizes 1 3 false = [(OOneOptional, 2%nat); (OOneOptional, 2%nat); (OOneOptional, 2%nat); (OSubset, 3%nat); (OOnlyRequired, 1%nat)].
Proof. reflexivity. Qed.
Print Assumptions C03_object_subset_sizes_nonvacuous.

(* parameters are identified by (name, location): the subschemas of the combination blocks
   (_combination_schema, handed to _yield_negative) *)
(* every subschema belongs to query, header or cookie; each of its properties carries the schema of a
   parameter DECLARED AT THAT LOCATION under that name, each required name is declared required there *)
Theorem C03_combo_subschemas_declared_at_location : forall (S : Type) pos neg (params : list (dparam S)) ss,
  In ss (combo_plan CacheNone pos neg params) ->
  (ss_loc ss = LQuery \/ ss_loc ss = LHeader \/ ss_loc ss = LCookie)
  /\ (forall n s, In (n, s) (ss_props ss) ->
        exists p, (In p params /\ dp_loc p = ss_loc ss /\ dp_name p = n) /\ dp_schema p = s)
  /\ (forall n, In n (ss_required ss) ->
        exists p, (In p params /\ dp_loc p = ss_loc ss /\ dp_name p = n) /\ dp_required p = true).
Proof.
  intros S pos neg params ss.
  unfold combo_plan. intros Hin.
  apply in_app_or in Hin. destruct Hin as [Hin|Hin]; [|apply in_app_or in Hin; destruct Hin as [Hin|Hin]];
    apply combo_subschemas_for_none_in in Hin; destruct Hin as (Hl & Hp & Hr); rewrite Hl; (split; [tauto|split; assumption]).
Qed.
Print Assumptions C03_combo_subschemas_declared_at_location.

(* the block of location l is a function of the parameters declared at l alone: two operations that
   agree at l (and differ anywhere else, same names included), after any earlier block *)
Theorem C03_combo_block_location_independent : forall (S : Type) pos neg (ps1 ps2 : list (dparam S)) l c1 c2,
  filter (at_loc l) ps1 = filter (at_loc l) ps2 ->
  fst (combo_subschemas_for CacheNone pos neg ps1 l c1) = fst (combo_subschemas_for CacheNone pos neg ps2 l c2).
Proof.
  intros S pos neg ps1 ps2 l c1 c2 H. rewrite (combo_subschemas_for_none_irrelevant pos neg ps1 l c1 c2).
  unfold combo_subschemas_for. rewrite H. reflexivity.
Qed.
Print Assumptions C03_combo_block_location_independent.

Theorem C03_combo_plan_by_location : forall (S : Type) pos neg (params : list (dparam S)),
  combo_plan CacheNone pos neg params
  = fst (combo_subschemas_for CacheNone pos neg (filter (at_loc LQuery) params) LQuery [])
    ++ fst (combo_subschemas_for CacheNone pos neg (filter (at_loc LHeader) params) LHeader [])
    ++ fst (combo_subschemas_for CacheNone pos neg (filter (at_loc LCookie) params) LCookie []).
Proof.
  intros S pos neg params.
  unfold combo_plan.
  f_equal; [|f_equal]; apply C03_combo_block_location_independent; symmetry; apply filter_at_loc_idem.
Qed.
Print Assumptions C03_combo_plan_by_location.

(* a cache keyed by the full identity (location, name) and shared by the three blocks changes nothing,
   as long as no identity is declared twice *)
Theorem C03_combo_cache_by_identity_safe_partial : forall (S : Type) pos neg (params : list (dparam S)),
  distinct_identities params = true ->
  combo_plan CacheByLocName pos neg params = combo_plan CacheNone pos neg params.
Proof.
  intros S pos neg params Hd. apply (combo_plan_faithful _ params (cache_ok params)); [|intros l n s H; discriminate H].
  intros c p. apply schema_through_locname. exact Hd.
Qed.
Print Assumptions C03_combo_cache_by_identity_safe_partial.

(* value level: every numeric negative of a combination case (Object with invalid ... value: Value
   greater than maximum / smaller than minimum) violates a keyword of the schema declared at
   (location of the block, that name), so the value does not conform to the declared schema *)
Theorem C03_combo_negative_values_violate_declared_partial :
  forall (S : Type) (keys_of : S -> list nkey) pos neg (params : list (dparam S)) ss name v d k,
  forallb (fun p => forallb numeric_key (keys_of (dp_schema p))) params = true ->
  In ss (combo_plan CacheNone pos neg params) ->
  In (name, (Some v, d, k)) (combo_negative_values keys_of ss) ->
  exists p, (In p params /\ dp_loc p = ss_loc ss /\ dp_name p = name)
            /\ In k (keys_of (dp_schema p)) /\ violates k v = true /\ conforms (keys_of (dp_schema p)) v = false.
Proof.
  intros S keys_of pos neg params ss name v d k Hreg Hss Hin.
  destruct (C03_combo_subschemas_declared_at_location _ _ _ _ _ Hss) as (_ & Hprops & _).
  destruct (combo_negative_values_in _ _ _ _ Hin) as (s & Hns & Hit).
  destruct (Hprops _ _ Hns) as (p & Hdecl & <-). exists p. split; [exact Hdecl|].
  pose proof (forallb_in _ _ _ Hreg (proj1 Hdecl)) as Hnum. cbn beta in Hnum.
  destruct (C03_negative_numbers_invalid_partial _ _ _ _ _ Hnum Hit) as [Hk Hv].
  split; [exact Hk|split; [exact Hv|exact (violates_not_conforms _ _ _ Hk Hv)]].
Qed.
Print Assumptions C03_combo_negative_values_violate_declared_partial.

(* sentinel (not the code): one cache keyed by the parameter NAME and
   shared by the three locations.  id is declared in query (maximum 10) and in header (no bound), no
   identity twice: the header block gets the query schema, yields 11 as Value greater than maximum for
   the header id, and 11 conforms to every schema declared for (header, id); the plan of the code does
   not contain that subschema *)
Theorem C03_combo_cache_by_name_refuted : exists (params : list (dparam (list nkey))) ss name s v d k,
  distinct_identities params = true
  /\ In ss (combo_plan CacheByName true true params)
  /\ In (name, s) (ss_props ss)
  /\ (forall p, (In p params /\ dp_loc p = ss_loc ss /\ dp_name p = name) -> dp_schema p <> s)
  /\ In (name, (Some v, d, k)) (combo_negative_values (fun s => s) ss)
  /\ (forall p, (In p params /\ dp_loc p = ss_loc ss /\ dp_name p = name) -> conforms (dp_schema p) v = true)
  /\ ~ In ss (combo_plan CacheNone true true params).
Proof.
  exists w_shared, w_shared_header_block, 0%N, [KMaximum 10], (PInt 11), NGreater, (KMaximum 10).
  (* the only parameter declared at (header, id) is the first of w_shared, whose schema has no keyword *)
  assert (Hdecl : forall p, In p w_shared /\ dp_loc p = LHeader /\ dp_name p = 0%N -> dp_schema p = []).
  { intros p Hp. apply declared_at_intro in Hp.
    vm_compute in Hp. destruct Hp as [<-|[]]. reflexivity. }
  split; [reflexivity|]. split; [vm_compute; tauto|]. split; [left; reflexivity|]. split.
  - intros p Hp. rewrite (Hdecl p Hp). discriminate.
  - split; [vm_compute; tauto|]. split.
    + intros p Hp. rewrite (Hdecl p Hp). reflexivity.
    + vm_compute. intros H. repeat (destruct H as [H|H]; [discriminate H|]). exact H.
Qed.
Print Assumptions C03_combo_cache_by_name_refuted.

Theorem C03_combo_plan_hypotheses_satisfiable :
  map (fun ss => (ss_loc ss, ss_tag ss, ss_props ss, ss_required ss)) (combo_plan CacheNone true true w_shared)
  = [ (LQuery, OnlyRequired, [(0%N, [KMaximum 10])], [0%N]);
      (LQuery, OneOptional 1%N, [(0%N, [KMaximum 10]); (1%N, [KMinimum 1])], [0%N]);
      (LQuery, OneOptional 2%N, [(0%N, [KMaximum 10]); (2%N, [])], [0%N]);
      (LHeader, OnlyRequired, [(0%N, [])], [0%N]) ]
  /\ combo_plan CacheByLocName true true w_shared = combo_plan CacheNone true true w_shared
  /\ forallb (fun p => forallb numeric_key (dp_schema p)) w_shared = true
  /\ flat_map (combo_negative_values (fun s => s)) (combo_plan CacheNone true true w_shared)
     = [ (0%N, (Some (PInt 11), NGreater, KMaximum 10));
         (0%N, (Some (PInt 11), NGreater, KMaximum 10)); (1%N, (Some (PInt 0), NSmaller, KMinimum 1));
         (0%N, (Some (PInt 11), NGreater, KMaximum 10)) ].
Proof. vm_compute. repeat split. Qed.
Print Assumptions C03_combo_plan_hypotheses_satisfiable.

(* _negative_type, the values presented as Incorrect type, for a type keyword that is a string or a list
   (type: [integer, null]).  For every type keyword (string or list, any names, any order, repetitions), every class of
   value that any strategy consulted by _negative_type can return belongs to none of the listed types *)
Theorem C03_negative_type_values_violate :
  forall (kw : type_kw) (l : list strat) (s : strat) (k : vclass),
    negative_type_plan kw = TypePlan l -> In s l -> draws s k = true -> conforms_type kw k = false.
Proof.
  intros kw l s k Hp Hin Hd. unfold conforms_type. apply existsb_unlisted.
  intros t Ht. exact (negative_type_plan_with_sound _ l s k Hp Hin Hd t Ht).
Qed.
Print Assumptions C03_negative_type_values_violate.

Theorem C03_negative_type_plan_depends_on_type_set :
  forall kw1 kw2 : type_kw,
    (forall t, type_in t (types_of kw1) = type_in t (types_of kw2)) ->
    negative_type_plan kw1 = negative_type_plan kw2.
Proof. intros kw1 kw2 H. unfold negative_type_plan. apply negative_type_plan_with_ext. exact H. Qed.
Print Assumptions C03_negative_type_plan_depends_on_type_set.

Theorem C03_negative_type_integer_listed_only_fractional_floats :
  forall (kw : type_kw) (l : list strat),
    type_in TInteger (types_of kw) = true -> negative_type_plan kw = TypePlan l ->
    In SFracFloats l /\ ~ In SNumeric l /\ ~ In SIntegers l.
Proof.
  intros kw l.
  unfold negative_type_plan. intros EI Hp. split; [|split; intros H].
  - pose proof (proj1 (negative_type_plan_with_total _) (ex_intro _ l Hp)) as EN. cbn beta in EN.
    rewrite EI, andb_true_r in EN.
    unfold negative_type_plan_with in Hp. rewrite EI, EN in Hp. injection Hp as <-.
    apply (in_map snd _ (TNumber, SFracFloats)), sd_set_in.
  - destruct (negative_type_plan_with_entries _ l _ Hp H) as [(E & _)|(t & Ht & _ & _ & HN)]; [discriminate E|].
    apply strategies_for_type_slots in Ht. rewrite (HN (proj2 Ht eq_refl)) in EI. discriminate EI.
  - destruct (negative_type_plan_with_entries _ l _ Hp H) as [(E & _)|(t & Ht & Hm & _)]; [discriminate E|].
    apply strategies_for_type_slots in Ht. rewrite (proj1 Ht eq_refl) in Hm. cbn beta in Hm. rewrite Hm in EI. discriminate EI.
Qed.
Print Assumptions C03_negative_type_integer_listed_only_fractional_floats.

(* the generator ends with KeyError (del strategies[integer]) exactly when number and integer are both listed *)
Theorem C03_negative_type_plan_total_partial :
  forall kw : type_kw, not_number_and_integer kw = true <-> exists l, negative_type_plan kw = TypePlan l.
Proof.
  intros kw.
  unfold not_number_and_integer, negative_type_plan. rewrite negative_type_plan_with_total. apply negb_true_iff.
Qed.
Print Assumptions C03_negative_type_plan_total_partial.

(* regression sentinel: the float rule keyed on the raw keyword agrees with the code on every string ... *)
Theorem C03_negative_type_raw_keyword_agrees_on_strings :
  forall t : jtype, negative_type_plan_raw_keyword (TyStr t) = negative_type_plan (TyStr t).
Proof. intros t. destruct t; reflexivity. Qed.
Print Assumptions C03_negative_type_raw_keyword_agrees_on_strings.

(* ... and for type [integer, null] consults integers | floats: an int (0) is presented as Incorrect type *)
Theorem C03_negative_type_raw_keyword_refuted :
  exists (kw : type_kw) (l : list strat) (s : strat) (k : vclass),
    not_number_and_integer kw = true /\ negative_type_plan_raw_keyword kw = TypePlan l /\ In s l
    /\ draws s k = true /\ conforms_type kw k = true
    /\ negative_type_plan kw = TypePlan [SFracFloats; SBooleans; SText; SArrays; SObjects].
Proof.
  exists (TyList [TInteger; TNull]), [SNumeric; SBooleans; SText; SArrays; SObjects], SNumeric, KInt.
  vm_compute. intuition.
Qed.
Print Assumptions C03_negative_type_raw_keyword_refuted.

Theorem C03_negative_type_hypotheses_satisfiable :
  negative_type_plan (TyStr TInteger) = TypePlan [SFracFloats; SBooleans; SNone; SText; SArrays; SObjects]
  /\ negative_type_plan (TyList [TInteger]) = TypePlan [SFracFloats; SBooleans; SNone; SText; SArrays; SObjects]
  /\ negative_type_plan (TyStr TNumber) = TypePlan [SBooleans; SNone; SText; SArrays; SObjects]
  /\ negative_type_plan (TyList [TNumber; TNull]) = TypePlan [SBooleans; SText; SArrays; SObjects]
  /\ negative_type_plan (TyList [TString; TInteger]) = TypePlan [SFracFloats; SBooleans; SNone; SArrays; SObjects]
  /\ negative_type_plan (TyList [TBoolean; TNull]) = TypePlan [SIntegers; SNumeric; SText; SArrays; SObjects]
  /\ negative_type_plan (TyList []) = TypePlan [SIntegers; SNumeric; SBooleans; SNone; SText; SArrays; SObjects]
  /\ negative_type_plan (TyList [TOther 7%N]) = TypePlan [SIntegers; SNumeric; SBooleans; SNone; SText; SArrays; SObjects]
  /\ negative_type_plan (TyList [TNumber; TInteger]) = TypeRaisesKeyError
  /\ negative_type_plan (TyList [TInteger; TNumber; TNull]) = TypeRaisesKeyError.
Proof. vm_compute. repeat split. Qed.
Print Assumptions C03_negative_type_hypotheses_satisfiable.

(* minLength / maxLength negatives under a type keyword: the foreign generator is asked for the DECLARED
   type(s); when only string is listed (or the keyword is absent) the drawn value is a string, so the
   requested wrong length (C03_negative_lengths_violate) makes it violate the keyword *)
Theorem C03_length_negative_is_string_partial :
  forall (declared : option type_kw) (k : vclass),
    string_only (length_request_type declared) = true ->
    conforms_type (length_request_type declared) k = true -> length_applies k = true.
Proof. intros declared k Hs Hc. rewrite (string_only_conforms _ k Hs Hc). reflexivity. Qed.
Print Assumptions C03_length_negative_is_string_partial.

(* F11: type [string, null] with maxLength: the request admits null, which no length keyword constrains *)
Theorem C03_length_negative_type_list_refuted :
  exists (declared : option type_kw) (k : vclass),
    conforms_type (length_request_type declared) k = true /\ length_applies k = false
    /\ string_only (length_request_type declared) = false.
Proof. exists (Some (TyList [TString; TNull])), KNull. vm_compute. repeat split. Qed.
Print Assumptions C03_length_negative_type_list_refuted.

Theorem C03_length_negative_hypotheses_satisfiable : string_only (length_request_type None) = true.
Proof. reflexivity. Qed.
Print Assumptions C03_length_negative_hypotheses_satisfiable.

(* magnitude: the integer kernel of the Minimum value is exact for integers of any size, lower bound and step alike *)
Theorem C03_closest_multiple_is_least_multiple_at_least :
  forall y x, 0 < x -> least_multiple_at_least y x (closest_multiple_greater_than y x) = true.
Proof.
  intros y x Hx. unfold least_multiple_at_least.
  pose proof (cmgt_bounds y x Hx). pose proof (cmgt_mod y x Hx) as Hmod.
  rewrite Hmod.
  replace (y <=? closest_multiple_greater_than y x) with true by (symmetry; apply Z.leb_le; lia).
  replace (closest_multiple_greater_than y x <? y + x) with true by (symmetry; apply Z.ltb_lt; lia).
  reflexivity.
Qed.
Print Assumptions C03_closest_multiple_is_least_multiple_at_least.

(* and it is the only such number: any kernel that meets the specification equals this one, at every magnitude *)
Theorem C03_closest_multiple_characterised :
  forall y x r, 0 < x -> (least_multiple_at_least y x r = true <-> r = closest_multiple_greater_than y x).
Proof.
  intros y x r Hx. split.
  - intros H. exact (least_multiple_unique y x _ _ Hx H (C03_closest_multiple_is_least_multiple_at_least y x Hx)).
  - intros ->. exact (C03_closest_multiple_is_least_multiple_at_least y x Hx).
Qed.
Print Assumptions C03_closest_multiple_characterised.

(* the Minimum value and the Near-boundary value one step above it are multiples at or above the lower bound *)
Theorem C03_minimum_value_valid_at_any_magnitude :
  forall minimum m, 0 < m ->
    let v := closest_multiple_greater_than minimum m in minimum <= v /\ v mod m = 0 /\ (v + m) mod m = 0.
Proof.
  intros minimum m Hm v. subst v. repeat split.
  - exact (proj1 (cmgt_bounds minimum m Hm)).
  - exact (cmgt_mod minimum m Hm).
  - pose proof (shift_mod _ m 1 (cmgt_mod minimum m Hm)) as H. rewrite Z.mul_1_l in H. exact H.
Qed.
Print Assumptions C03_minimum_value_valid_at_any_magnitude.

(* sentinel: the same kernel through true (binary64) division, x * ceil(y / x): above 2^53 the quotient is rounded
   before the ceil and the result falls BELOW the lower bound (2^53 + 1 step 1; 10^18 + 1 step 10; 2^63 - 1 step 3)
   or far above it (- 2^63 + 1 step 3), where the exact kernel is right *)
Theorem C03_closest_multiple_float53_refuted :
  closest_multiple_float53 (2 ^ 53 + 1) 1 = 2 ^ 53
  /\ closest_multiple_float53 1000000000000000001 10 = 1000000000000000000
  /\ closest_multiple_float53 (2 ^ 63 - 1) 3 = 2 ^ 63 - 512
  /\ closest_multiple_float53 (- (2 ^ 63) + 1) 3 = - (2 ^ 63) + 512
  /\ least_multiple_at_least (2 ^ 53 + 1) 1 (closest_multiple_float53 (2 ^ 53 + 1) 1) = false
  /\ least_multiple_at_least 1000000000000000001 10 (closest_multiple_float53 1000000000000000001 10) = false
  /\ closest_multiple_greater_than (2 ^ 53 + 1) 1 = 2 ^ 53 + 1
  /\ closest_multiple_greater_than 1000000000000000001 10 = 1000000000000000010.
Proof. vm_compute. repeat split. Qed.
Print Assumptions C03_closest_multiple_float53_refuted.

(* the sentinel differs only at large magnitudes: equal on -400..400 x 1..60 and on the 41 integers just below
   2^53 / just above -2^53 with the steps 1, 3, 10, 2^20.  Both are instances of float53_exact_below_2_53 (equal
   for every |y| < 2^53 and every step x > 0); only the two ends +-2^53 themselves are evaluated *)
Theorem C03_closest_multiple_float53_agrees_small :
  float53_agrees_on (zrange (-400) 801) (zrange 1 60) = true
  /\ float53_agrees_on (zrange (2 ^ 53 - 40) 41 ++ zrange (- (2 ^ 53)) 41) [1; 3; 10; 1048576] = true.
Proof.
  split; apply float53_agrees_on_intro; intros y x Hy Hx.
  - apply zrange_in in Hy, Hx. apply float53_exact_below_2_53; lia.
  - assert (Hy' : Z.abs y <= 2 ^ 53) by (apply in_app_or in Hy; destruct Hy as [Hy|Hy]; apply zrange_in in Hy; lia).
    destruct (Z.eq_dec (Z.abs y) (2 ^ 53)) as [E|E].
    + assert (y = 2 ^ 53 \/ y = - 2 ^ 53) as [-> | ->] by lia;
        repeat (destruct Hx as [<-|Hx]; [vm_compute; reflexivity|]); destruct Hx.
    + apply float53_exact_below_2_53; [|lia]. repeat (destruct Hx as [<-|Hx]; [lia|]). destruct Hx.
Qed.
Print Assumptions C03_closest_multiple_float53_agrees_small.

(* an "Unspecified HTTP method" case (labelled negative) uses a method that the RESOLVED path item does not document,
   whether the path item is written in place or shared through `$ref`; and every undocumented method of the universe gets
   such a case *)
Theorem C03_unspecified_method_case_is_undocumented : forall T p c,
  In c (method_cases T (unspecified_methods p)) ->
  exists m, c_kind c = KMethod m /\ c_mode c = Neg /\ In m all_methods /\ ~ In m (resolved_methods p).
Proof.
  intros T p c Hin. apply in_map_iff in Hin. destruct Hin as (m & Hc & Hm). subst c.
  apply undocumented_spec in Hm. destruct Hm. exists m. repeat split; assumption.
Qed.
Print Assumptions C03_unspecified_method_case_is_undocumented.

Theorem C03_unspecified_method_cases_complete : forall T p m,
  In m all_methods -> ~ In m (resolved_methods p) ->
  In (mk_case (KMethod m) Neg (unmodified T)) (method_cases T (unspecified_methods p)).
Proof.
  intros T p m Ha Hn. apply in_map_iff. exists m. split; [reflexivity|]. apply undocumented_spec. split; assumption.
Qed.
Print Assumptions C03_unspecified_method_cases_complete.

(* sentinel: the documented set read off the RAW path item (whose only key is `$ref` when the item is shared): GET is
   documented and still counted as unspecified; on a path item written in place the two agree *)
Theorem C03_unspecified_method_raw_keys_refuted :
  In 1%N (resolved_methods (PRef [1; 5; 0]%N)) /\ In 1%N (unspecified_methods_raw (PRef [1; 5; 0]%N))
  /\ unspecified_methods (PRef [1; 5; 0]%N) = [2; 3; 4; 6]%N
  /\ unspecified_methods_raw (PInline [1; 5; 0]%N) = unspecified_methods (PInline [1; 5; 0]%N).
Proof. repeat split; vm_compute; auto. Qed.
Print Assumptions C03_unspecified_method_raw_keys_refuted.
