From Coq Require Import List NArith ZArith Bool Lia.
From Verif Require Import Common.Lists Common.Str C03.Model_C03.
Import ListNotations.
Open Scope Z_scope.

(* Lemmas behind the theorems of Properties_C03.  First facts about lists and the equality tests of Model_C03; then,
   following the parts of Model_C03: (1) the numeric plans, positive (also under anyOf / oneOf) and negative;
   (3) the case labels; (4) the object-level generators; (5) the parameter combination blocks and their caches;
   (6) _negative_type; (7) magnitude, and the unspecified methods; last (2) lengths and sizes, whose proofs need ZifyBool.
   The witness values of each part stand at its end. *)

Lemma forallb_in {A} (f : A -> bool) l x : forallb f l = true -> In x l -> f x = true.
Proof. intros H Hin. rewrite forallb_forall in H. apply H, Hin. Qed.

Lemma enumerate_nth {A} (l : list A) : forall n j x,
  In (j, x) (enumerate_from n l) -> (n <= j)%nat /\ nth_error l (j - n) = Some x.
Proof.
  unfold enumerate_from. induction l as [|a l IH]; intros n j x Hin; [destruct Hin|].
  cbn [length seq combine] in Hin. destruct Hin as [H|H].
  - inversion H; subst. split; [lia|]. rewrite Nat.sub_diag. reflexivity.
  - apply IH in H. destruct H as [Hle Hn]. split; [lia|].
    replace (j - n)%nat with (S (j - S n)) by lia. exact Hn.
Qed.

Lemma enumerate_in {A} n (l : list A) j x : In (j, x) (enumerate_from n l) -> In x l.
Proof. intros H. apply enumerate_nth in H. exact (nth_error_In _ _ (proj2 H)). Qed.

Lemma is_neg_Neg m : is_neg m = true <-> m = Neg.
Proof. destruct m; split; intros H; try reflexivity; discriminate H. Qed.

Lemma loc_eqb_eq a b : loc_eqb a b = true -> a = b.
Proof. destruct a, b; cbn; congruence. Qed.

Lemma loc_eqb_refl a : loc_eqb a a = true.
Proof. destruct a; reflexivity. Qed.

Lemma jtype_eqb_refl t : jtype_eqb t t = true.
Proof. destruct t; cbn; try reflexivity. apply N.eqb_refl. Qed.

Lemma comp_get_set k m cs : comp_get k (comp_set k m cs) = Some m.
Proof.
  induction cs as [|[k' m'] r IH]; cbn [comp_set comp_get].
  - destruct k; reflexivity.
  - destruct (ckind_eqb k k') eqn:E; cbn [comp_get]; rewrite ?E; [|exact IH].
    destruct k; reflexivity.
Qed.

Lemma dedup_in x l : In x (dedup l) -> In x l.
Proof.
  induction l as [|y r IH]; cbn [dedup]; [tauto|].
  destruct (mem_name y r) eqn:E; intros H.
  - right. auto.
  - destruct H as [H|H]; [left; exact H|right; auto].
Qed.

Lemma prop_set_in {S} (name : N) (s : S) ps n s' :
  In (n, s') (prop_set name s ps) -> (n = name /\ s' = s) \/ In (n, s') ps.
Proof.
  induction ps as [|[n0 s0] r IH]; cbn [prop_set]; intros H.
  - destruct H as [H|[]]. inversion H. left. split; reflexivity.
  - destruct (N.eqb n0 name) eqn:E.
    + apply N.eqb_eq in E. subst n0. destruct H as [H|H].
      * inversion H. left. split; reflexivity.
      * right. right. exact H.
    + destruct H as [H|H].
      * right. left. exact H.
      * destruct (IH H) as [H'|H']; [left; exact H'|right; right; exact H'].
Qed.

Lemma cmgt_bounds y m : 0 < m -> y <= closest_multiple_greater_than y m < y + m.
Proof.
  intros Hm. unfold closest_multiple_greater_than.
  destruct (Z.eqb_spec (y mod m) 0); [lia|].
  pose proof (Z.div_mod y m ltac:(lia)) as Hd.
  pose proof (Z.mod_pos_bound y m Hm) as Hb.
  lia.
Qed.

Lemma cmgt_mod y m : 0 < m -> closest_multiple_greater_than y m mod m = 0.
Proof.
  intros Hm. unfold closest_multiple_greater_than.
  destruct (y mod m =? 0) eqn:E.
  - apply Z.eqb_eq in E. exact E.
  - rewrite Z.mul_comm. apply Z.mod_mul. lia.
Qed.

Lemma floor_le b m : 0 < m -> b - b mod m <= b.
Proof. intros Hm. pose proof (Z.mod_pos_bound b m Hm). lia. Qed.

Lemma floor_mod b m : 0 < m -> (b - b mod m) mod m = 0.
Proof.
  intros Hm. pose proof (Z.div_mod b m ltac:(lia)) as Hd.
  replace (b - b mod m) with ((b / m) * m) by lia.
  apply Z.mod_mul. lia.
Qed.

Lemma multiple_le_floor x b m : 0 < m -> x mod m = 0 -> x <= b -> x <= b - b mod m.
Proof.
  intros Hm Hx Hle.
  pose proof (Z.div_mod b m ltac:(lia)) as Hb.
  pose proof (Z.div_mod x m ltac:(lia)) as Hxd. rewrite Hx in Hxd.
  assert (Hq : x / m <= b / m) by (apply Z.div_le_mono; lia).
  replace (b - b mod m) with (m * (b / m)) by lia.
  rewrite Hxd, Z.add_0_r. apply Z.mul_le_mono_nonneg_l; lia.
Qed.

Lemma shift_mod x m k : x mod m = 0 -> (x + k * m) mod m = 0.
Proof. intros Hx. rewrite Z_mod_plus_full. exact Hx. Qed.

(* the step between planned values: multipleOf, or 1 - a schema without multipleOf is planned like one with multipleOf 1 *)
Definition mult_step (s : num_schema) : Z := match n_mult s with Some m => m | None => 1 end.

Lemma smallest_mult_step s a :
  match n_mult s with Some m => closest_multiple_greater_than a m | None => a end = closest_multiple_greater_than a (mult_step s).
Proof.
  unfold mult_step. destruct (n_mult s); [reflexivity|].
  unfold closest_multiple_greater_than. rewrite Z.mod_1_r. reflexivity.
Qed.

(* what a value has to satisfy, stated on the effective bounds *)
Definition fits_bounds (s : num_schema) (v : Z) : Prop :=
  match eff_min s with Some a => a <= v | None => True end /\
  match eff_max s with Some b => v <= b | None => True end /\
  v mod mult_step s = 0.

Lemma fits_bounds_valid s v :
  numeric_exclusive s = true -> exclusive_dominates s = true -> fits_bounds s v -> num_valid s v = true.
Proof.
  unfold numeric_exclusive, exclusive_dominates, fits_bounds, num_valid, eff_min, eff_max, mult_step.
  intros Hn Hd (Ha & Hb & Hm).
  apply andb_true_iff in Hn as [Hn1 Hn2]. apply andb_true_iff in Hd as [Hd1 Hd2].
  rewrite !andb_true_iff. repeat split.
  (* the conjuncts of num_valid.  Lower side (minimum, numeric exclusiveMinimum): numeric_exclusive rules the boolean out;
     with exclusiveMinimum e the planner's bound is e + 1 and exclusive_dominates (minimum <= e + 1) gives the inclusive one *)
  1,2: clear Hb Hm Hn2 Hd2; destruct (n_exmin s) as [[e|b]|]; try discriminate Hn1; destruct (n_min s) as [mn|];
       cbn [pyval] in *; rewrite ?andb_true_iff; repeat split; try reflexivity; lia.
  (* upper side, the mirror image *)
  1,2: clear Ha Hm Hn1 Hd1; destruct (n_exmax s) as [[e|b]|]; try discriminate Hn2; destruct (n_max s) as [mx|];
       cbn [pyval] in *; rewrite ?andb_true_iff; repeat split; try reflexivity; lia.
  (* multipleOf *)
  destruct (n_mult s) as [m|]; [rewrite Hm|]; reflexivity.
Qed.

Lemma multiple_satisfiable_mult_step s :
  multiple_satisfiable s = true ->
  0 < mult_step s /\ forall a b, eff_min s = Some a -> eff_max s = Some b -> closest_multiple_greater_than a (mult_step s) <= b.
Proof.
  unfold multiple_satisfiable. intros H. apply andb_true_iff in H. destruct H as [Hpos Hsat]. split.
  - unfold mult_step. destruct (n_mult s); lia.
  - intros a b Ha Hb. rewrite Ha, Hb, smallest_mult_step in Hsat. lia.
Qed.

Lemma min_part_with_mult_step z s a : eff_min s = Some a ->
  min_part_with z s =
    let sm := closest_multiple_greater_than a (mult_step s) in
    let lg := sm + mult_step s in
    if negb (inb lg [sm]) && match eff_max s with None => true | Some M => (z && (M =? 0)) || (lg <=? M) end
    then ([(Some sm, DMinimum); (Some lg, DNear)], [lg; sm]) else ([(Some sm, DMinimum)], [sm]).
Proof.
  intros E. unfold min_part_with, mult_step. rewrite E. destruct (n_mult s); [reflexivity|].
  unfold closest_multiple_greater_than. rewrite Z.mod_1_r. reflexivity.
Qed.

Lemma max_part_mult_step s seen b : eff_max s = Some b ->
  max_part s seen =
    let lg := b - b mod mult_step s in
    let first := if negb (inb lg seen) then [(Some lg, DMaximum)] else [] in
    let seen1 := if negb (inb lg seen) then lg :: seen else seen in
    if negb (inb (lg - mult_step s) seen1)
       && ((0 <? lg - mult_step s) && match eff_min s with None => true | Some mn => mn <=? lg - mult_step s end)
    then first ++ [(Some (lg - mult_step s), DNear)] else first.
Proof.
  intros E. unfold max_part, mult_step. rewrite E. destruct (n_mult s); [reflexivity|].
  rewrite Z.mod_1_r, Z.sub_0_r. reflexivity.
Qed.

Lemma min_part_fits_bounds s v d :
  multiple_satisfiable s = true ->
  In (Some v, d) (fst (min_part s)) -> fits_bounds s v.
Proof.
  intros Hs. destruct (multiple_satisfiable_mult_step s Hs) as [Hpos Hsat].
  unfold min_part. destruct (eff_min s) as [a|] eqn:Ea; [|unfold min_part_with; rewrite Ea; intros []].
  rewrite (min_part_with_mult_step false s a Ea). cbv zeta.
  pose proof (cmgt_bounds a _ Hpos) as [Hge _]. pose proof (cmgt_mod a _ Hpos) as Hmod.
  set (sm := closest_multiple_greater_than a (mult_step s)) in *.
  assert (Hsm : fits_bounds s sm).
  { unfold fits_bounds. rewrite Ea. split; [exact Hge|split; [|exact Hmod]].
    destruct (eff_max s) as [b|] eqn:Eb; [exact (Hsat a b eq_refl eq_refl)|exact I]. }
  destruct (negb (inb (sm + mult_step s) [sm]) && _) eqn:E; cbn [fst].
  - (* Minimum value, and the value one step above it, admitted by the guard larger <= maximum *)
    intros [[= <- _]|[[= <- _]|[]]]; [exact Hsm|].
    apply andb_true_iff in E. destruct E as [_ E]. unfold fits_bounds. rewrite Ea. split; [lia|split].
    + destruct (eff_max s) as [b|]; [cbn [andb orb] in E; lia|exact I].
    + apply (shift_mod sm _ 1) in Hmod. rewrite Z.mul_1_l in Hmod. exact Hmod.
  - intros [[= <- _]|[]]. exact Hsm.
Qed.

Lemma max_part_fits_bounds s seen v d :
  multiple_satisfiable s = true ->
  In (Some v, d) (max_part s seen) -> fits_bounds s v.
Proof.
  intros Hs. destruct (multiple_satisfiable_mult_step s Hs) as [Hpos Hsat].
  destruct (eff_max s) as [b|] eqn:Eb; [|unfold max_part; rewrite Eb; intros []].
  rewrite (max_part_mult_step s seen b Eb). cbv zeta.
  pose proof (floor_le b _ Hpos) as Hle. pose proof (floor_mod b _ Hpos) as Hmod.
  set (lg := b - b mod mult_step s) in *.
  assert (Hlg : fits_bounds s lg).
  { unfold fits_bounds. rewrite Eb. split; [|split; assumption].
    destruct (eff_min s) as [a|] eqn:Ea; [|exact I]. pose proof (cmgt_bounds a _ Hpos) as [Hge _].
    pose proof (multiple_le_floor _ b _ Hpos (cmgt_mod a _ Hpos) (Hsat a b eq_refl eq_refl)). fold lg in H. lia. }
  assert (Hfirst : In (Some v, d) (if negb (inb lg seen) then [(Some lg, DMaximum)] else []) -> fits_bounds s v).
  { destruct (negb (inb lg seen)); [|intros []]. intros [[= <- _]|[]]. exact Hlg. }
  destruct (negb (inb (lg - mult_step s) _) && _) eqn:E; [|exact Hfirst].
  (* Maximum value (if not seen), and the value one step below it, admitted by the guard minimum <= smaller *)
  intros Hin. apply in_app_or in Hin. destruct Hin as [Hin|[[= <- _]|[]]]; [exact (Hfirst Hin)|].
  rewrite !andb_true_iff in E. destruct E as (_ & _ & E). unfold fits_bounds. rewrite Eb. split; [|split; [lia|]].
  - destruct (eff_min s) as [a|]; [lia|exact I].
  - apply (shift_mod lg _ (-1)) in Hmod. replace (lg - mult_step s) with (lg + -1 * mult_step s) by lia. exact Hmod.
Qed.

Lemma head_items_authored s v d : In (Some v, d) (head_items s) -> authored d = true.
Proof.
  unfold head_items, authored_items.
  destruct (truthy (n_example s) || truthy_list (n_examples s) || truthy (n_default s)).
  - intros Hin. apply in_app_or in Hin. destruct Hin as [Hin|Hin].
    + destruct (truthy (n_example s)); [|destruct Hin]. destruct Hin as [H|[]]; inversion H; reflexivity.
    + apply in_app_or in Hin. destruct Hin as [Hin|Hin].
      * destruct (n_examples s) as [l|]; [|destruct Hin].
        apply in_map_iff in Hin. destruct Hin as (e & H & _). inversion H; reflexivity.
      * destruct (n_default s) as [dv|]; [|destruct Hin].
        match type of Hin with In _ (if ?c then _ else _) => destruct c end; [|destruct Hin].
        destruct Hin as [H|[]]; inversion H; reflexivity.
  - destruct (negb (truthy (eff_min s)) && negb (truthy (eff_max s))); [|intros []].
    intros [H|[]]; inversion H.
Qed.

Lemma positive_plan_valid : forall s ok v d,
  numeric_exclusive s = true -> exclusive_dominates s = true ->
  multiple_satisfiable s = true ->
  In (Some v, d) (fst (positive_number_plan s ok)) -> authored d = false ->
  num_valid s v = true.
Proof.
  intros s ok v d Hn Hd Hs Hin Ha.
  apply fits_bounds_valid; [assumption|assumption|].
  unfold positive_number_plan, positive_number_plan_with in Hin.
  fold (min_part s) in Hin. (* positive_number_plan is the planner with zero_is_absent = false, as min_part is *)
  destruct (needs_draw s && negb ok); [destruct Hin|].
  match type of Hin with In _ (fst (if ?c then _ else _)) => destruct c end; cbn [fst] in Hin.
  - apply head_items_authored in Hin. congruence.
  - destruct (min_part s) as [items seen] eqn:Em. cbn [fst] in Hin.
    apply in_app_or in Hin. destruct Hin as [Hin|Hin].
    + apply head_items_authored in Hin. congruence.
    + apply in_app_or in Hin. destruct Hin as [Hin|Hin].
      * apply (min_part_fits_bounds s v d Hs). rewrite Em. exact Hin.
      * apply (max_part_fits_bounds s seen v d Hs Hin).
Qed.

Lemma combined_positive_in : forall bs ok i it,
  In (i, it) (combined_positive_numbers bs ok) ->
  exists b, nth_error bs i = Some b /\ In it (fst (positive_number_plan b ok)).
Proof.
  induction bs as [|b r IH]; intros ok i it Hin; [destruct Hin|].
  cbn [combined_positive_numbers] in Hin. apply in_app_or in Hin. destruct Hin as [Hin|Hin].
  - apply in_map_iff in Hin. destruct Hin as (it' & Hit & Hin). inversion Hit; subst. exists b. split; [reflexivity|exact Hin].
  - apply in_map_iff in Hin. destruct Hin as ([i' it'] & Hit & Hin). cbn [fst snd] in Hit. inversion Hit; subst.
    destruct (IH _ _ _ Hin) as (b' & Hn & Hb). exists b'. split; [exact Hn|exact Hb].
Qed.

Lemma combined_positive_own_branch : forall bs ok i v d,
  forallb branch_in_regions bs = true ->
  In (i, (Some v, d)) (combined_positive_numbers bs ok) -> authored d = false ->
  exists b, nth_error bs i = Some b /\ num_valid b v = true.
Proof.
  intros bs ok i v d Hreg Hin Hau.
  destruct (combined_positive_in _ _ _ _ Hin) as (b & Hn & Hb).
  exists b. split; [exact Hn|].
  assert (Hinb : In b bs) by (eapply nth_error_In; exact Hn).
  pose proof (proj1 (forallb_forall _ _) Hreg b Hinb) as Hr. unfold branch_in_regions in Hr.
  apply andb_true_iff in Hr. destruct Hr as [Hr Hms]. apply andb_true_iff in Hr. destruct Hr as [Hne Hed].
  exact (positive_plan_valid b ok v d Hne Hed Hms Hb Hau).
Qed.

Lemma others_reject_count : forall bs i b v,
  nth_error bs i = Some b -> num_valid b v = true -> others_reject bs i v = true -> count_valid bs v = 1%nat.
Proof.
  unfold count_valid.
  induction bs as [|b0 r IH]; intros i b v Hn Hv Ho; [destruct i; discriminate Hn|].
  destruct i as [|j].
  - cbn [nth_error] in Hn. inversion Hn; subst b0. cbn [others_reject] in Ho. cbn [filter]. rewrite Hv. cbn [length]. f_equal.
    clear IH Hn Hv. induction r as [|c r IHr]; [reflexivity|].
    cbn [forallb] in Ho. apply andb_true_iff in Ho. destruct Ho as [Hc Hr]. cbn [filter].
    apply negb_true_iff in Hc. rewrite Hc. exact (IHr Hr).
  - cbn [nth_error] in Hn. cbn [others_reject] in Ho. apply andb_true_iff in Ho. destruct Ho as [Hc Hr].
    apply negb_true_iff in Hc. cbn [filter]. rewrite Hc. exact (IH _ _ _ Hn Hv Hr).
Qed.

(* the value cover_schema_iter derives from a numeric key (None: drawn by the foreign generator) *)
Definition derived_value (k : nkey) : option pynum :=
  match k with
  | KMaximum M => Some (PInt (M + 1)) | KMinimum m => Some (PInt (m - 1))
  | KExMax p | KExMin p => Some p | KMultipleOf _ => None
  end.

Lemma derived_value_violates k v : numeric_key k = true -> derived_value k = Some v -> violates k v = true.
Proof.
  destruct k as [M|m|[e|b]|[e|b]|m]; intros Hk [= <-]; try discriminate Hk; cbn; lia.
Qed.

Lemma negative_numbers_in keys : forall seen v d k,
  In (v, d, k) (negative_numbers keys seen) -> In k keys /\ v = derived_value k.
Proof.
  induction keys as [|k0 rest IH]; intros seen v d k Hin; [destruct Hin|].
  assert (Hrec : forall seen', In (v, d, k) (negative_numbers rest seen') -> In k (k0 :: rest) /\ v = derived_value k)
    by (intros seen' H; destruct (IH _ _ _ _ H); split; [right|]; assumption).
  cbn [negative_numbers] in Hin.
  destruct k0 as [M|m|p|p|m];
    (* maximum, minimum and exclusiveMinimum skip a value already seen *)
    [destruct (py_in _ seen); [exact (Hrec _ Hin)|] | destruct (py_in _ seen); [exact (Hrec _ Hin)|] |
     | destruct (py_in _ seen); [exact (Hrec _ Hin)|] | ];
    (destruct Hin as [[= <- _ <-]|Hin]; [split; [left|]; reflexivity|exact (Hrec _ Hin)]).
Qed.

Lemma anyof_negative_numbers_in : forall bs seen i it,
  In (i, it) (anyof_negative_numbers bs seen) ->
  exists b seen', nth_error bs i = Some b /\ In it (negative_numbers b seen').
Proof.
  induction bs as [|b r IH]; intros seen i it Hin; [destruct Hin|].
  cbn [anyof_negative_numbers] in Hin. apply in_app_or in Hin. destruct Hin as [Hin|Hin].
  - apply in_map_iff in Hin. destruct Hin as (it' & [= <- <-] & Hin). exists b, seen. split; [reflexivity|exact Hin].
  - apply in_map_iff in Hin. destruct Hin as ([i' it'] & [= <- <-] & Hin). exact (IH _ _ _ Hin).
Qed.

Lemma violates_not_conforms keys k v : In k keys -> violates k v = true -> conforms keys v = false.
Proof.
  intros Hk Hv. unfold conforms. apply not_true_is_false. intros Hall.
  pose proof (forallb_in _ _ _ Hall Hk) as H. cbn beta in H. rewrite Hv in H. discriminate H.
Qed.

Lemma negative_numbers_nonvacuous :
  negative_numbers [KMinimum 1; KMaximum 3; KExMax (PInt 9)] [] =
  [(Some (PInt 0), NSmaller, KMinimum 1); (Some (PInt 4), NGreater, KMaximum 3); (Some (PInt 9), NGreater, KExMax (PInt 9))].
Proof. reflexivity. Qed.

Definition mk_num mn mx exmin exmax mult : num_schema :=
  {| n_min := mn; n_max := mx; n_exmin := exmin; n_exmax := exmax; n_mult := mult;
     n_example := None; n_examples := None; n_default := None |}.

Definition w_zero := mk_num (Some 0) (Some 0) None None None.
Definition w_bool := mk_num (Some 5) None (Some (PBool true)) None None.
Definition w_mult := mk_num (Some 5) (Some 7) None None (Some 4).
Definition w_both := mk_num (Some 10) None (Some (PInt 3)) None None.
Definition w_good := mk_num (Some 3) (Some 20) None None (Some 4).
Definition w_zero_step := mk_num (Some (-1)) (Some 0) None None (Some 5).
Definition w_bool2 := mk_num (Some 2) None (Some (PBool true)) None None.
Definition w_oneof := [mk_num (Some (-5)) (Some 0) None None None; mk_num None (Some (-3)) None None None].
Definition w_oneof_ok := [mk_num (Some 1) (Some 3) None None None; mk_num (Some 7) (Some 9) None None None].

Definition part_is_neg (p : part) : bool := is_neg (pt_mode p).

Definition all_parts_pos (ps : list part) : Prop := Forall (fun p => pt_mode p = Pos) ps.

Definition label_right (c : case) : Prop :=
  c_mode c = Neg <-> (has_neg_part c = true \/ structural (c_kind c) = true).

Lemma all_parts_pos_no_neg ps : all_parts_pos ps -> existsb part_is_neg ps = false.
Proof.
  induction 1 as [|p ps Hp _ IH]; [reflexivity|].
  cbn [existsb]. unfold part_is_neg at 1. rewrite Hp, IH. reflexivity.
Qed.

Lemma all_parts_pos_filter f ps : all_parts_pos ps -> all_parts_pos (filter f ps).
Proof.
  unfold all_parts_pos. rewrite !Forall_forall. intros H p Hp. apply filter_In in Hp. apply H, Hp.
Qed.

Lemma all_parts_pos_replace k new ps : all_parts_pos ps -> all_parts_pos new -> all_parts_pos (replace_container k new ps).
Proof. intros Hps Hnew. apply Forall_app. split; [apply all_parts_pos_filter; exact Hps|exact Hnew]. Qed.

Lemma all_parts_pos_part_set q ps : all_parts_pos ps -> pt_mode q = Pos -> all_parts_pos (part_set q ps).
Proof.
  intros H Hq. induction H as [|p ps Hp Hps IH]; cbn [part_set].
  - constructor; [exact Hq|constructor].
  - destruct (same_slot p q); constructor; assumption.
Qed.

Lemma in_part_set q ps : In q (part_set q ps).
Proof. induction ps as [|p ps IH]; cbn [part_set]; [left; reflexivity|]. destruct (same_slot p q); [left; reflexivity|right; exact IH]. Qed.

Lemma has_neg_part_set q ps : all_parts_pos ps -> existsb part_is_neg (part_set q ps) = part_is_neg q.
Proof.
  intros H. induction H as [|p ps Hp Hps IH]; cbn [part_set existsb].
  - apply orb_false_r.
  - destruct (same_slot p q); cbn [existsb].
    + rewrite (all_parts_pos_no_neg _ Hps). apply orb_false_r.
    + unfold part_is_neg at 1. rewrite Hp. cbn. exact IH.
Qed.

Lemma has_neg_replace k new ps : all_parts_pos ps -> existsb part_is_neg (replace_container k new ps) = existsb part_is_neg new.
Proof.
  intros H. unfold replace_container. rewrite existsb_app.
  rewrite (all_parts_pos_no_neg _ (all_parts_pos_filter _ _ H)). reflexivity.
Qed.


Lemma neg_replace k new ps : existsb part_is_neg new = true -> existsb part_is_neg (replace_container k new ps) = true.
Proof. intros H. unfold replace_container. rewrite existsb_app, H. apply orb_true_r. Qed.

Lemma has_neg_part_mk k m tv : has_neg_part (mk_case k m tv) = existsb part_is_neg (snd tv).
Proof. reflexivity. Qed.

Lemma neg_label_right c : c_mode c = Neg -> (has_neg_part c = true \/ structural (c_kind c) = true) -> label_right c.
Proof. intros Hm H. split; intros _; assumption. Qed.

Lemma pos_label_right c : c_mode c = Pos -> has_neg_part c = false -> structural (c_kind c) = false -> label_right c.
Proof. intros Hm Hp Hs. split; [rewrite Hm; discriminate|]. rewrite Hp, Hs. intros [H|H]; discriminate H. Qed.

Lemma build_template_all_pos ps : forall T,
  forallb (fun p => first_mode_pos (p_modes p)) ps = true ->
  all_parts_pos (t_parts T) -> all_parts_pos (t_parts (build_template T ps)).
Proof.
  induction ps as [|p ps IH]; intros T Hf HT; [exact HT|].
  cbn [forallb] in Hf. apply andb_true_iff in Hf. destruct Hf as [Hp Hf].
  cbn [build_template]. destruct (p_modes p) as [|m0 tl]; [apply IH; assumption|].
  apply IH; [exact Hf|]. cbn [add_parameter t_parts].
  apply all_parts_pos_part_set; [exact HT|]. cbn [pt_mode]. destruct m0; [reflexivity|discriminate Hp].
Qed.

Lemma body_cases_template_fixed bs : forall T i, t_has_body T = true -> fst (body_cases T i bs) = T.
Proof.
  induction bs as [|b r IH]; intros T i Hh; cbn [body_cases]; [reflexivity|].
  destruct (b_modes b) as [|m0 tl]; [apply IH; exact Hh|].
  rewrite Hh. specialize (IH T (S i) Hh). destruct (body_cases T (S i) r) as [T2 rest]. exact IH.
Qed.

Lemma body_cases_template_all_pos bs : forall T i,
  all_parts_pos (t_parts T) -> first_body_mode bs <> Some Neg ->
  all_parts_pos (t_parts (fst (body_cases T i bs))).
Proof.
  induction bs as [|b r IH]; intros T i HT Hb; cbn [body_cases]; [exact HT|].
  cbn [first_body_mode] in Hb. destruct (b_modes b) as [|m0 tl]; [apply IH; assumption|].
  set (T1 := if t_has_body T then T else set_body T (b_media b) m0).
  assert (Hh1 : t_has_body T1 = true) by (unfold T1; destruct (t_has_body T) eqn:Eh; [exact Eh|reflexivity]).
  pose proof (body_cases_template_fixed r T1 (S i) Hh1) as Hfix.
  destruct (body_cases T1 (S i) r) as [T2 rest]. cbn [fst] in *. subst T2.
  unfold T1. destruct (t_has_body T); [exact HT|].
  cbn [set_body t_parts]. apply all_parts_pos_replace; [exact HT|]. constructor; [|constructor].
  cbn [pt_mode]. destruct m0; [reflexivity|congruence].
Qed.

(* what the body stage yields on a template T1 (builder.py:408-467): the first value of an alternative under its own
   label, each further value j under the label of the first; i is the index of the first alternative of bs *)
Definition body_case_of (T1 : template) (i : nat) (bs : list body) (c : case) : Prop :=
  exists k b m0 tl, nth_error bs k = Some b /\ b_modes b = m0 :: tl /\
    (c = mk_case (KBodyFirst (i + k)) m0 (with_body T1 (b_media b) 0 m0) \/
     exists j mj, (1 <= j)%nat /\ nth_error tl (j - 1) = Some mj /\
       c = mk_case (KBodyTail (i + k) j) m0 (with_body T1 (b_media b) j mj)).

Lemma body_case_of_cons T1 i b r c : body_case_of T1 (S i) r c -> body_case_of T1 i (b :: r) c.
Proof.
  intros (k & b0 & m0 & tl & Hn & Hrest). exists (S k), b0, m0, tl.
  rewrite Nat.add_succ_r. split; [exact Hn|exact Hrest].
Qed.

(* every case of the body stage is built on the final template *)
Lemma body_cases_shape bs : forall T i c,
  In c (snd (body_cases T i bs)) -> body_case_of (fst (body_cases T i bs)) i bs c.
Proof.
  induction bs as [|b r IH]; intros T i c Hin; cbn [body_cases] in *; [destruct Hin|].
  destruct (b_modes b) as [|m0 tl] eqn:Eb; [apply body_case_of_cons, IH; exact Hin|].
  set (T1 := if t_has_body T then T else set_body T (b_media b) m0) in *.
  assert (Hh1 : t_has_body T1 = true) by (unfold T1; destruct (t_has_body T) eqn:Eh; [exact Eh|reflexivity]).
  pose proof (body_cases_template_fixed r T1 (S i) Hh1) as Hfix. specialize (IH T1 (S i) c).
  destruct (body_cases T1 (S i) r) as [T2 rest]. cbn [fst snd] in *. subst T2.
  destruct Hin as [<-|Hin]; [|apply in_app_or in Hin; destruct Hin as [Hin|Hin]; [|apply body_case_of_cons, IH; exact Hin]];
    exists O, b, m0, tl; rewrite Nat.add_0_r; (split; [reflexivity|split; [exact Eb|]]).
  - left. reflexivity.
  - apply in_map_iff in Hin. destruct Hin as ([j mj] & <- & Hj). apply enumerate_nth in Hj.
    right. exists j, mj. split; [apply Hj|split; [apply Hj|reflexivity]].
Qed.

(* a value labelled mq put into the body slot: the case label m is right when it is mq and the template holds
   positive values only, or when both are negative *)
Lemma with_body_label_right T k media j m mq : structural k = false ->
  all_parts_pos (t_parts T) /\ m = mq \/ m = Neg /\ mq = Neg -> label_right (mk_case k m (with_body T media j mq)).
Proof.
  intros Hk [[HT ->]|[-> ->]].
  - assert (H : has_neg_part (mk_case k mq (with_body T media j mq)) = is_neg mq).
    { rewrite has_neg_part_mk. cbn [with_body snd]. rewrite (has_neg_replace _ _ _ HT). apply orb_false_r. }
    destruct mq; [apply pos_label_right|apply neg_label_right; [|left]]; (reflexivity || assumption).
  - apply neg_label_right; [reflexivity|left]. rewrite has_neg_part_mk. apply neg_replace. reflexivity.
Qed.

Lemma body_stage_all_pos sh T0 :
  all_parts_pos (t_parts T0) -> first_body_mode (sh_bodies sh) <> Some Neg -> all_parts_pos (t_parts (fst (body_stage sh T0))).
Proof.
  intros HT Hb. unfold body_stage. destruct (sh_bodies sh); [exact HT|].
  apply body_cases_template_all_pos; [exact HT|exact Hb].
Qed.

Lemma body_stage_label_right sh T0 c : In c (snd (body_stage sh T0)) ->
  all_parts_pos (t_parts (fst (body_stage sh T0))) /\ is_body_tail (c_kind c) = false
  \/ sh_pos sh = false /\ forallb (fun b => forallb is_neg (b_modes b)) (sh_bodies sh) = true ->
  label_right c.
Proof.
  unfold body_stage. destruct (sh_bodies sh) as [|b0 r].
  - cbn [fst snd]. destruct (sh_pos sh); [|intros []]. intros [<-|[]] [[HT _]|[Hp _]]; [|discriminate Hp].
    apply pos_label_right; [reflexivity| |reflexivity]. exact (all_parts_pos_no_neg _ HT).
  - intros Hin H. apply body_cases_shape in Hin.
    destruct Hin as (k & b & m0 & tl & Hn & Em & Hc). apply nth_error_In in Hn.
    assert (Hneg : forallb (fun b => forallb is_neg (b_modes b)) (b0 :: r) = true -> m0 = Neg /\ forall mj, In mj tl -> mj = Neg).
    { intros Hf. pose proof (forallb_in _ _ _ Hf Hn) as Hb. cbn beta in Hb. rewrite Em in Hb.
      cbn [forallb] in Hb. apply andb_true_iff in Hb. destruct Hb as [H0 Htl].
      split; [apply is_neg_Neg; exact H0|]. intros mj Hj. apply is_neg_Neg. exact (forallb_in _ _ _ Htl Hj). }
    destruct Hc as [->|(j & mj & _ & Hj & ->)]; apply with_body_label_right; try reflexivity.
    + destruct H as [[HT _]|[_ Hf]]; [left; split; [exact HT|reflexivity]|right; split; exact (proj1 (Hneg Hf))].
    + destruct H as [[_ Hk]|[_ Hf]]; [discriminate Hk|]. apply nth_error_In in Hj.
      right. split; [exact (proj1 (Hneg Hf))|exact (proj2 (Hneg Hf) _ Hj)].
Qed.

(* the three stages that build a structural case: unspecified method, duplicate parameter, missing required parameter *)
Lemma structural_cases T ms ps c :
  In c (method_cases T ms) \/ In c (fst (duplicate_cases T ps)) \/ In c (fst (missing_cases T ps)) ->
  c_mode c = Neg /\ structural (c_kind c) = true.
Proof.
  intros [Hin|[Hin|Hin]].
  - apply in_map_iff in Hin. destruct Hin as (m & <- & _). split; reflexivity.
  - unfold duplicate_cases in Hin. destruct (filter (is_loc LQuery) ps) as [|q qs]; [destruct Hin|].
    destruct (has_container CQuery T); [|destruct Hin]. cbn [fst] in Hin.
    apply in_flat_map in Hin. destruct Hin as (p & _ & Hin).
    destruct (has_name CQuery (p_name p) (t_parts T)); [|destruct Hin].
    destruct Hin as [<-|[]]. split; reflexivity.
  - revert Hin. induction ps as [|p r IH]; cbn [missing_cases]; [intros []|].
    destruct (p_required p && negb (loc_eqb (p_loc p) LPath)); [|exact IH].
    destruct (has_container (container (p_loc p)) T); [|intros []].
    destruct (missing_cases T r) as [rest o]. cbn [fst] in *.
    intros [<-|Hc]; [split; reflexivity|apply IH; exact Hc].
Qed.

Lemma param_cases_shape T ps c : In c (param_cases T ps) ->
  exists p m0 tl j mj, In p ps /\ p_modes p = m0 :: tl /\ In mj tl /\
    c = mk_case (KParam (p_loc p) (p_name p) j) mj (with_parameter T (p_loc p) (p_name p) j mj).
Proof.
  intros Hin. apply in_flat_map in Hin. destruct Hin as (p & Hp & Hin).
  destruct (p_modes p) as [|m0 tl] eqn:Em; [destruct Hin|].
  apply in_map_iff in Hin. destruct Hin as ([j mj] & <- & Hj). apply enumerate_in in Hj.
  exists p, m0, tl, j, mj. split; [exact Hp|split; [exact Em|split; [exact Hj|reflexivity]]].
Qed.

(* a combination case keeps a subset of the template's container and is labelled positive (only when positive
   cases are requested), or replaces the container by a foreign negative object and is labelled negative *)
Lemma combo_cases_shape T sh l negs c : In c (combo_cases_for T sh l negs) ->
  let k := container l in
  (sh_pos sh = true /\ exists tag names,
     c = mk_case (KComboPos l tag) Pos
           (with_container T k (filter (fun q => mem_name (pt_name q) names) (container_parts k (t_parts T))) Pos))
  \/ exists tag i, c = mk_case (KComboNeg l tag i) Neg (with_container T k [foreign_neg k] Neg).
Proof.
  intros Hin k. unfold combo_cases_for in Hin. fold k in Hin.
  destruct (filter (is_loc l) (sh_params sh)) as [|p0 pr]; [destruct Hin|].
  assert (Hneg : forall tag n, In c (map (fun i => mk_case (KComboNeg l tag i) Neg (with_container T k [foreign_neg k] Neg)) (seq 0 n)) ->
                 exists tag i, c = mk_case (KComboNeg l tag i) Neg (with_container T k [foreign_neg k] Neg)).
  { intros tag n Hc. apply in_map_iff in Hc. destruct Hc as (i & <- & _). exists tag, i. reflexivity. }
  repeat (apply in_app_or in Hin; destruct Hin as [Hin|Hin]).
  - (* block 1: only the required parameters *)
    destruct (dedup (map p_name (filter p_required (p0 :: pr)))); [destruct Hin|].
    match type of Hin with In _ (if ?c then _ else _) => destruct c end; [|destruct Hin].
    apply in_app_or in Hin. destruct Hin as [Hin|Hin].
    + destruct (sh_pos sh); [|destruct Hin]. destruct Hin as [<-|[]]. left. split; [reflexivity|]. eexists _, _. reflexivity.
    + destruct (sh_neg sh); [|destruct Hin]. right. eapply Hneg. exact Hin.
  - (* block 2: the required parameters and one optional one *)
    apply in_flat_map in Hin. destruct Hin as ([io on] & _ & Hin). cbn [fst snd] in Hin.
    match type of Hin with In _ (if ?c then _ else _) => destruct c eqn:E end; [|destruct Hin].
    apply andb_true_iff in E. destruct E as [_ E].
    destruct Hin as [<-|Hin]; [left; split; [exact E|]; eexists _, _; reflexivity|].
    destruct (sh_neg sh); [|destruct Hin]. right. eapply Hneg. exact Hin.
  - (* block 3: every subset of two or more optional parameters *)
    match type of Hin with In _ (if ?c then _ else _) => destruct c eqn:E end; [|destruct Hin].
    apply andb_true_iff in E. destruct E as [_ E].
    apply in_flat_map in Hin. destruct Hin as (size & _ & Hin).
    apply in_flat_map in Hin. destruct Hin as (comb & _ & Hin).
    match type of Hin with In _ (if ?c then _ else _) => destruct c end; [|destruct Hin].
    destruct Hin as [<-|[]]. left. split; [exact E|]. eexists _, _. reflexivity.
Qed.

Definition later_cases (T : template) (sh : shape) (c : case) : Prop :=
  In c (param_cases T (sh_params sh)) \/ In c (combo_stage T sh)
  \/ In c (method_cases T (sh_methods sh))
  \/ In c (fst (duplicate_cases T (sh_params sh))) \/ In c (fst (missing_cases T (sh_params sh))).

Lemma cases_pieces sh c : In c (fst (coverage_cases sh)) ->
  In c (snd (body_stage sh (build_template empty_template (sh_params sh)))) \/ later_cases (final_template sh) sh c.
Proof.
  intros Hin. unfold coverage_cases in Hin. unfold later_cases. set (T := final_template sh) in *.
  destruct (sh_neg sh);
    [destruct (snd (duplicate_cases T (sh_params sh))); [destruct (snd (missing_cases T (sh_params sh)))|..]|];
    cbn [fst] in Hin; rewrite !in_app_iff in Hin; tauto.
Qed.

Lemma later_cases_kind T sh c : later_cases T sh c -> is_body_tail (c_kind c) = false.
Proof.
  intros [H|[H|H]].
  - apply param_cases_shape in H. destruct H as (p & m0 & tl & j & mj & _ & _ & _ & ->). reflexivity.
  - unfold combo_stage in H. rewrite !in_app_iff in H.
    destruct H as [H|[H|H]]; apply combo_cases_shape in H; destruct H as [(_ & tag & names & ->)|(tag & i & ->)]; reflexivity.
  - destruct (structural_cases _ _ _ _ H) as [_ Hs]. destruct (c_kind c); (reflexivity || discriminate Hs).
Qed.

(* a negative value placed into the template makes the case carry a negative part whatever the template holds;
   a positive one leaves the question to the template: so the label is right when the template holds positive
   values only, or when nothing positive is generated at all *)
Lemma later_cases_label_right T sh c :
  all_parts_pos (t_parts T) \/ (sh_pos sh = false /\ forallb (fun p => forallb is_neg (p_modes p)) (sh_params sh) = true) ->
  later_cases T sh c -> label_right c.
Proof.
  intros HT [H|[H|H]].
  - apply param_cases_shape in H. destruct H as (p & m0 & tl & j & mj & Hp & Em & Hj & ->).
    destruct mj.
    + destruct HT as [HT|[_ Hn]].
      * apply pos_label_right; [reflexivity| |reflexivity]. rewrite has_neg_part_mk. cbn [with_parameter snd].
        rewrite (has_neg_part_set _ _ HT). reflexivity.
      * pose proof (forallb_in _ _ _ Hn Hp) as Hpm. cbn beta in Hpm. rewrite Em in Hpm.
        cbn [forallb] in Hpm. apply andb_true_iff in Hpm. destruct Hpm as [_ Htl].
        discriminate (forallb_in _ _ _ Htl Hj).
    + apply neg_label_right; [reflexivity|left]. rewrite has_neg_part_mk. cbn [with_parameter snd].
      apply existsb_exists. eexists. split; [apply in_part_set|reflexivity].
  - assert (Hc : exists l negs, In c (combo_cases_for T sh l negs))
      by (unfold combo_stage in H; rewrite !in_app_iff in H; destruct H as [H|[H|H]]; eauto).
    destruct Hc as (l & negs & Hc). apply combo_cases_shape in Hc.
    destruct Hc as [(Ep & tag & names & ->)|(tag & i & ->)].
    + destruct HT as [HT|[Hp _]]; [|congruence].
      apply pos_label_right; [reflexivity| |reflexivity]. rewrite has_neg_part_mk. cbn [with_container snd].
      rewrite (has_neg_replace _ _ _ HT). apply all_parts_pos_no_neg, all_parts_pos_filter, all_parts_pos_filter, HT.
    + apply neg_label_right; [reflexivity|left]. rewrite has_neg_part_mk. apply neg_replace. reflexivity.
  - destruct (structural_cases _ _ _ _ H). apply neg_label_right; auto.
Qed.

(* the label of a case is right in both regions: the template built from positive values only (body tails apart),
   and negative-only generation *)
Lemma case_label_iff sh c : In c (fst (coverage_cases sh)) ->
  template_positive sh = true /\ is_body_tail (c_kind c) = false \/ all_modes_neg sh = true -> label_right c.
Proof.
  intros Hin H. apply cases_pieces in Hin. unfold final_template in Hin.
  set (T0 := build_template empty_template (sh_params sh)) in *.
  destruct H as [[Htp Hk]|Han].
  - unfold template_positive in Htp. apply andb_true_iff in Htp. destruct Htp as [Hps Hbs].
    assert (HT : all_parts_pos (t_parts (fst (body_stage sh T0)))).
    { apply body_stage_all_pos; [exact (build_template_all_pos _ empty_template Hps (Forall_nil _))|].
      intros E. rewrite E in Hbs. discriminate Hbs. }
    destruct Hin as [Hin|Hin].
    + exact (body_stage_label_right sh T0 c Hin (or_introl (conj HT Hk))).
    + exact (later_cases_label_right _ sh c (or_introl HT) Hin).
  - unfold all_modes_neg in Han. rewrite !andb_true_iff, negb_true_iff in Han. destruct Han as [[Hp Hps] Hbs].
    destruct Hin as [Hin|Hin].
    + exact (body_stage_label_right sh T0 c Hin (or_intror (conj Hp Hbs))).
    + exact (later_cases_label_right _ sh c (or_intror (conj Hp Hps)) Hin).
Qed.

Definition no_combo : nat * list nat := (O, []).

(* one JSON body whose generator yields a positive then a negative value *)
Definition sh_tail : shape :=
  {| sh_params := []; sh_bodies := [{| b_media := 0%N; b_modes := [Pos; Neg] |}];
     sh_pos := true; sh_neg := true; sh_methods := [];
     sh_combo_query := no_combo; sh_combo_header := no_combo; sh_combo_cookie := no_combo |}.

Definition c_tail : case :=
  {| c_kind := KBodyTail 0 1; c_mode := Pos; c_comps := [(CBody, Neg)];
     c_parts := [{| pt_kind := CBody; pt_name := 0%N; pt_src := FromGen 1; pt_mode := Neg |}] |}.

(* an optional query parameter whose schema has no type (minimum: 5): its only
   value is negative and becomes part of the template *)
Definition sh_tmpl : shape :=
  {| sh_params := [{| p_loc := LQuery; p_name := 0%N; p_required := false; p_modes := [Neg] |}];
     sh_bodies := []; sh_pos := true; sh_neg := true; sh_methods := [];
     sh_combo_query := no_combo; sh_combo_header := no_combo; sh_combo_cookie := no_combo |}.

Definition c_tmpl : case :=
  {| c_kind := KDefault; c_mode := Pos; c_comps := [(CQuery, Neg)];
     c_parts := [{| pt_kind := CQuery; pt_name := 0%N; pt_src := FromGen 0; pt_mode := Neg |}] |}.

(* an operation with a required query parameter, an optional header and a body, inside the region
   template_positive *)
Definition sh_ok : shape :=
  {| sh_params := [{| p_loc := LHeader; p_name := 1%N; p_required := false; p_modes := [Pos; Pos; Neg] |};
                   {| p_loc := LQuery; p_name := 0%N; p_required := true; p_modes := [Pos; Neg; Neg] |}];
     sh_bodies := [{| b_media := 0%N; b_modes := [Pos; Pos] |}];
     sh_pos := true; sh_neg := true; sh_methods := [5%N; 6%N];
     sh_combo_query := no_combo; sh_combo_header := no_combo; sh_combo_cookie := no_combo |}.

Definition sh_negonly : shape :=
  {| sh_params := [{| p_loc := LQuery; p_name := 0%N; p_required := true; p_modes := [Neg; Neg] |}];
     sh_bodies := [{| b_media := 0%N; b_modes := [Neg; Neg] |}];
     sh_pos := false; sh_neg := true; sh_methods := [5%N];
     sh_combo_query := no_combo; sh_combo_header := no_combo; sh_combo_cookie := no_combo |}.

Lemma cover_sub_negative_ctx c s m :
  sub_respects_modes s = true -> In m (cover_sub (with_negative_ctx c) s) -> m = Neg.
Proof.
  unfold sub_respects_modes, cover_sub, with_negative_ctx. cbn [fst snd app].
  intros H Hin. apply andb_true_iff in H. destruct H as [_ H].
  apply is_neg_Neg. exact (forallb_in _ _ _ H Hin).
Qed.

Lemma wrap_all_labels c mk subs it :
  forallb sub_respects_modes subs = true -> In it (wrap_all c mk subs) ->
  oi_label it = Neg /\ oi_sub it = Some Neg.
Proof.
  intros H Hin. unfold wrap_all in Hin. apply in_flat_map in Hin. destruct Hin as ([i s] & His & Hin).
  apply enumerate_in in His. pose proof (forallb_in _ _ _ H His) as Hs.
  apply in_map_iff in Hin. destruct Hin as (m & Hit & Hm). cbn [fst snd] in *. subst it. cbn [oi_label oi_sub].
  split; [reflexivity|]. f_equal. eapply cover_sub_negative_ctx; eassumption.
Qed.

Definition key_respects_modes (k : okey) : bool :=
  match k with
  | OKProperties subs | OKPatternProperties subs => forallb sub_respects_modes subs
  | OKItems sub => sub_respects_modes sub
  | _ => true
  end.

Lemma object_key_negatives_labels c tok k it :
  key_respects_modes k = true -> In it (object_key_negatives c tok k) ->
  oi_label it = Neg /\ (oi_sub it = Some Neg \/ oi_sub it = None).
Proof.
  intros Hkr Hin. destruct k as [subs|subs|sub|n|a]; cbn [object_key_negatives key_respects_modes] in *.
  - (* properties *)
    destruct tok; [|destruct Hin]. destruct (wrap_all_labels _ _ _ _ Hkr Hin) as [H1 H2]. split; [exact H1|left; exact H2].
  - (* patternProperties *)
    destruct tok; [|destruct Hin]. destruct (wrap_all_labels _ _ _ _ Hkr Hin) as [H1 H2]. split; [exact H1|left; exact H2].
  - (* items *)
    apply in_map_iff in Hin. destruct Hin as (m & <- & Hm). cbn [oi_label oi_sub].
    split; [reflexivity|left]. f_equal. eapply cover_sub_negative_ctx; eassumption.
  - (* required: a property removed *)
    destruct tok; [|destruct Hin]. apply in_map_iff in Hin. destruct Hin as (i & <- & _). split; [reflexivity|right; reflexivity].
  - (* additionalProperties: an undeclared property added *)
    destruct (addl_falsy a && tok); [|destruct Hin]. destruct Hin as [<-|[]]. split; [reflexivity|right; reflexivity].
Qed.

Lemma additional_negative_refuted :
  object_negatives (true, true) true [OKAdditional AddlEmptySchema] = [{| oi_label := Neg; oi_via := WAdditional; oi_sub := None |}]
  /\ addl_forbids AddlEmptySchema = false.
Proof. vm_compute. intuition. Qed.

(* wrap_all with the sub-schema iterated under the caller's context instead of with_negative (not the code) *)
Definition wrap_all_callers_ctx (c : gctx) (mk : nat -> wrapper) (subs : list osub) : list oitem :=
  flat_map (fun is => map (fun m => {| oi_label := Neg; oi_via := mk (fst is); oi_sub := Some m |}) (cover_sub c (snd is)))
           (enumerate_from 0 subs).

Definition sub_string : osub := {| os_pos := [Pos; Pos; Pos]; os_neg := [Neg; Neg; Neg] |}.

Lemma schema_through_none {S} (c : list (ckey * S)) p : schema_through CacheNone c p = (dp_schema p, c).
Proof. reflexivity. Qed.

(* a policy that hands out, for every declared parameter, the schema declared for it (and goes on doing so: I is
   what holds of its cache) plans like the code, which asks the parameter every time *)
Section Faithful.
Context {S : Type} (pol : cache_policy) (params : list (dparam S)) (I : list (ckey * S) -> Prop).
Hypothesis faithful : forall c p, I c -> In p params ->
  fst (schema_through pol c p) = dp_schema p /\ I (snd (schema_through pol c p)).

Lemma combination_props_faithful pset comb : forall acc c c0, I c -> (forall p, In p pset -> In p params) ->
  fst (combination_props pol pset comb acc c) = fst (combination_props CacheNone pset comb acc c0)
  /\ I (snd (combination_props pol pset comb acc c)).
Proof.
  induction pset as [|p r IH]; intros acc c c0 Hc Hsub; cbn [combination_props]; [split; [reflexivity|exact Hc]|].
  assert (Hr : forall q, In q r -> In q params) by (intros q Hq; apply Hsub; right; exact Hq).
  destruct (mem_name (dp_name p) comb); [|apply IH; assumption].
  destruct (faithful c p Hc (Hsub p (or_introl eq_refl))) as [Hs Hc']. rewrite Hs. apply IH; assumption.
Qed.

Lemma optional_subschemas_faithful pos neg l pset base required opts : forall c c0,
  I c -> (forall p, In p pset -> In p params) ->
  fst (optional_subschemas pol pos neg l pset base required opts c)
  = fst (optional_subschemas CacheNone pos neg l pset base required opts c0)
  /\ I (snd (optional_subschemas pol pos neg l pset base required opts c)).
Proof.
  induction opts as [|o r IH]; intros c c0 Hc Hsub; cbn [optional_subschemas]; [split; [reflexivity|exact Hc]|].
  destruct (negb _ && pos && neg); cbn [fst snd]; [|apply IH; assumption].
  destruct (combination_props_faithful pset (filter (fun n => mem_name n required || N.eqb n o) base) [] c c0 Hc Hsub) as [Hf Hc'].
  destruct (IH _ (snd (combination_props CacheNone pset (filter (fun n => mem_name n required || N.eqb n o) base) [] c0)) Hc' Hsub) as [Hf2 Hc2].
  rewrite Hf, Hf2. split; [reflexivity|exact Hc2].
Qed.

Lemma combo_subschemas_for_faithful pos neg l c c0 : I c ->
  fst (combo_subschemas_for pol pos neg params l c) = fst (combo_subschemas_for CacheNone pos neg params l c0)
  /\ I (snd (combo_subschemas_for pol pos neg params l c)).
Proof.
  intros Hc. unfold combo_subschemas_for.
  assert (Hsub : forall p, In p (filter (at_loc l) params) -> In p params) by (intros p Hp; apply filter_In in Hp; tauto).
  destruct (filter (at_loc l) params) as [|p0 pr] eqn:Epset; [split; [reflexivity|exact Hc]|].
  rewrite <- Epset in *. clear Epset. cbn [fst snd].
  set (pset := filter (at_loc l) params) in *.
  set (base := dedup (map dp_name (filter dp_in_template pset))).
  set (required := dedup (map dp_name (filter dp_required pset))).
  destruct required as [|r0 rr] eqn:Ereq; [cbn [fst snd]; apply optional_subschemas_faithful; assumption|].
  rewrite <- Ereq. destruct (negb _ && neg); cbn [fst snd]; [|apply optional_subschemas_faithful; assumption].
  destruct (combination_props_faithful pset (filter (fun n => mem_name n required) base) [] c c0 Hc Hsub) as [Hf Hc'].
  destruct (optional_subschemas_faithful pos neg l pset base required
              (sort_names (filter (fun n => negb (mem_name n required)) (dedup (map dp_name pset))))
              _ (snd (combination_props CacheNone pset (filter (fun n => mem_name n required) base) [] c0)) Hc' Hsub) as [Hf2 Hc2].
  rewrite Hf, Hf2. split; [reflexivity|exact Hc2].
Qed.

Lemma combo_plan_faithful pos neg : I [] -> combo_plan pol pos neg params = combo_plan CacheNone pos neg params.
Proof.
  intros H0. unfold combo_plan.
  destruct (combo_subschemas_for_faithful pos neg LQuery [] [] H0) as [H1 K1].
  destruct (combo_subschemas_for_faithful pos neg LHeader _ (snd (combo_subschemas_for CacheNone pos neg params LQuery [])) K1) as [H2 K2].
  destruct (combo_subschemas_for_faithful pos neg LCookie _ (snd (combo_subschemas_for CacheNone pos neg params LHeader (snd (combo_subschemas_for CacheNone pos neg params LQuery [])))) K2) as [H3 _].
  rewrite H1, H2, H3. reflexivity.
Qed.
End Faithful.

(* the code's own policy is faithful whatever the cache holds, and leaves it as it is *)
Lemma optional_subschemas_none_cache {S} pos neg l (pset : list (dparam S)) base required opts c :
  snd (optional_subschemas CacheNone pos neg l pset base required opts c) = c.
Proof.
  symmetry. refine (proj2 (optional_subschemas_faithful CacheNone pset (eq c) _ pos neg l pset base required opts c c eq_refl (fun p H => H))).
  intros c' p <- _. split; reflexivity.
Qed.

(* ... so what an earlier block left behind is irrelevant *)
Lemma combo_subschemas_for_none_irrelevant {S} pos neg (params : list (dparam S)) l c1 c2 :
  fst (combo_subschemas_for CacheNone pos neg params l c1) = fst (combo_subschemas_for CacheNone pos neg params l c2).
Proof.
  apply (combo_subschemas_for_faithful CacheNone params (fun _ => True)); [|exact Logic.I].
  intros c p _ _. split; [reflexivity|exact Logic.I].
Qed.

Lemma combination_props_none_in {S} (pset : list (dparam S)) comb acc c n s :
  In (n, s) (fst (combination_props CacheNone pset comb acc c)) ->
  In (n, s) acc \/ exists p, In p pset /\ dp_name p = n /\ dp_schema p = s.
Proof.
  revert acc. induction pset as [|p r IH]; intros acc; cbn [combination_props].
  - cbn [fst]. tauto.
  - destruct (mem_name (dp_name p) comb).
    + rewrite schema_through_none. cbn [fst snd]. intros H. destruct (IH _ H) as [H'|(q & Hq & Hn & Hs)].
      * destruct (prop_set_in _ _ _ _ _ H') as [[Hn Hs]|H''].
        -- right. exists p. split; [left; reflexivity|]. split; congruence.
        -- left. exact H''.
      * right. exists q. split; [right; exact Hq|]. split; assumption.
    + intros H. destruct (IH _ H) as [H'|(q & Hq & Hn & Hs)]; [left; exact H'|].
      right. exists q. split; [right; exact Hq|]. split; assumption.
Qed.

Lemma optional_subschemas_none_in {S} pos neg l (pset : list (dparam S)) base required opts c ss :
  In ss (fst (optional_subschemas CacheNone pos neg l pset base required opts c)) ->
  ss_loc ss = l /\ ss_required ss = required /\
  forall n s, In (n, s) (ss_props ss) -> exists p, In p pset /\ dp_name p = n /\ dp_schema p = s.
Proof.
  revert c. induction opts as [|o r IH]; intros c; cbn [optional_subschemas]; [intros []|].
  destruct (negb _ && pos && neg); cbn [fst].
  - intros [H|H].
    + subst ss. cbn [ss_loc ss_required ss_props]. repeat split.
      intros n s Hin. destruct (combination_props_none_in _ _ _ _ _ _ Hin) as [[]|Hp]. exact Hp.
    + exact (IH _ H).
  - exact (IH c).
Qed.

Definition declared_here {S} (params : list (dparam S)) (l : loc) (n : N) (p : dparam S) : Prop :=
  In p params /\ dp_loc p = l /\ dp_name p = n.

Lemma declared_at_intro {S} (params : list (dparam S)) l n p : declared_here params l n p -> In p (declared_at params l n).
Proof.
  unfold declared_at, declared_here. rewrite filter_In, andb_true_iff, N.eqb_eq.
  intros (H1 & <- & H3). split; [exact H1|split; [apply loc_eqb_refl|exact H3]].
Qed.

Lemma in_at_loc {S} (params : list (dparam S)) l p : In p (filter (at_loc l) params) -> In p params /\ dp_loc p = l.
Proof.
  intros H. apply filter_In in H. destruct H as [H1 H2]. split; [exact H1|].
  unfold at_loc in H2. symmetry. apply loc_eqb_eq. exact H2.
Qed.

Lemma combo_subschemas_for_none_in {S} pos neg (params : list (dparam S)) l c ss :
  In ss (fst (combo_subschemas_for CacheNone pos neg params l c)) ->
  ss_loc ss = l
  /\ (forall n s, In (n, s) (ss_props ss) -> exists p, declared_here params l n p /\ dp_schema p = s)
  /\ (forall n, In n (ss_required ss) -> exists p, declared_here params l n p /\ dp_required p = true).
Proof.
  unfold combo_subschemas_for.
  set (pset := filter (at_loc l) params).
  assert (Hreq : forall n, In n (dedup (map dp_name (filter dp_required pset))) ->
                           exists p, declared_here params l n p /\ dp_required p = true).
  { intros n Hn. apply dedup_in in Hn. apply in_map_iff in Hn. destruct Hn as (p & Hname & Hp).
    apply filter_In in Hp. destruct Hp as [Hp Hr]. destruct (in_at_loc _ _ _ Hp) as [Hin Hl].
    exists p. split; [split; [exact Hin|split; assumption]|exact Hr]. }
  assert (Hprops : forall n s, (exists p, In p pset /\ dp_name p = n /\ dp_schema p = s) ->
                               exists p, declared_here params l n p /\ dp_schema p = s).
  { intros n s (p & Hp & Hn & Hs). destruct (in_at_loc _ _ _ Hp) as [Hin Hl].
    exists p. split; [split; [exact Hin|split; assumption]|exact Hs]. }
  destruct pset as [|p0 pr] eqn:Epset; [intros []|].
  rewrite <- Epset in *. clear Epset.
  set (required := dedup (map dp_name (filter dp_required pset))) in *.
  cbn [fst snd]. intros Hin. apply in_app_or in Hin. destruct Hin as [Hin|Hin].
  - destruct required as [|r0 rr] eqn:Ereq; [destruct Hin|]. rewrite <- Ereq in *.
    destruct (negb _ && neg); [|destruct Hin]. cbn [fst] in Hin. destruct Hin as [Hin|[]]. subst ss.
    cbn [ss_loc ss_props ss_required]. split; [reflexivity|]. split.
    + intros n s H. apply Hprops. destruct (combination_props_none_in _ _ _ _ _ _ H) as [[]|Hp]. exact Hp.
    + exact Hreq.
  - apply optional_subschemas_none_in in Hin. destruct Hin as (Hl & Hr & Hp). split; [exact Hl|]. split.
    + intros n s H. apply Hprops. exact (Hp n s H).
    + rewrite Hr. exact Hreq.
Qed.

Lemma combo_negative_values_in {S} (keys_of : S -> list nkey) (ss : subschema S) name it :
  In (name, it) (combo_negative_values keys_of ss) ->
  exists s, In (name, s) (ss_props ss) /\ In it (negative_numbers (keys_of s) []).
Proof.
  intros Hin. apply in_flat_map in Hin. destruct Hin as ([n s] & Hns & Hit).
  apply in_map_iff in Hit. destruct Hit as (it' & [= <- <-] & Hit). exists s. split; assumption.
Qed.

Lemma filter_at_loc_idem {S} (params : list (dparam S)) l :
  filter (at_loc l) (filter (at_loc l) params) = filter (at_loc l) params.
Proof.
  induction params as [|p r IH]; cbn [filter]; [reflexivity|].
  destruct (at_loc l p) eqn:E; cbn [filter]; [rewrite E, IH; reflexivity|exact IH].
Qed.

(* a cache keyed by the full identity (location, name) is faithful while it agrees with the declarations *)
Definition cache_ok {S} (params : list (dparam S)) (c : list (ckey * S)) : Prop :=
  forall l n s, cache_get (Some l, n) c = Some s ->
  forall p, In p params -> dp_loc p = l -> dp_name p = n -> dp_schema p = s.

Lemma distinct_identities_functional {S} (params : list (dparam S)) :
  distinct_identities params = true ->
  forall p q, In p params -> In q params -> dp_loc p = dp_loc q -> dp_name p = dp_name q -> p = q.
Proof.
  induction params as [|a r IH]; cbn [distinct_identities]; [intros _ p q []|].
  intros H. apply andb_true_iff in H. destruct H as [Ha Hr]. apply negb_true_iff in Ha.
  assert (Hno : forall q, In q r -> dp_loc a = dp_loc q -> dp_name a = dp_name q -> False).
  { intros q Hq Hl Hn. pose proof (existsb_false_In _ _ q Ha Hq) as E. cbn beta in E.
    rewrite Hl, Hn, loc_eqb_refl, N.eqb_refl in E. discriminate E. }
  intros p q [Hp|Hp] [Hq|Hq] Hl Hn.
  - congruence.
  - subst a. exfalso. exact (Hno q Hq Hl Hn).
  - subst a. exfalso. symmetry in Hl, Hn. exact (Hno p Hp Hl Hn).
  - exact (IH Hr p q Hp Hq Hl Hn).
Qed.

Lemma schema_through_locname {S} (params : list (dparam S)) c p :
  distinct_identities params = true -> cache_ok params c -> In p params ->
  fst (schema_through CacheByLocName c p) = dp_schema p /\ cache_ok params (snd (schema_through CacheByLocName c p)).
Proof.
  intros Hd Hok Hp. unfold schema_through. cbn [cache_key].
  destruct (cache_get (Some (dp_loc p), dp_name p) c) as [s|] eqn:E; cbn [fst snd].
  - split; [|exact Hok]. symmetry. exact (Hok _ _ _ E p Hp eq_refl eq_refl).
  - split; [reflexivity|]. intros l n s Hget q Hq Hl Hn. cbn [cache_get] in Hget.
    destruct (ckey_eqb (Some l, n) (Some (dp_loc p), dp_name p)) eqn:Ek.
    + inversion Hget. subst s. unfold ckey_eqb in Ek. cbn [fst snd] in Ek. apply andb_true_iff in Ek. destruct Ek as [E1 E2].
      apply loc_eqb_eq in E1. apply N.eqb_eq in E2.
      assert (q = p) as -> by (apply (distinct_identities_functional params Hd); congruence). reflexivity.
    + exact (Hok _ _ _ Hget q Hq Hl Hn).
Qed.


(* witness for the cache keyed by the name alone.  GET /items: id in query (required, integer, maximum 10), q and r in query (optional),
   id in header (required, integer, no bound), t in header (optional): names 0 = id, 1 = q, 2 = r, 3 = t *)
Definition w_shared : list (dparam (list nkey)) :=
  [ {| dp_loc := LHeader; dp_name := 0%N; dp_required := true;  dp_in_template := true; dp_schema := [] |};
    {| dp_loc := LHeader; dp_name := 3%N; dp_required := false; dp_in_template := true; dp_schema := [] |};
    {| dp_loc := LQuery;  dp_name := 0%N; dp_required := true;  dp_in_template := true; dp_schema := [KMaximum 10] |};
    {| dp_loc := LQuery;  dp_name := 1%N; dp_required := false; dp_in_template := true; dp_schema := [KMinimum 1] |};
    {| dp_loc := LQuery;  dp_name := 2%N; dp_required := false; dp_in_template := true; dp_schema := [] |} ].

Definition w_shared_header_block : subschema (list nkey) :=
  {| ss_loc := LHeader; ss_tag := OnlyRequired; ss_props := [(0%N, [KMaximum 10])]; ss_required := [0%N] |}.

Lemma sd_has_filter t f d : sd_has t (filter f d) = existsb (fun p => jtype_eqb t (fst p) && f p) d.
Proof.
  induction d as [|p d IH]; [reflexivity|]. cbn [filter existsb]. rewrite <- IH.
  destruct (f p); [rewrite andb_true_r; reflexivity|rewrite andb_false_r; reflexivity].
Qed.

Lemma sd_set_in t s d : In (t, s) (sd_set t s d).
Proof.
  unfold sd_set, sd_has. destruct (existsb _ d) eqn:E; [|apply in_or_app; right; left; reflexivity].
  apply existsb_exists in E. destruct E as (p & Hp & E).
  apply in_map_iff. exists p. rewrite E. split; [reflexivity|exact Hp].
Qed.

Lemma sd_set_inv t s d p : In p (sd_set t s d) -> p = (t, s) \/ In p d /\ jtype_eqb t (fst p) = false.
Proof.
  unfold sd_set. destruct (sd_has t d) eqn:E; intros H.
  - apply in_map_iff in H. destruct H as (q & <- & Hq).
    destruct (jtype_eqb t (fst q)) eqn:Eq; [left; reflexivity|right; split; assumption].
  - apply in_app_or in H. destruct H as [H|[<-|[]]]; [right; split; [exact H|]|left; reflexivity].
    exact (existsb_false_In _ _ p E H).
Qed.

(* the strategies dict after the comprehension holds the table entries of the unlisted types *)
Lemma unlisted_in mem (p : jtype * strat) :
  In p (filter (fun p => negb (mem (fst p))) strategies_for_type) <-> In p strategies_for_type /\ mem (fst p) = false.
Proof. rewrite filter_In, negb_true_iff. reflexivity. Qed.

Lemma unlisted_has_integer mem :
  sd_has TInteger (filter (fun p => negb (mem (fst p))) strategies_for_type) = negb (mem TInteger).
Proof. rewrite sd_has_filter. cbn. apply orb_false_r. Qed.

Lemma negative_type_plan_with_total mem :
  (exists l, negative_type_plan_with mem = TypePlan l) <-> mem TNumber && mem TInteger = false.
Proof.
  unfold negative_type_plan_with. rewrite unlisted_has_integer. split.
  - intros [l H]. destruct (mem TNumber), (mem TInteger); (reflexivity || discriminate H).
  - intros H. destruct (mem TNumber), (mem TInteger); try discriminate H; eexists; reflexivity.
Qed.

(* every consulted strategy is the table's strategy for an unlisted type - the integer slot only when number is
   unlisted too, the number slot only when integer is - or the fractional floats put into the number slot *)
Lemma negative_type_plan_with_entries mem l s :
  negative_type_plan_with mem = TypePlan l -> In s l ->
  (s = SFracFloats /\ mem TNumber = false) \/
  exists t, In (t, s) strategies_for_type /\ mem t = false
            /\ (t = TInteger -> mem TNumber = false) /\ (t = TNumber -> mem TInteger = false).
Proof.
  unfold negative_type_plan_with. rewrite unlisted_has_integer.
  pose proof (unlisted_in mem) as Hd. set (d := filter _ strategies_for_type) in *. clearbody d.
  destruct (mem TNumber) eqn:EN; destruct (mem TInteger) eqn:EI; cbn [negb]; intros [= <-] Hin;
    apply in_map_iff in Hin; destruct Hin as ([t s'] & Hs & Hin); cbn [snd] in Hs; subst s'.
  - apply filter_In in Hin. destruct Hin as [Hin Ht]. apply Hd in Hin. destruct Hin as [Hin Hm].
    right. exists t. split; [exact Hin|split; [exact Hm|split; [intros ->; discriminate Ht|intros _; reflexivity]]].
  - apply sd_set_inv in Hin. destruct Hin as [[= -> ->]|[Hin Ht]]; [left; repeat split|].
    apply Hd in Hin. destruct Hin as [Hin Hm].
    right. exists t. split; [exact Hin|split; [exact Hm|split; [intros _; reflexivity|intros ->; discriminate Ht]]].
  - apply Hd in Hin. destruct Hin as [Hin Hm].
    right. exists t. split; [exact Hin|split; [exact Hm|split; intros _; reflexivity]].
Qed.

Lemma existsb_unlisted (f : jtype -> bool) types :
  (forall t, f t = true -> type_in t types = false) -> existsb f types = false.
Proof.
  induction types as [|a r IH]; intros H; cbn; [reflexivity|].
  destruct (f a) eqn:Ha.
  - specialize (H a Ha). unfold type_in in H. cbn in H. rewrite jtype_eqb_refl in H. discriminate H.
  - cbn. apply IH. intros t Ht. specialize (H t Ht). unfold type_in in *. cbn in H.
    apply orb_false_iff in H. destruct H as [_ H]. exact H.
Qed.

(* a strategy of the table draws values of its own type only, but for the overlap of integer and number *)
Lemma table_strategy_types t' s k t :
  In (t', s) strategies_for_type -> draws s k = true -> has_type t k = true ->
  t = t' \/ t' = TInteger /\ t = TNumber \/ t' = TNumber /\ t = TInteger.
Proof.
  cbn. intros H Hd Ht.
  repeat (destruct H as [[= <- <-]|H]; [destruct k; try discriminate Hd; destruct t; try discriminate Ht; tauto|]).
  destruct H.
Qed.

Lemma negative_type_plan_with_sound mem l s k :
  negative_type_plan_with mem = TypePlan l -> In s l -> draws s k = true ->
  forall t, has_type t k = true -> mem t = false.
Proof.
  intros Hp Hin Hd t Ht.
  destruct (negative_type_plan_with_entries mem l s Hp Hin) as [(-> & EN)|(t' & Ht' & Hm & HI & HN)].
  - (* the fractional floats: numbers only, and number is unlisted *)
    destruct k; try discriminate Hd. destruct t; try discriminate Ht. exact EN.
  - destruct (table_strategy_types t' s k t Ht' Hd Ht) as [->|[[-> ->]|[-> ->]]]; auto.
Qed.

Lemma negative_type_plan_with_ext m1 m2 :
  (forall t, m1 t = m2 t) -> negative_type_plan_with m1 = negative_type_plan_with m2.
Proof.
  intros H. unfold negative_type_plan_with.
  rewrite (filter_ext _ (fun p => negb (m2 (fst p)))) by (intros p; rewrite H; reflexivity).
  rewrite !H. reflexivity.
Qed.

Lemma negative_type_plan_str_is_singleton t : negative_type_plan (TyStr t) = negative_type_plan (TyList [t]).
Proof. reflexivity. Qed.

Lemma strategies_for_type_slots t s :
  In (t, s) strategies_for_type -> (s = SIntegers -> t = TInteger) /\ (s = SNumeric -> t = TNumber).
Proof.
  cbn. intros H.
  repeat (destruct H as [[= <- <-]|H]; [split; intros E; (reflexivity || discriminate E)|]). destruct H.
Qed.

Lemma string_only_conforms l k :
  forallb (jtype_eqb TString) l = true -> existsb (fun t => has_type t k) l = true -> k = KStr.
Proof.
  induction l as [|a r IH]; cbn; intros Hs Hc; [discriminate Hc|].
  apply andb_true_iff in Hs. destruct Hs as [Ha Hr].
  apply orb_true_iff in Hc. destruct Hc as [Hc|Hc]; [|exact (IH Hr Hc)].
  destruct a; try discriminate Ha. destruct k; try discriminate Hc. reflexivity.
Qed.

Lemma least_multiple_unique : forall y x r r', 0 < x ->
  least_multiple_at_least y x r = true -> least_multiple_at_least y x r' = true -> r = r'.
Proof.
  intros y x r r' Hx H1 H2. unfold least_multiple_at_least in *.
  apply andb_prop in H1 as [H1 M1]. apply andb_prop in H1 as [L1 U1].
  apply andb_prop in H2 as [H2 M2]. apply andb_prop in H2 as [L2 U2].
  apply Z.leb_le in L1, L2. apply Z.ltb_lt in U1, U2. apply Z.eqb_eq in M1, M2.
  pose proof (Z.div_mod r x ltac:(lia)) as D1. pose proof (Z.div_mod r' x ltac:(lia)) as D2.
  rewrite M1 in D1. rewrite M2 in D2.
  assert (r / x = r' / x) by nia.
  congruence.
Qed.

(* ceil (t / P), written - ((- t) / P), is the k with (k - 1) * P < t <= k * P *)
Lemma ceil_div_bounds t P : 0 < P -> (- ((- t) / P) - 1) * P < t <= - ((- t) / P) * P.
Proof. intros HP. pose proof (Z.div_mod (- t) P ltac:(lia)). pose proof (Z.mod_pos_bound (- t) P HP). lia. Qed.

Lemma ceil_div_unique t P k : 0 < P -> (k - 1) * P < t <= k * P -> - ((- t) / P) = k.
Proof. intros HP H. symmetry. apply Z.opp_inj_wd. rewrite Z.opp_involutive. apply (Z.div_unique _ _ _ (k * P - t)); lia. Qed.

Lemma cmgt_ceil y x : 0 < x -> closest_multiple_greater_than y x = x * - ((- y) / x).
Proof.
  intros Hx. unfold closest_multiple_greater_than.
  pose proof (Z.div_mod y x ltac:(lia)). pose proof (Z.mod_pos_bound y x Hx).
  rewrite (ceil_div_unique y x (if y mod x =? 0 then y / x else y / x + 1) Hx); destruct (Z.eqb_spec (y mod x) 0); lia.
Qed.

Lemma round_half_even_near n d : 0 < d ->
  let m := round_half_even n d in 2 * d * m - d <= 2 * n <= 2 * d * m + d.
Proof.
  intros Hd. unfold round_half_even.
  pose proof (Z.div_mod n d ltac:(lia)) as Hn. pose proof (Z.mod_pos_bound n d Hd) as Hr.
  destruct (Z.ltb_spec (2 * (n mod d)) d); [|destruct (Z.ltb_spec d (2 * (n mod d))); [|destruct (Z.even (n / d))]]; cbv zeta; lia.
Qed.

(* |y| / x scaled by P > x / 2 and rounded to nearest: the error 1/2 is less than the distance P / x of a non-integral
   scaled quotient from the multiples of P, so its ceil after scaling back is that of y / x *)
Lemma scaled_round_ceil y x P : 0 < x -> x < 2 * P ->
  - (- (Z.sgn y * round_half_even (Z.abs y * P) x) / P) = - ((- y) / x).
Proof.
  intros Hx HP. pose proof (round_half_even_near (Z.abs y * P) x Hx) as Hm. cbv zeta in Hm.
  pose proof (ceil_div_bounds y x Hx) as Hk. apply ceil_div_unique; [lia|].
  revert Hm Hk. generalize (round_half_even (Z.abs y * P) x) as m, (- ((- y) / x)) as k. intros m k Hm Hk.
  destruct (Z.sgn_spec y) as [[Hy ->]|[[Hy ->]|[Hy ->]]]; nia.
Qed.

Lemma float53_exact_below_2_53 y x : 0 < x -> Z.abs y < 2 ^ 53 ->
  closest_multiple_float53 y x = closest_multiple_greater_than y x.
Proof.
  intros Hx Hy. rewrite (cmgt_ceil y x Hx). unfold closest_multiple_float53. f_equal.
  unfold float53_quotient_ceil. rewrite (Z.abs_eq x), (Z.sgn_pos x), Z.mul_1_r by lia.
  destruct (Z.eqb_spec (Z.abs y) 0) as [E0|E0]; [replace y with 0 by lia; reflexivity|].
  (* the exponent: e <= e0 <= - log2 x, hence x < 2 * 2 ^ (- e) *)
  set (a := Z.abs y) in *. set (e0 := Z.log2 a - Z.log2 x - 52).
  set (e := if _ <? _ then e0 - 1 else e0).
  assert (He : e <= - Z.log2 x).
  { pose proof (proj1 (Z.log2_lt_pow2 a 53 ltac:(lia)) Hy). subst e. destruct (_ <? _); lia. }
  clearbody e. pose proof (Z.log2_nonneg x) as Hlx.
  assert (HP : x < 2 * 2 ^ (- e)).
  { rewrite <- Z.pow_succ_r by lia. eapply Z.lt_le_trans; [exact (proj2 (Z.log2_spec x Hx))|]. apply Z.pow_le_mono_r; lia. }
  rewrite <- (scaled_round_ceil y x _ Hx HP). fold a.
  destruct (Z.leb_spec 0 e); [|reflexivity].
  replace e with 0 by lia. change (2 ^ (- 0)) with 1. change (2 ^ 0) with 1. rewrite !Z.mul_1_r, Z.div_1_r. lia.
Qed.

Definition float53_agrees_on (ys xs : list Z) : bool :=
  forallb (fun y => forallb (fun x => closest_multiple_float53 y x =? closest_multiple_greater_than y x) xs) ys.

Lemma float53_agrees_on_intro ys xs :
  (forall y x, In y ys -> In x xs -> closest_multiple_float53 y x = closest_multiple_greater_than y x) ->
  float53_agrees_on ys xs = true.
Proof.
  intros H. apply forallb_forall. intros y Hy. apply forallb_forall. intros x Hx. apply Z.eqb_eq, H; assumption.
Qed.

Lemma zrange_in lo n y : In y (zrange lo n) -> lo <= y < lo + Z.of_nat n.
Proof. intros H. apply in_map_iff in H. destruct H as (i & <- & Hi). apply in_seq in Hi. lia. Qed.

Lemma undocumented_spec d m : In m (undocumented d) <-> In m all_methods /\ ~ In m d.
Proof.
  unfold undocumented. rewrite filter_In, negb_true_iff, <- not_true_iff_false, (Str.mem_spec m d). reflexivity.
Qed.

Require Import ZifyBool. (* from here on lia reads boolean hypotheses; it slows every lia below, hence last *)

(* the string and the array planner have the same frame: a head, then a middle part that also returns the
   seen set, then a tail that consults it; what is claimed of the items does not depend on the seen set *)
Lemma Forall_plan_frame {A B} (P : A -> Prop) (M : list A * B) head (tail : B -> list A) :
  Forall P head -> Forall P (fst M) -> (forall seen, Forall P (tail seen)) ->
  Forall P (let '(mid, seen) := M in head ++ mid ++ tail seen).
Proof.
  destruct M as [mid seen]. intros Hh Hm Ht.
  apply Forall_app; split; [exact Hh|]. apply Forall_app; split; [exact Hm|apply Ht].
Qed.

(* one goal per item of a list built from [if], [++] and [::], each with the conditions on its path *)
Ltac forall_items :=
  repeat first [ apply Forall_nil | apply Forall_cons | apply Forall_app; split
               | match goal with |- Forall _ (if ?c then _ else _) => destruct c eqn:? end
               | match goal with |- Forall _ (fst (if ?c then _ else _)) => destruct c eqn:? end ].

Lemma string_plan_within s :
  range_ok (s_min s) (s_max s) = true ->
  Forall (fun it => within (s_min s) (s_max s) (snd (fst it)) (snd it) = true) (string_plan s).
Proof.
  destruct s as [mn mx pat au]. unfold string_plan, range_ok, within, truthy, inb, BUFFER_SIZE.
  cbn [s_min s_max s_pattern s_authored existsb]. intros Hr.
  (* minLength is split into 0, positive and negative: the planner turns 0 into None, range_ok excludes a negative one *)
  apply Forall_plan_frame; [| |intros seen].
  - (* head: the declared range itself *)
    destruct mn as [[|p|p]|], mx as [M|]; try discriminate Hr; forall_items; cbn [fst snd]; lia.
  - (* middle: minLength, and minLength + 1 under the guard maxLength = 0 \/ minLength + 1 <= maxLength; maxLength = 0
       cannot pass it wrongly, since 1 <= minLength <= maxLength here *)
    destruct mn as [[|p|p]|], mx as [M|]; try discriminate Hr; forall_items; cbn [fst snd]; lia.
  - (* tail: maxLength, and maxLength - 1 under the guards 0 < maxLength - 1 and minLength <= maxLength - 1 *)
    destruct mn as [[|p|p]|], mx as [M|]; try discriminate Hr; forall_items; cbn [fst snd]; lia.
Qed.

Lemma array_plan_within s L :
  range_ok (a_min s) (a_max s) = true ->
  within (a_min s) (a_max s) (Some L) (Some L) = true ->
  Forall (fun it => within (a_min s) (a_max s) (snd (fst it)) (snd it) = true) (array_plan s L).
Proof.
  destruct s as [mn mx au]. unfold array_plan, array_plan_with, range_ok, within, upper_absent_is_none, inb, BUFFER_SIZE.
  cbn [a_min a_max a_authored existsb]. intros Hr HL.
  apply Forall_plan_frame; [| |intros seen].
  - (* head: the template array, of size L *)
    destruct mn as [mn|], mx as [M|]; forall_items; cbn [fst snd]; lia.
  - (* middle: minItems + 1 under the guard maxItems is None \/ minItems + 1 <= maxItems *)
    destruct mn as [mn|], mx as [M|]; forall_items; cbn [fst snd]; lia.
  - (* tail: maxItems, and maxItems - 1 under the guards 0 < maxItems - 1 and minItems <= maxItems - 1 *)
    destruct mn as [mn|], mx as [M|]; forall_items; cbn [fst snd]; lia.
Qed.

Lemma within_size_valid : forall s lo hi n,
  within (a_min s) (a_max s) lo hi = true -> size_in_request lo hi n = true -> arr_size_valid s n = true.
Proof.
  intros [mn mx au] lo hi n Hw Hn. unfold within, size_in_request, arr_size_valid in *. cbn [a_min a_max] in *.
  destruct mn as [mn|]; destruct mx as [M|]; destruct lo as [l|]; destruct hi as [h|]; lia.
Qed.

Lemma size_valid_within s L :
  arr_size_valid s L = true -> within (a_min s) (a_max s) (Some L) (Some L) = true.
Proof.
  destruct s as [mn mx au]. unfold within, arr_size_valid. cbn [a_min a_max].
  destruct mn as [mn|]; destruct mx as [M|]; lia.
Qed.

(* witness schemas: an unsatisfiable range (minimum 3, maximum 0 or 1), an ordinary one, maxItems 0 *)
Definition w_str := {| s_min := Some 3; s_max := Some 0; s_pattern := false; s_authored := false |}.
Definition w_str_ok := {| s_min := Some 2; s_max := Some 5; s_pattern := false; s_authored := false |}.
Definition w_arr := {| a_min := Some 3; a_max := Some 1; a_authored := false |}.
Definition w_arr_ok := {| a_min := Some 1; a_max := Some 4; a_authored := false |}.
Definition w_arr_zero := {| a_min := Some 0; a_max := Some 0; a_authored := false |}.
Definition w_arr_zero_nomin := {| a_min := None; a_max := Some 0; a_authored := false |}.
