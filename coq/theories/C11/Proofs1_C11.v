(* One worker: the events are produced strictly one scenario after the other, so wherever the consumer stops
   (dead worker, failure limit) every announced scenario is closed unless a stop was requested. *)
From Coq Require Import List NArith Bool Arith Lia.
From Verif Require Import C11.Model_C11 C11.Proofs_C11.
Import ListNotations.

(* sequential reading of a history: at most one scenario open at a time *)
Fixpoint balance (open : option nat) (t : list ev) : option (option nat) :=
  match t with
  | [] => Some open
  | ScStart id :: r => match open with None => balance (Some id) r | Some _ => None end
  | NonFatal id :: r => match open with Some j => if Nat.eqb id j then balance open r else None | None => None end
  | ScFinish id _ :: r => match open with Some j => if Nat.eqb id j then balance None r else None | None => None end
  | Interrupt :: r => match open with None => balance None r | Some _ => None end
  end.

Lemma balance_app o a b : balance o (a ++ b) = match balance o a with Some o' => balance o' b | None => None end.
Proof.
  revert o. induction a as [|e a IH]; intros o; cbn; auto.
  destruct e; destruct o as [j|]; auto; destruct (Nat.eqb id j); auto.
Qed.

(* what the single worker still owes, read off its program counter *)
Definition wbal (h : list ev) (w : wpc) : Prop :=
  match w with
  | WLoop | WFetch | WDead | WStart _ => balance None h = Some None
  | WCheck o _ _ _ | WSend o _ _ _ => balance None h = Some (Some (op_id o))
  | WPut k => balance None (h ++ k) = Some None
  end.

Lemma wbal_next_case h o rest st : balance None h = Some (Some (op_id o)) -> wbal h (next_case o rest st).
Proof.
  intros H. destruct rest; [|exact H]. cbn.
  rewrite balance_app, H. unfold final_script. destruct st; cbn; rewrite Nat.eqb_refl; reflexivity.
Qed.

Lemma wbal_move c s w os added snt w' h : wmove c s w os added snt w' -> wbal h w -> wbal (h ++ added) w'.
Proof.
  intros M Hb. destruct M; cbn [wbal] in Hb; rewrite ?app_nil_r in *.
  - destruct (has_to_stop s); exact Hb.
  - exact Hb.
  - destruct (build_err o); [|exact Hb]. cbn. rewrite balance_app, Hb. cbn. rewrite Nat.eqb_refl. reflexivity.
  - apply wbal_next_case. rewrite balance_app, Hb. reflexivity.
  - destruct (has_to_stop s); [|exact Hb]. cbn. rewrite balance_app, Hb. cbn. rewrite Nat.eqb_refl. reflexivity.
  - unfold after_send. destruct c0; [|destruct (cof c)|]; auto using wbal_next_case; cbn; rewrite balance_app, Hb; cbn; rewrite !Nat.eqb_refl; reflexivity.
  - exact Hb.
  - destruct k; cbn [after_put wbal]; rewrite <- ?app_assoc; exact Hb.
Qed.

Definition inv1 (s : state) : Prop :=
  dropped s = [] -> exists w, workers s = [w] /\ wbal (hist s) w.

Lemma inv1_step c s l s' : trans c s l s' -> inv1 s -> inv1 s'.
Proof.
  intros T H1.
  step_cases T; try exact H1.
  - (* CRaise *) discriminate.
  - (* CYield *) unfold inv1, hist. cbn [emitted queue workers dropped]. rewrite (hist_yield s e q Eq). exact H1.
  - (* worker *) intros Hd. destruct (H1 Hd) as [w0 [Ew Hb]]. rewrite hist_moved. cbn [workers moved]. rewrite Ew in *.
    destruct i as [|[|i]]; try discriminate. inversion Hi; subst w0. exists w'. split; [reflexivity|]. eapply wbal_move; eassumption.
Qed.

Lemma inv1_init os : inv1 (init 1 os).
Proof. intros _. exists WLoop. split; reflexivity. Qed.

(* a balanced history closes every scenario it announces and the one that was open before it *)
Lemma balance_closed_gen t : forall o, balance o t = Some None ->
  forall id, In (ScStart id) t \/ o = Some id -> exists st, In (ScFinish id st) t.
Proof.
  induction t as [|e t IH]; intros o Hb id Hid; cbn in Hb.
  - destruct Hid as [[]| ->]; discriminate.
  - assert (Hlater : forall o', balance o' t = Some None -> In (ScStart id) t \/ o' = Some id ->
                       exists st, In (ScFinish id st) (e :: t)).
    { intros o' H1 H2. destruct (IH o' H1 id H2) as [st H]. exists st. right. exact H. }
    destruct e as [j|j|j st|]; destruct o as [k|]; try discriminate.
    + apply (Hlater (Some j) Hb). destruct Hid as [[H|H]|H]; [inversion H; auto | auto | discriminate].
    + destruct (Nat.eqb j k); [|discriminate]. apply (Hlater (Some k) Hb). destruct Hid as [[H|H]|H]; [discriminate | auto | auto].
    + destruct (Nat.eqb j k) eqn:E; [|discriminate]. apply Nat.eqb_eq in E. subst k. destruct Hid as [[H|H]|H].
      * discriminate.
      * apply (Hlater None Hb). auto.
      * inversion H. exists st. left. reflexivity.
    + apply (Hlater None Hb). destruct Hid as [[H|H]|H]; [discriminate | auto | discriminate].
Qed.

Lemma balance_closed t : balance None t = Some None -> all_closed t = true.
Proof.
  intros Hb. unfold all_closed. apply forallb_forall. intros id Hid. apply in_started_ids in Hid.
  destruct (balance_closed_gen t None Hb id (or_introl Hid)) as [st H].
  apply existsb_exists. exists (ScFinish id st). split; auto. cbn. apply Nat.eqb_refl.
Qed.

Lemma balance_snoc_finish pre id st o : balance None (pre ++ [ScFinish id st]) = Some o -> o = None.
Proof.
  rewrite balance_app. destruct (balance None pre) as [[j|]|]; cbn; try discriminate.
  destruct (Nat.eqb id j); [intros H; inversion H; reflexivity | discriminate].
Qed.
