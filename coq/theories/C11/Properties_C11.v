(* The theorems of C11, each with the argument that takes it from the invariants of the Proofs files. *)
From Coq Require Import List NArith Bool Arith Lia.
From Verif Require Import C11.Model_C11 C11.Proofs_C11 C11.Proofs1_C11 C11.ModelS_C11 C11.ProofsS_C11 C11.ModelP_C11 C11.ProofsP_C11 C11.ProofsP2_C11 C11.ModelE_C11.
Import ListNotations.

(* For every configuration, every behaviour of the operations, every number of workers and EVERY
   interleaving (schedule) including stop requests at any point: a closing event is never
   emitted without its opening one. *)
Theorem C11_finish_has_start : forall c sched n os,
  finishes_have_starts [] (trace (run c sched (init n os))) = true.
Proof. intros c sched n os. destruct (run_inv invA c (invA_step c) sched _ (invA_init n os)) as [H _]. exact H. Qed.
Print Assumptions C11_finish_has_start.

(* When the consumer leaves its loop and nobody asked to stop and the failure limit was not
   reached, every announced scenario has been closed (code as it is now: drain_fix = true). *)
Theorem C11_closed_unless_stopped : forall c sched n os,
  drain_fix c = true ->
  let s := run c sched (init n os) in
  cp s = CDone -> has_to_stop s = false -> all_closed (trace s) = true.
Proof. exact closed_unless_stopped. Qed.
Print Assumptions C11_closed_unless_stopped.

(* The property itself - an announced scenario may stay unclosed only if the run was interrupted -
   holds when no failure limit is configured ... *)
Theorem C11_closed_unless_interrupted_partial : forall c sched n os,
  drain_fix c = true -> maxf c = None ->
  let s := run c sched (init n os) in
  cp s = CDone -> stop s = false -> all_closed (trace s) = true.
Proof.
  intros c sched n os Hfix Hm s Hcp Hs. apply closed_unless_stopped; auto.
  destruct (invABC_run c sched n os Hfix) as (_ & _ & HC & _). unfold has_to_stop. fold s. rewrite Hs. exact (HC Hm).
Qed.
Print Assumptions C11_closed_unless_interrupted_partial.

(* ... and with ONE worker for every max_failures as well: its events are produced strictly one scenario after the
   other, so the emitted prefix is balanced wherever the consumer stops (dead worker or failure limit). *)
Theorem C11_closed_unless_interrupted_one_worker : forall c sched os,
  drain_fix c = true ->
  let s := run c sched (init 1 os) in
  cp s = CDone -> stop s = false -> all_closed (trace s) = true.
Proof.
  intros c sched os Hfix s Hcp Hstop.
  assert (H1 : inv1 s) by (apply (run_inv _ c (inv1_step c)), inv1_init).
  destruct (invPL_run c sched 1 os) as [_ [L1 L2]]. fold s in L1, L2.
  destruct (limit s) eqn:El.
  2:{ apply closed_unless_stopped; auto. unfold has_to_stop. fold s. rewrite Hstop, El. reflexivity. }
  (* limit reached: the last emitted event is a ScenarioFinished, and every prefix of a sequential history can be read *)
  destruct (L1 eq_refl) as [_ (e & t & Et & He)]. destruct e as [| |id st|]; try discriminate.
  assert (Hd : dropped s = []) by (destruct (dropped s); [reflexivity | rewrite L2 in Hstop; discriminate]).
  destruct (H1 Hd) as [w [Ew Hb]].
  assert (Hpre : exists o k, balance None (hist s ++ k) = Some o).
  { destruct w; cbn in Hb; try (eexists _, []; rewrite app_nil_r; exact Hb). eauto. }
  destruct Hpre as (o & k & Ho). unfold hist in Ho. rewrite <- app_assoc, balance_app in Ho. fold (trace s) in Ho.
  destruct (balance None (trace s)) as [o'|] eqn:Hp; [|discriminate].
  apply balance_closed. rewrite Hp. f_equal. unfold trace in Hp. rewrite Et in Hp. apply (balance_snoc_finish _ _ _ _ Hp).
Qed.
Print Assumptions C11_closed_unless_interrupted_one_worker.

(* ... and is false with a failure limit and two workers (finding C11-F2). *)
Theorem C11_closed_unless_interrupted_refuted : exists c sched n os,
  drain_fix c = true /\
  let s := run c sched (init n os) in
  cp s = CDone /\ stop s = false /\ all_closed (trace s) = false.
Proof.
  exists (cfg_now (Some 1)), sched_limit, 2, [op_fail 0; op_ok 1 2].
  vm_compute. auto.
Qed.
Print Assumptions C11_closed_unless_interrupted_refuted.

(* The behaviour before the fix (lost event after a queue timeout), kept as a regression witness. *)
Theorem C11_before_fix_refuted : exists sched n os,
  let s := run cfg_before_fix sched (init n os) in
  cp s = CDone /\ has_to_stop s = false /\ all_closed (trace s) = false.
Proof.
  exists sched_race, 1, [op_ok 0 2]. vm_compute. auto.
Qed.
Print Assumptions C11_before_fix_refuted.

(* Statuses are consistent, for every schedule, configuration, behaviour and stop point: once the consumer is
   done, the phase status is at least as bad as every scenario status it emitted (SKIP aside), and is not SKIP. *)
Theorem C11_status_at_least_worst : forall c sched n os,
  let s := run c sched (init n os) in
  cp s = CDone ->
  forall id st, In (ScFinish id st) (trace s) -> st <> SKIP ->
    final_status s <> SKIP /\ srank st <= srank (final_status s).
Proof.
  intros c sched n os s Hcp id st Hin Hne. apply (status_covers c sched n os Hcp _ _ Hin).
  destruct st; try reflexivity. congruence.
Qed.
Print Assumptions C11_status_at_least_worst.

(* Stateful phase (one producer thread, any event type, any script of events, every interleaving): what the stream
   yields is a prefix of what the thread produced - nothing invented, duplicated or reordered - and with the present
   exit test nothing is lost once the consumer is done.  The behaviour before the fix is refuted by a schedule. *)
Theorem C11_stateful_trace_is_prefix : forall (E : Type) fix_ (script : list E) sched,
  exists rest, script = strace E (srun E fix_ sched (sinit E script)) ++ rest.
Proof.
  intros E fix_ script sched. destruct (sinv_run E fix_ script sched) as (H1 & _). eexists. exact H1.
Qed.
Print Assumptions C11_stateful_trace_is_prefix.

Theorem C11_stateful_nothing_lost : forall (E : Type) (script : list E) sched,
  let s := srun E true sched (sinit E script) in
  s_cp s = SDone -> strace E s = script.
Proof.
  intros E script sched s Hd. destruct (sinv_run E true script sched) as (H1 & H2 & _ & H4). fold s in H1, H2, H4.
  destruct (H4 eq_refl Hd) as [Ha Hq]. rewrite (H2 Ha), Hq in H1. rewrite !app_nil_r in H1. unfold strace. auto.
Qed.
Print Assumptions C11_stateful_nothing_lost.

Theorem C11_stateful_before_fix_refuted : exists sched (script : list nat),
  let s := srun nat false sched (sinit nat script) in
  s_cp s = SDone /\ strace nat s <> script.
Proof.
  exists [LS; LC; LC; LS; LS; LC; LC], [1; 2]. vm_compute. split; [reflexivity | discriminate].
Qed.
Print Assumptions C11_stateful_before_fix_refuted.

(* Plan level: one start first, exactly one finish last, phases opened and closed once, in order,
   whatever each phase did and wherever the run was stopped. *)
Theorem C11_plan_wf : forall phases stop0, plan_wf (plan_events phases stop0) = true.
Proof. intros phases stop0. unfold plan_events. destruct stop0; [reflexivity|]. apply plan_loop_wf. Qed.
Print Assumptions C11_plan_wf.

Theorem C11_nothing_after_finish : forall phases stop0, exists t,
  plan_events phases stop0 = EngineStarted :: t ++ [EngineFinished] /\ ~ In EngineFinished t /\ ~ In EngineStarted t.
Proof.
  intros phases stop0. unfold plan_events. destruct stop0; [exists []; intuition|].
  exists (plan_loop 0 phases false false). split; [reflexivity|].
  split; intros Hin; apply plan_loop_inner in Hin; destruct Hin; congruence.
Qed.
Print Assumptions C11_nothing_after_finish.

(* non-vacuity: the race schedule on the present code ends with everything closed *)
Theorem C11_example_now :
  let s := run (cfg_now None) (sched_race ++ [C; C; C; C; C; C]) (init 1 [op_ok 0 2]) in
  cp s = CDone /\ has_to_stop s = false /\ trace s = [ScStart 0; ScFinish 0 SUCCESS].
Proof. vm_compute. auto. Qed.
Print Assumptions C11_example_now.

(* ---- the stateful phase's producer thread (execute_state_machine_loop), ModelP_C11 ----
   For every behaviour of Hypothesis inside `run` (any number of suites, scenarios, steps, any outcome of every step, any
   way `run` ends), every failure limit, every initial state of the stop flags and every point at which a stop request
   arrives, and every pattern of faults in ctx.maximize_metrics() during teardown (the ScenarioFinished is put before it): every
   prefix of what the thread puts is properly nested - suites one at a time, scenarios inside their suite,
   matching identifiers, no closing event without its opening one ... *)
Theorem C11_stateful_producer_nested : forall c faults stop0 limit0 counter0 behs ls,
  nested (pscript (prun c ls (pinit_f faults stop0 limit0 counter0 behs))) = true.
Proof. exact producer_nested. Qed.
Print Assumptions C11_stateful_producer_nested.

(* ... and when the thread has ended every announced suite and scenario is closed, interrupted or not. *)
Theorem C11_stateful_producer_closed : forall c faults stop0 limit0 counter0 behs ls,
  let s := prun c ls (pinit_f faults stop0 limit0 counter0 behs) in
  p_pc s = PDone -> all_closed_p (pscript s) = true.
Proof. exact producer_closed. Qed.
Print Assumptions C11_stateful_producer_closed.

(* Composition with the consumer (ModelS_C11): when the consumer is done, the stream holds exactly what the thread
   produced, hence is nested and closed. *)
Theorem C11_stateful_stream_nested : forall c faults stop0 limit0 counter0 behs ls sched,
  let p := prun c ls (pinit_f faults stop0 limit0 counter0 behs) in
  let s := srun pev true sched (sinit pev (pscript p)) in
  p_pc p = PDone -> s_cp s = SDone ->
  nested (strace pev s) = true /\ all_closed_p (strace pev s) = true.
Proof.
  intros c faults stop0 limit0 counter0 behs ls sched p s Hp Hs.
  unfold s. rewrite (C11_stateful_nothing_lost pev (pscript p) sched Hs).
  split; [apply producer_nested|apply producer_closed; exact Hp].
Qed.
Print Assumptions C11_stateful_stream_nested.

(* non-vacuity: a failing suite followed by a stop request right before the second suite's interruption test *)
Example C11_stateful_producer_example :
  let s := prun {| p_maxf := None; p_maxex := 5 |} (repeat LP 9 ++ [LStop] ++ repeat LP 6)
                (pinit false false 0 [([[StOk; StFail 0]], RFailureGroup); ([[StOk]], ROk)]) in
  p_pc s = PDone /\
  pscript s = [SuS 0; ScS 0 0; ScF 0 0 FAILURE; SuF 0 FAILURE; SuS 1; PIntr; SuF 1 INTERRUPTED].
Proof. vm_compute. split; reflexivity. Qed.

(* Statuses of the stateful phase: when the thread has ended, the phase status (the consumer's fold over SuiteFinished)
   is at least as bad as the worst scenario reported, for every behaviour in which an exception raised by a step is what
   Hypothesis' run() ends with (or something worse), every limit and every stop point.  The contract is needed. *)
Theorem C11_stateful_status_covers_partial : forall c stop0 limit0 counter0 behs ls,
  forallb consistent_beh behs = true ->
  let s := prun c ls (pinit stop0 limit0 counter0 behs) in
  p_pc s = PDone -> worst_scenario (pscript s) <= phase_rank (pscript s).
Proof. exact producer_status_covers. Qed.
Print Assumptions C11_stateful_status_covers_partial.

Theorem C11_stateful_status_covers_needs_contract : exists c behs ls,
  let s := prun c ls (pinit false false 0 behs) in
  p_pc s = PDone /\ ~ worst_scenario (pscript s) <= phase_rank (pscript s).
Proof.
  exists {| p_maxf := None; p_maxex := 5 |}, [([[StFail 0]], RSkipTest)], (repeat LP 12).
  vm_compute. split; [reflexivity | intros Hc; inversion Hc].
Qed.
Print Assumptions C11_stateful_status_covers_needs_contract.

(* ---- the plan level with interruptions that escape a phase (ModelE_C11: ExecutionPlan.execute) ----
   Whatever the phases do - enabled or not, any number of events, any status, stop flag or failure limit set, a
   KeyboardInterrupt escaping before or after the phase's own PhaseFinished - the run has one start first, one finish last,
   and every phase that was announced is closed exactly once, in order.  Before the repair an interruption that escaped the
   phase (Ctrl-C while the probing request is in flight) left the phase open. *)
Theorem C11_plan_closed_under_interrupts : forall phases stop0, ewf (eplan true phases stop0) = true.
Proof. exact eplan_wf. Qed.
Print Assumptions C11_plan_closed_under_interrupts.

Theorem C11_plan_before_fix_refuted : exists phases, ewf (eplan false phases false) = false.
Proof.
  exists [{| e_enabled := true; e_body := 0; e_status := SUCCESS; e_stop := true; e_limit := false; e_ki := KiBeforeFinish |}].
  reflexivity.
Qed.
Print Assumptions C11_plan_before_fix_refuted.

(* The probing phase: whatever the probe request meets - any response, a local URL, ANY requests error, Ctrl-C - the phase is
   opened and closed exactly once and the run finishes properly; it is ERROR exactly when the probe errored. *)
Theorem C11_probing_phase_closed : forall b rest stop0, ewf (eplan true (probing_phase b :: rest) stop0) = true.
Proof. intros b rest stop0. apply eplan_wf. Qed.
Print Assumptions C11_probing_phase_closed.

Theorem C11_probing_phase_status : forall b,
  e_ki (probing_phase b) = KiNone ->
  e_status (probing_phase b) = match b with PbRequestError => ERROR | _ => SUCCESS end.
Proof. intros [st| | |]; cbn; try reflexivity; try discriminate. destruct (Nat.eqb st 400); reflexivity. Qed.
Print Assumptions C11_probing_phase_status.
