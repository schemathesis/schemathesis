(* The stateful producer (ModelP_C11): what one action of the thread does (`pmove`, `pstep_spec`), and the invariants
   behind the nesting theorems of C11 and the stop theorems of C12. *)
From Coq Require Import List Bool Arith Lia.
From Verif Require Import Common.Lists C11.Model_C11 C11.ModelP_C11.
Import ListNotations.

(* where the except ladder goes when run() ended by itself *)
Definition after_run (c : pcfg) (s : pstate) (e : run_end) : ppc :=
  match e with
  | ROk => PFinally SUCCESS false
  | RSkipTest => PFinally SKIP false
  | RFailureGroup | RFlaky => PFinally FAILURE (negb (p_limit s))
  | RUnsat => if 0 <? p_completed s then PFinally SUCCESS (negb (p_maxex c <=? p_completed s)) else PPutNFE
  | ROther => PPutNFE
  end.

Definition body_status (st : step_out) : status :=
  match st with StOk => SUCCESS | StFail _ => FAILURE | StErr => ERROR | StKI => INTERRUPTED end.

Definition after_body (st : step_out) (steps : list step_out) (scs : list (list step_out)) (e : run_end) : ppc :=
  match st with StOk => next_step steps scs e | StFail _ | StErr => PTear (TNext scs e) | StKI => PTear TRaise end.

Definition body_count (c : pcfg) (s : pstate) (st : step_out) : nat * bool :=
  match st with StFail extra => count_failures (p_maxf c) (S extra) (p_counter s) (p_limit s) | _ => (p_counter s, p_limit s) end.

Inductive pmove (c : pcfg) (s : pstate) : pstate -> Prop :=
| PMTop : p_pc s = PTop ->
    pmove c s {| p_out := SuS (p_nsuites s) :: p_out s; p_stop := p_stop s; p_limit := p_limit s; p_counter := p_counter s;
                 p_suite := p_nsuites s; p_nsuites := S (p_nsuites s); p_scen := p_scen s; p_nscen := p_nscen s; p_cur := p_cur s;
                 p_completed := p_completed s; p_behs := p_behs s; p_pc := PIntrCheck; p_bodies := p_bodies s; p_faults := p_faults s |}
| PMStopped : p_pc s = PIntrCheck -> p_stop s = true -> pmove c s (pset s PEarlyIntr)
| PMRun scs e rest : p_pc s = PIntrCheck -> p_stop s = false ->
    match p_behs s with [] => ([], ROk, []) | (scs, e) :: rest => (scs, e, rest) end = (scs, e, rest) ->
    pmove c s {| p_out := p_out s; p_stop := p_stop s; p_limit := p_limit s; p_counter := p_counter s; p_suite := p_suite s;
                 p_nsuites := p_nsuites s; p_scen := p_scen s; p_nscen := p_nscen s; p_cur := p_cur s; p_completed := p_completed s;
                 p_behs := rest; p_pc := PScen scs e; p_bodies := p_bodies s; p_faults := p_faults s |}
| PMEarlyIntr : p_pc s = PEarlyIntr -> pmove c s (pput s PIntr PEarlyFin)
| PMEarlyFin : p_pc s = PEarlyFin -> pmove c s (pput s (SuF (p_suite s) INTERRUPTED) PDone)
| PMRunEnds e : p_pc s = PScen [] e -> pmove c s (pset s (PExcept (ByRun e)))
| PMScen steps scs e : p_pc s = PScen (steps :: scs) e ->
    pmove c s {| p_out := ScS (p_nscen s) (p_suite s) :: p_out s; p_stop := p_stop s; p_limit := p_limit s; p_counter := p_counter s;
                 p_suite := p_suite s; p_nsuites := p_nsuites s; p_scen := p_nscen s; p_nscen := S (p_nscen s); p_cur := p_cur s;
                 p_completed := p_completed s; p_behs := p_behs s; p_pc := next_step steps scs e; p_bodies := p_bodies s;
                 p_faults := p_faults s |}
| PMCheck st steps scs e : p_pc s = PCheck st steps scs e ->
    pmove c s (pset s (if p_has_to_stop s then PTear TRaise else PBody st steps scs e))
| PMBody st steps scs e cnt lim : p_pc s = PBody st steps scs e -> body_count c s st = (cnt, lim) ->
    pmove c s {| p_out := p_out s; p_stop := p_stop s; p_limit := lim; p_counter := cnt; p_suite := p_suite s;
                 p_nsuites := p_nsuites s; p_scen := p_scen s; p_nscen := p_nscen s; p_cur := Some (body_status st);
                 p_completed := p_completed s; p_behs := p_behs s; p_pc := after_body st steps scs e;
                 p_bodies := p_has_to_stop s :: p_bodies s; p_faults := p_faults s |}
| PMTear k fault : p_pc s = PTear k -> fault = match k, p_faults s with TNext _ _, f :: _ => f | _, _ => false end ->
    pmove c s {| p_out := ScF (p_scen s) (p_suite s) (match p_cur s with Some st => st | None => SKIP end) :: p_out s;
                 p_stop := p_stop s; p_limit := p_limit s; p_counter := p_counter s; p_suite := p_suite s;
                 p_nsuites := p_nsuites s; p_scen := p_scen s; p_nscen := p_nscen s; p_cur := if fault then p_cur s else None;
                 p_completed := if fault then p_completed s else S (p_completed s); p_behs := p_behs s;
                 p_pc := match k with TNext scs e => PScen scs e | TRaise => PExcept ByKI end; p_bodies := p_bodies s;
                 p_faults := tl (p_faults s) |}
| PMInterrupted : p_pc s = PExcept ByKI ->
    pmove c s {| p_out := p_out s; p_stop := true; p_limit := p_limit s; p_counter := p_counter s; p_suite := p_suite s;
                 p_nsuites := p_nsuites s; p_scen := p_scen s; p_nscen := p_nscen s; p_cur := p_cur s; p_completed := p_completed s;
                 p_behs := p_behs s; p_pc := PPutIntr; p_bodies := p_bodies s; p_faults := p_faults s |}
| PMExcept e : p_pc s = PExcept (ByRun e) -> pmove c s (pset s (after_run c s e))
| PMPutIntr : p_pc s = PPutIntr -> pmove c s (pput s PIntr (PFinally INTERRUPTED false))
| PMPutNFE : p_pc s = PPutNFE -> pmove c s (pput s PNFE (PFinally ERROR false))
| PMFinally st again : p_pc s = PFinally st again ->
    pmove c s {| p_out := SuF (p_suite s) st :: p_out s; p_stop := p_stop s; p_limit := p_limit s; p_counter := p_counter s;
                 p_suite := p_suite s; p_nsuites := p_nsuites s; p_scen := p_scen s; p_nscen := p_nscen s; p_cur := None;
                 p_completed := S (p_completed s); p_behs := p_behs s; p_pc := if again then PTop else PDone;
                 p_bodies := p_bodies s; p_faults := p_faults s |}
| PMDone : p_pc s = PDone -> pmove c s s.

(* The sixteen cases of an action, in the order of the constructors, under the names the proofs use: `Epc : p_pc s = ...` in each,
   and the components of the program point. *)
Ltac pmove_cases M :=
  destruct M as [Epc | Epc Es | scs e rest Epc Es Eb | Epc | Epc | e Epc | steps scs e Epc | st steps scs e Epc
                 | st steps scs e cnt lim Epc E | k fault Epc Ef | Epc | e Epc | Epc | Epc | st again Epc | Epc].

Lemma pstep_spec c s : pmove c s (pstep c s LP).
Proof.
  cbn [pstep]. destruct (p_pc s) eqn:Epc.
  - apply PMTop, Epc.
  - destruct (p_stop s) eqn:Es; [apply PMStopped; assumption|].
    destruct (p_behs s) as [|[scs e] rest] eqn:Eb.
    + pose proof (PMRun c s [] ROk [] Epc Es) as H. rewrite Eb, Es in H. exact (H eq_refl).
    + pose proof (PMRun c s scs e rest Epc Es) as H. rewrite Eb, Es in H. exact (H eq_refl).
  - apply PMEarlyIntr, Epc.
  - apply PMEarlyFin, Epc.
  - destruct scs as [|steps scs]; [apply PMRunEnds, Epc | apply PMScen, Epc].
  - pose proof (PMCheck c s _ _ _ _ Epc) as H. destruct (p_has_to_stop s); exact H.
  - destruct (body_count c s st) as [cnt lim] eqn:E. pose proof (PMBody c s _ _ _ _ cnt lim Epc E) as H.
    destruct st; cbn [body_count] in E; try (inversion E; subst; exact H). rewrite E. exact H.
  - apply (PMTear c s k _ Epc eq_refl).
  - destruct w as [e|]; [|apply PMInterrupted, Epc].
    pose proof (PMExcept c s e Epc) as H. destruct e; try exact H. unfold after_run in H. destruct (0 <? p_completed s); exact H.
  - apply PMPutIntr, Epc.
  - apply PMPutNFE, Epc.
  - apply PMFinally, Epc.
  - apply PMDone, Epc.
Qed.

Lemma prun_inv (P : pstate -> Prop) c : (forall s l, P s -> P (pstep c s l)) -> forall ls s, P s -> P (prun c ls s).
Proof. apply fold_left_inv. Qed.

Lemma nest_snoc e out : nest (rev (e :: out)) = nstep (nest (rev out)) e.
Proof. unfold nest. cbn [rev]. rewrite fold_left_app. reflexivity. Qed.

Definition suite_open (pc : ppc) : bool := match pc with PTop | PDone => false | _ => true end.
Definition scen_open (pc : ppc) : bool := match pc with PCheck _ _ _ _ | PBody _ _ _ _ | PTear _ => true | _ => false end.

(* the nesting automaton after what was put so far, read off the program point *)
Definition expect (s : pstate) : nst :=
  {| n_suite := if suite_open (p_pc s) then Some (p_suite s) else None;
     n_scen := if scen_open (p_pc s) then Some (p_scen s) else None; n_ok := true |}.

Definition PInv (s : pstate) : Prop := nest (pscript s) = expect s.

Lemma next_step_open steps scs e : suite_open (next_step steps scs e) = true /\ scen_open (next_step steps scs e) = true.
Proof. destruct steps; cbn; auto. Qed.

Lemma after_run_open c s e : suite_open (after_run c s e) = true /\ scen_open (after_run c s e) = false.
Proof. unfold after_run. destruct e; try (split; reflexivity). destruct (0 <? p_completed s); split; reflexivity. Qed.

Lemma PInv_step c s l : PInv s -> PInv (pstep c s l).
Proof.
  intros H. destruct l; [|exact H]. unfold PInv, pscript in *.
  pmove_cases (pstep_spec c s);
    cbn [p_out pset pput]; rewrite ?nest_snoc, H; unfold expect; cbn [p_pc p_suite p_scen pset pput]; rewrite Epc;
    cbn [suite_open scen_open nstep n_ok n_suite n_scen is_none opt_is andb]; rewrite ?Nat.eqb_refl; try reflexivity.
  - (* PMScen *) destruct (next_step_open steps scs e) as [-> ->]. reflexivity.
  - (* PMCheck *) destruct (p_has_to_stop s); reflexivity.
  - (* PMBody *) destruct st; cbn [after_body]; try reflexivity. destruct (next_step_open steps scs e) as [-> ->]. reflexivity.
  - (* PMTear *) destruct k; reflexivity.
  - (* PMExcept *) destruct (after_run_open c s e) as [-> ->]. reflexivity.
  - (* PMFinally *) destruct again; reflexivity.
Qed.

Lemma PInv_init faults stop0 limit0 counter0 behs : PInv (pinit_f faults stop0 limit0 counter0 behs).
Proof. reflexivity. Qed.

Lemma producer_nested c faults stop0 limit0 counter0 behs ls :
  nested (pscript (prun c ls (pinit_f faults stop0 limit0 counter0 behs))) = true.
Proof. unfold nested. rewrite (prun_inv PInv c (PInv_step c) ls _ (PInv_init faults stop0 limit0 counter0 behs)). reflexivity. Qed.

Lemma producer_closed c faults stop0 limit0 counter0 behs ls :
  let s := prun c ls (pinit_f faults stop0 limit0 counter0 behs) in
  p_pc s = PDone -> all_closed_p (pscript s) = true.
Proof.
  intros s Hd. pose proof (prun_inv PInv c (PInv_step c) ls _ (PInv_init faults stop0 limit0 counter0 behs)) as H. fold s in H.
  unfold all_closed_p. rewrite H. unfold expect. rewrite Hd. reflexivity.
Qed.

Definition is_body (pc : ppc) : bool := match pc with PBody _ _ _ _ => true | _ => false end.

Lemma count_failures_limit_mono maxf n cnt lim : lim = true -> snd (count_failures maxf n cnt lim) = true.
Proof.
  revert cnt lim. induction n as [|n IH]; intros cnt lim H; cbn; auto.
  destruct maxf as [m|]; [|apply IH; auto]. apply IH. destruct (m <=? S cnt); auto.
Qed.

Lemma is_body_next_step steps scs e : is_body (next_step steps scs e) = false.
Proof. destruct steps; reflexivity. Qed.

(* a step body is entered only through its entry test, which passes only while nothing asks to stop; it is left at once;
   has_to_stop never goes back *)
Lemma body_move c s s' : pmove c s s' ->
  (p_has_to_stop s = true -> p_has_to_stop s' = true) /\
  (if is_body (p_pc s) then p_bodies s' = p_has_to_stop s :: p_bodies s /\ is_body (p_pc s') = false
   else p_bodies s' = p_bodies s /\ (is_body (p_pc s') = true -> p_has_to_stop s = false)).
Proof.
  unfold p_has_to_stop. intros M.
  pmove_cases M;
    rewrite Epc; cbn [is_body p_stop p_limit p_bodies p_pc pset pput]; rewrite ?is_body_next_step;
    try (split; [auto|split; [reflexivity|discriminate]]).
  - (* PMCheck *) unfold p_has_to_stop. destruct (p_stop s || p_limit s); repeat split; auto; discriminate.
  - (* PMBody *) split; [|split; [reflexivity|destruct st; cbn; auto using is_body_next_step]].
    intros H. apply orb_true_iff in H. destruct H as [->|H]; [reflexivity|].
    assert (lim = true) as ->; [|apply orb_true_r]. destruct st; cbn [body_count] in E; try congruence.
    pose proof (count_failures_limit_mono (p_maxf c) (S extra) (p_counter s) _ H) as Hm. rewrite E in Hm. exact Hm.
  - (* PMTear *) split; [auto|]. split; [reflexivity|]. destruct k; discriminate.
  - (* PMExcept *) split; [auto|]. split; [reflexivity|]. unfold after_run. destruct e; try discriminate. destruct (0 <? _); discriminate.
  - (* PMFinally *) split; [auto|]. split; [reflexivity|]. destruct again; discriminate.
Qed.

(* at most one step body runs with has_to_stop already true: the one whose entry test came just before the stop *)
Definition SInv (s : pstate) : Prop :=
  count_true (p_bodies s) = 0 \/ (count_true (p_bodies s) = 1 /\ p_has_to_stop s = true /\ is_body (p_pc s) = false).

Lemma SInv_step c s l : SInv s -> SInv (pstep c s l).
Proof.
  intros H. destruct l.
  - destruct (body_move c s _ (pstep_spec c s)) as [Hmono Hb]. unfold SInv. destruct (is_body (p_pc s)) eqn:Eb.
    + destruct Hb as [-> Hout]. destruct H as [H|(_ & _ & H)]; [|congruence]. cbn [count_true].
      destruct (p_has_to_stop s) eqn:Eh; [right; rewrite H; auto | left; exact H].
    + destruct Hb as [-> Hin]. destruct H as [H|(H1 & H2 & _)]; [left; exact H|right]. repeat split; auto.
      destruct (is_body (p_pc (pstep c s LP))); [rewrite Hin in H2; [discriminate|reflexivity] | reflexivity].
  - destruct H as [H|(H1 & H2 & H3)]; [left; exact H|right]. repeat split; auto.
Qed.

Definition early (pc : ppc) : bool :=
  match pc with PTop | PIntrCheck | PEarlyIntr | PEarlyFin | PDone => true | _ => false end.

Definition EInv (s : pstate) : Prop := p_stop s = true /\ p_bodies s = [] /\ early (p_pc s) = true /\ scenario_statuses (p_out s) = [].

Lemma EInv_step c s l : EInv s -> EInv (pstep c s l).
Proof.
  intros (H1 & H2 & H3 & H4). destruct l; [|repeat split; auto].
  pmove_cases (pstep_spec c s);
    rewrite Epc in H3; try discriminate; try congruence; repeat split; auto. rewrite Epc. reflexivity.
Qed.
