(* Status consistency of the stateful producer (ModelP_C11). *)
From Coq Require Import List Bool Arith Lia.
From Verif Require Import C11.Model_C11 C11.ModelP_C11 C11.ProofsP_C11.
Import ListNotations.

Record rst := { r_fin : nat; r_closed : nat; r_cur : nat }.
Definition rstep (r : rst) (e : pev) : rst :=
  match e with
  | ScF _ _ st => {| r_fin := r_fin r; r_closed := r_closed r; r_cur := Nat.max (r_cur r) (rk st) |}
  | SuF _ st => {| r_fin := Nat.max (r_fin r) (rk st); r_closed := Nat.max (r_closed r) (r_cur r); r_cur := 0 |}
  | _ => r
  end.
Definition rinit : rst := {| r_fin := 0; r_closed := 0; r_cur := 0 |}.
Definition rfold (l : list pev) : rst := fold_left rstep l rinit.

Lemma rfold_snoc e out : rfold (rev (e :: out)) = rstep (rfold (rev out)) e.
Proof. unfold rfold. cbn [rev]. rewrite fold_left_app. reflexivity. Qed.

(* the fold agrees with the definitions the theorem is about *)
Definition rk_opt (o : option status) : nat := match o with Some st => rk st | None => 0 end.

Lemma fold_status_rank l : forall acc, acc <> Some SKIP ->
  fold_left fold_status l acc <> Some SKIP /\
  rk_opt (fold_left fold_status l acc) =
  fold_left (fun n e => match e with SuF _ st => Nat.max n (rk st) | _ => n end) l (rk_opt acc).
Proof.
  induction l as [|e l IH]; intros acc Hacc; cbn [fold_left]; [split; auto|].
  destruct e; cbn [fold_status]; try (apply IH; exact Hacc).
  destruct (status_eqb st SKIP) eqn:Es.
  - destruct st; try discriminate. cbn [rk]. rewrite Nat.max_0_r. apply IH, Hacc.
  - destruct acc as [a|].
    + assert (Hn : (if status_lt a st then Some st else Some a) <> Some SKIP)
        by (destruct (status_lt a st); [intros Hc; inversion Hc; subst; discriminate | exact Hacc]).
      destruct (IH _ Hn) as [H1 H2]. split; auto. rewrite H2. f_equal.
      destruct a, st; cbn in *; try discriminate; try reflexivity; exfalso; apply Hacc; reflexivity.
    + assert (Hn : Some st <> Some SKIP) by (intros Hc; inversion Hc; subst; discriminate).
      destruct (IH (Some st) Hn) as [H1 H2]. split; auto.
Qed.

Lemma rfold_fin_gen l : forall r,
  r_fin (fold_left rstep l r) = fold_left (fun n e => match e with SuF _ st => Nat.max n (rk st) | _ => n end) l (r_fin r).
Proof. induction l as [|e l IH]; intros r; cbn [fold_left]; auto. rewrite IH. destruct e; reflexivity. Qed.

Lemma phase_rank_is_fin l : phase_rank l = r_fin (rfold l).
Proof.
  unfold phase_rank, phase_status, rfold. rewrite rfold_fin_gen. cbn [r_fin rinit].
  assert (Hn : (None : option status) <> Some SKIP) by discriminate.
  destruct (fold_status_rank l None Hn) as [H1 H2]. cbn [rk_opt] in H2. rewrite <- H2.
  destruct (fold_left fold_status l None); reflexivity.
Qed.

Lemma worst_gen l : forall r,
  Nat.max (r_closed (fold_left rstep l r)) (r_cur (fold_left rstep l r)) =
  fold_left (fun n st => Nat.max n (rk st)) (scenario_statuses l) (Nat.max (r_closed r) (r_cur r)).
Proof.
  induction l as [|e l IH]; intros r; cbn [fold_left scenario_statuses]; auto.
  destruct e; cbn [scenario_statuses fold_left]; rewrite IH; cbn [rstep r_closed r_cur]; try reflexivity.
  - f_equal. lia.
  - f_equal. lia.
Qed.

Lemma worst_is_fold l : worst_scenario l = Nat.max (r_closed (rfold l)) (r_cur (rfold l)).
Proof. unfold worst_scenario, rfold. rewrite worst_gen. reflexivity. Qed.

Definition cons_steps (steps : list step_out) (e : run_end) : bool := forallb (fun st => rank_step st <=? rank_end e) steps.
Definition cons_scs (scs : list (list step_out)) (e : run_end) : bool := forallb (fun steps => cons_steps steps e) scs.

(* what the SuiteFinished of the open suite will at least be, and what must hold of the pending behaviour *)
Definition promise (pc : ppc) : nat :=
  match pc with
  | PTop | PDone | PIntrCheck | PEarlyIntr | PEarlyFin => 0
  | PScen _ e | PCheck _ _ _ e | PBody _ _ _ e | PTear (TNext _ e) | PExcept (ByRun e) => rank_end e
  | PTear TRaise | PExcept ByKI | PPutIntr => 3
  | PPutNFE => 2
  | PFinally st _ => rk st
  end.
Definition side (pc : ppc) : bool :=
  match pc with
  | PScen scs e | PTear (TNext scs e) => cons_scs scs e
  | PCheck st steps scs e | PBody st steps scs e => (rank_step st <=? rank_end e) && cons_steps steps e && cons_scs scs e
  | _ => true
  end.
Definition cur_ok (pc : ppc) (cur : option status) : bool :=
  match pc with
  | PCheck _ _ _ e | PBody _ _ _ e | PTear (TNext _ e) => rk_opt cur <=? rank_end e
  | PTop | PIntrCheck | PScen _ _ => is_none cur
  | _ => true
  end.

Definition RInv (s : pstate) : Prop :=
  let n := rfold (pscript s) in
  r_closed n <= r_fin n /\ r_cur n <= promise (p_pc s) /\ side (p_pc s) = true /\ cur_ok (p_pc s) (p_cur s) = true /\
  forallb consistent_beh (p_behs s) = true /\ p_faults s = [].

Lemma rank_end_le3 e : rank_end e <= 3.
Proof. destruct e; cbn; lia. Qed.

Lemma next_step_info steps scs e :
  cons_steps steps e = true -> cons_scs scs e = true ->
  promise (next_step steps scs e) = rank_end e /\ side (next_step steps scs e) = true.
Proof.
  intros H1 H2. destruct steps as [|st steps]; cbn [next_step promise side]; [auto|].
  cbn [cons_steps forallb] in H1. apply andb_true_iff in H1. destruct H1 as [Ha Hb].
  split; auto. rewrite Ha, H2. unfold cons_steps. rewrite Hb. reflexivity.
Qed.

Lemma next_step_cur steps scs e cur : rk_opt cur <= rank_end e -> cur_ok (next_step steps scs e) cur = true.
Proof. intros H. destruct steps; cbn [next_step cur_ok]; apply Nat.leb_le; exact H. Qed.

Lemma RInv_step c s l : RInv s -> RInv (pstep c s l).
Proof.
  intros H. destruct l; [|exact H]. unfold RInv, pscript in *. destruct H as (H1 & H2 & H3 & H4 & H5 & Hf).
  pmove_cases (pstep_spec c s); rewrite Epc in H2, H3, H4; cbn [promise side cur_ok] in H2, H3, H4;
    cbn [p_out p_pc p_cur p_behs p_faults pset pput tl]; rewrite ?rfold_snoc;
    cbn [rstep r_fin r_closed r_cur promise side cur_ok rk rk_opt srank].
  - (* PMTop *) repeat split; auto.
  - (* PMStopped *) repeat split; auto.
  - (* PMRun *) destruct (p_behs s) as [|[scs0 e0] r0]; inversion Eb; subst.
    + repeat split; auto; lia.
    + cbn [forallb] in H5. apply andb_true_iff in H5. destruct H5 as [Ha Hb]. repeat split; auto; lia.
  - (* PMEarlyIntr *) repeat split; auto.
  - (* PMEarlyFin *) repeat split; auto; lia.
  - (* PMRunEnds *) repeat split; auto.
  - (* PMScen *) cbn [cons_scs forallb] in H3. apply andb_true_iff in H3. destruct H3 as [Ha Hb].
    destruct (next_step_info steps scs e Ha Hb) as [-> ->].
    repeat split; auto. apply next_step_cur. destruct (p_cur s); [discriminate|]. cbn. lia.
  - (* PMCheck: an interrupted suite is at least INTERRUPTED *)
    destruct (p_has_to_stop s); cbn [promise side cur_ok]; repeat split; auto. pose proof (rank_end_le3 e). lia.
  - (* PMBody: Hypothesis' contract bounds the rank of the step by that of the end of run() *)
    apply andb_true_iff in H3. destruct H3 as [H3 Hc]. apply andb_true_iff in H3. destruct H3 as [Ha Hb].
    apply Nat.leb_le in Ha. destruct st; cbn [after_body body_status promise side cur_ok rk_opt rk srank rank_step] in *.
    + destruct (next_step_info steps scs e Hb Hc) as [-> ->]. repeat split; auto. apply next_step_cur. cbn. lia.
    + repeat split; auto. apply Nat.leb_le. exact Ha.
    + repeat split; auto. apply Nat.leb_le. exact Ha.
    + repeat split; auto. pose proof (rank_end_le3 e). lia.
  - (* PMTear: no fault is injected, the scenario's status is reset *)
    rewrite Hf in Ef. assert (fault = false) as -> by (destruct k; exact Ef). rewrite Hf. cbn [tl].
    destruct k as [scs e|]; cbn [promise side cur_ok] in *.
    + apply Nat.leb_le in H4. repeat split; auto. destruct (p_cur s) as [st|]; cbn [rk_opt rk] in *; lia.
    + repeat split; auto. destruct (p_cur s) as [[]|]; cbn; lia.
  - (* PMInterrupted *) repeat split; auto.
  - (* PMExcept *) unfold after_run. destruct e; [| | | |destruct (0 <? p_completed s)|];
      cbn [promise side cur_ok rk srank rank_end] in *; repeat split; auto; lia.
  - (* PMPutIntr *) repeat split; auto.
  - (* PMPutNFE *) repeat split; auto.
  - (* PMFinally *) destruct again; cbn [promise side cur_ok]; repeat split; auto; lia.
  - (* PMDone *) rewrite Epc. cbn [promise side cur_ok]. repeat split; auto.
Qed.

Lemma RInv_init stop0 limit0 counter0 behs :
  forallb consistent_beh behs = true -> RInv (pinit stop0 limit0 counter0 behs).
Proof. intros H. unfold RInv, pinit, pinit_f, pscript. cbn. repeat split; auto. Qed.

Lemma producer_status_covers c stop0 limit0 counter0 behs ls :
  forallb consistent_beh behs = true ->
  let s := prun c ls (pinit stop0 limit0 counter0 behs) in
  p_pc s = PDone -> worst_scenario (pscript s) <= phase_rank (pscript s).
Proof.
  intros Hc s Hd. destruct (prun_inv RInv c (RInv_step c) ls _ (RInv_init stop0 limit0 counter0 behs Hc)) as (H1 & H2 & _). fold s in H1, H2.
  rewrite Hd in H2. cbn [promise] in H2. rewrite worst_is_fold, phase_rank_is_fin. lia.
Qed.
