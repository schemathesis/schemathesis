(* After a stop request the state-machine thread announces at most one more scenario (ModelP_C11), provided every
   scenario Hypothesis starts has at least one step (its state-machine runner always executes a first step). *)
From Coq Require Import List Bool Arith Lia.
From Verif Require Import C11.Model_C11 C11.ModelP_C11 C11.ProofsP_C11.
Import ListNotations.

Fixpoint count_scs (l : list pev) : nat :=
  match l with
  | [] => 0
  | ScS _ _ :: r => S (count_scs r)
  | _ :: r => count_scs r
  end.

Definition nonempty_scs (scs : list (list step_out)) : bool := forallb (fun steps => negb (match steps with [] => true | _ => false end)) scs.
Definition nonempty_beh (b : suite_beh) : bool := nonempty_scs (fst b).

Definition pc_scs (pc : ppc) : list (list step_out) :=
  match pc with
  | PScen scs _ | PCheck _ _ scs _ | PBody _ _ scs _ | PTear (TNext scs _) => scs
  | _ => []
  end.

(* how many scenarios may still be announced from here when the stop flag is set *)
Definition budget (pc : ppc) : nat :=
  match pc with
  | PScen (_ :: _) _ => 1
  | PBody _ _ (_ :: _) _ => 1
  | PTear (TNext (_ :: _) _) => 1
  | _ => 0
  end.

Definition NInv (s : pstate) : Prop :=
  nonempty_scs (pc_scs (p_pc s)) = true /\ forallb nonempty_beh (p_behs s) = true.

Lemma pc_scs_next_step steps scs e : pc_scs (next_step steps scs e) = scs.
Proof. destruct steps; reflexivity. Qed.

Lemma NInv_step c s l : NInv s -> NInv (pstep c s l).
Proof.
  intros [H1 H2]. destruct l; [|split; assumption]. unfold NInv.
  pmove_cases (pstep_spec c s);
    rewrite Epc in H1; cbn [p_pc p_behs pset pput pc_scs] in *; rewrite ?pc_scs_next_step; try (split; [reflexivity | exact H2]).
  - (* PMRun *) destruct (p_behs s) as [|[scs0 e0] r0]; inversion Eb; subst; [split; reflexivity|]. apply andb_true_iff in H2. exact H2.
  - (* PMScen *) apply andb_true_iff in H1. split; [apply H1 | exact H2].
  - (* PMCheck *) destruct (p_has_to_stop s); split; auto.
  - (* PMBody *) destruct st; cbn [after_body pc_scs]; rewrite ?pc_scs_next_step; split; auto.
  - (* PMTear *) destruct k; split; auto.
  - (* PMExcept *) split; [|exact H2]. unfold after_run. destruct e; try reflexivity. destruct (0 <? _); reflexivity.
  - (* PMFinally *) destruct again; split; auto.
  - (* PMDone *) rewrite Epc. split; auto.
Qed.

Definition AInv (base : nat) (s : pstate) : Prop :=
  p_stop s = true /\ count_scs (p_out s) + budget (p_pc s) <= S base.

Lemma AInv_step c base s l : NInv s -> AInv base s -> AInv base (pstep c s l).
Proof.
  intros [N1 _] [H1 H2]. destruct l; [|split; auto]. unfold AInv.
  pmove_cases (pstep_spec c s);
    rewrite Epc in H2, N1; cbn [p_pc p_stop p_out pset pput count_scs budget pc_scs] in *; try (split; [auto | lia]); try congruence.
  - (* PMScen: a scenario is announced: it has a first step, whose entry test will see the stop *)
    destruct steps; [discriminate|]. cbn [next_step budget]. split; [auto | lia].
  - (* PMCheck *) unfold p_has_to_stop. rewrite H1. cbn. split; [auto | lia].
  - (* PMBody *) split; [auto|]. destruct st; cbn [after_body budget]; try lia. destruct steps; cbn [next_step budget]; lia.
  - (* PMTear *) split; [auto|]. destruct k as [scs e|]; cbn [budget] in *; lia.
  - (* PMExcept *) split; [auto|]. unfold after_run. destruct e; cbn [budget]; try lia. destruct (0 <? _); cbn; lia.
  - (* PMFinally *) split; [auto|]. destruct again; cbn; lia.
  - (* PMDone *) rewrite Epc. cbn [budget]. split; [auto|lia].
Qed.

Lemma budget_le1 pc : budget pc <= 1.
Proof. destruct pc as [| | | |scs e|st steps scs e|st steps scs e|k|w| | |st again|]; cbn; try lia; try (destruct scs; lia). destruct k as [scs e|]; [destruct scs|]; lia. Qed.

Lemma NAInv_step c base s l : NInv s /\ AInv base s -> NInv (pstep c s l) /\ AInv base (pstep c s l).
Proof. intros [HN HA]. split; [apply NInv_step, HN | apply AInv_step; assumption]. Qed.
