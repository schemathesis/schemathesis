(* The unit-phase LTS of Model_C11.  What a step does to the state is said once (`trans`, `step_spec`); the invariants
   behind the theorems of C11 are proved over `trans`, and C05 and C12 build theirs on the same description. *)
From Coq Require Import List NArith Bool Arith Lia.
From Verif Require Import Common.Lists C11.Model_C11 C11.ModelE_C11.
Import ListNotations.

Lemma upd_length {A} i (x : A) l : length (upd i x l) = length l.
Proof. revert i; induction l as [|y l IH]; intros [|i]; cbn; auto. Qed.

Lemma nth_error_upd_same {A} i (x : A) l : i < length l -> nth_error (upd i x l) i = Some x.
Proof. revert i; induction l as [|y l IH]; intros [|i] H; cbn in *; try lia; auto. apply IH; lia. Qed.

Lemma nth_error_upd_other {A} i j (x : A) l : i <> j -> nth_error (upd i x l) j = nth_error l j.
Proof.
  revert i j; induction l as [|y l IH]; intros [|i] [|j] H; cbn; auto; try congruence.
Qed.

Definition wforall (P : wpc -> Prop) (ws : list wpc) : Prop :=
  forall j w, nth_error ws j = Some w -> P w.

Lemma wforall_upd (P : wpc -> Prop) i x ws : wforall P ws -> P x -> wforall P (upd i x ws).
Proof.
  intros H Hx j w Hj. destruct (Nat.eq_dec i j) as [<-|Hne]; [|rewrite nth_error_upd_other in Hj by exact Hne; exact (H _ _ Hj)].
  assert (Hlt : i < length ws) by (rewrite <- (upd_length i x); apply nth_error_Some; congruence).
  rewrite nth_error_upd_same in Hj by exact Hlt. inversion Hj. subst w. exact Hx.
Qed.

Lemma wforall_repeat (P : wpc -> Prop) w n : P w -> wforall P (repeat w n).
Proof.
  intros H j w' Hj. apply nth_error_In in Hj. apply repeat_spec in Hj. subst; auto.
Qed.

Definition moved (s : state) (os : list opb) (added : list ev) (snt : list (nat * bool)) (i : nat) (w' : wpc) : state :=
  {| queue := queue s ++ added; emitted := emitted s; ops := os; stop := stop s; limit := limit s;
     counter := counter s; cstatus := cstatus s; executed := executed s; cp := cp s;
     workers := upd i w' (workers s); sent := snt; dropped := dropped s |}.

Definition after_send (c : cfg) (o : opb) (c0 : case_out) (rest : list case_out) (st : status) : wpc :=
  match c0 with
  | CaseOk => next_case o rest st
  | CaseFail => if cof c then next_case o rest FAILURE else WPut [ScFinish (op_id o) FAILURE]
  | CaseErr => WPut [NonFatal (op_id o); ScFinish (op_id o) ERROR]
  end.

Inductive wmove (c : cfg) (s : state) : wpc -> list opb -> list ev -> list (nat * bool) -> wpc -> Prop :=
| MLoop : wmove c s WLoop (ops s) [] (sent s) (if has_to_stop s then WDead else WFetch)
| MFetchNone : ops s = [] -> wmove c s WFetch (ops s) [] (sent s) WDead
| MFetch o rest : ops s = o :: rest ->
    wmove c s WFetch rest [] (sent s)
      (if build_err o then WPut [ScStart (op_id o); NonFatal (op_id o); ScFinish (op_id o) ERROR] else WStart o)
| MStart o : wmove c s (WStart o) (ops s) [ScStart (op_id o)] (sent s) (next_case o (cases o) SUCCESS)
| MCheck o c0 rest st :
    wmove c s (WCheck o c0 rest st) (ops s) [] (sent s)
      (if has_to_stop s then WPut [ScFinish (op_id o) INTERRUPTED; Interrupt] else WSend o c0 rest st)
| MSend o c0 rest st :
    wmove c s (WSend o c0 rest st) (ops s) [] ((op_id o, has_to_stop s) :: sent s) (after_send c o c0 rest st)
| MPutNil : wmove c s (WPut []) (ops s) [] (sent s) WLoop
| MPut e k : wmove c s (WPut (e :: k)) (ops s) [e] (sent s) (after_put k).

Definition set_cp (s : state) (p : cpc) : state :=
  {| queue := queue s; emitted := emitted s; ops := ops s; stop := stop s; limit := limit s;
     counter := counter s; cstatus := cstatus s; executed := executed s; cp := p;
     workers := workers s; sent := sent s; dropped := dropped s |}.

Definition counted (c : cfg) (s : state) (e : ev) : nat * bool :=
  if counts_as_failure e then count_failure c (counter s) (limit s) else (counter s, limit s).

Inductive cmove (c : cfg) (s : state) : state -> Prop :=
| CTimeout : cp s = CGet -> queue s = [] -> cmove c s (set_cp s CAlive)
| CRaise e q : cp s = CGet -> queue s = e :: q -> stop s = true ->
    cmove c s {| queue := q; emitted := Interrupt :: emitted s; ops := ops s; stop := true; limit := limit s;
                 counter := counter s; cstatus := Some INTERRUPTED; executed := true; cp := CDone;
                 workers := workers s; sent := sent s; dropped := e :: dropped s |}
| CYield e q : cp s = CGet -> queue s = e :: q -> stop s = false ->
    cmove c s {| queue := q; emitted := e :: emitted s; ops := ops s; stop := false; limit := limit s;
                 counter := counter s; cstatus := cstatus s; executed := true; cp := CPost e;
                 workers := workers s; sent := sent s; dropped := dropped s |}
| CCount e n lim : cp s = CPost e -> counted c s e = (n, lim) ->
    cmove c s {| queue := queue s; emitted := emitted s; ops := ops s; stop := is_interrupt e || stop s; limit := lim;
                 counter := n; cstatus := if is_interrupt e || stop s then Some INTERRUPTED else fold_status (cstatus s) e;
                 executed := executed s; cp := if is_interrupt e || stop s || lim then CDone else CGet;
                 workers := workers s; sent := sent s; dropped := dropped s |}
| CLiveness : cp s = CAlive ->
    cmove c s (set_cp s (if forallb is_dead (workers s) then (if drain_fix c then CEmpty else CDone) else CGet))
| CDrained : cp s = CEmpty -> cmove c s (set_cp s (match queue s with [] => CDone | _ => CGet end))
| CStay : cp s = CDone -> cmove c s s.

Definition stopped (s : state) : state :=
  {| queue := queue s; emitted := emitted s; ops := ops s; stop := true; limit := limit s;
     counter := counter s; cstatus := cstatus s; executed := executed s; cp := cp s;
     workers := workers s; sent := sent s; dropped := dropped s |}.

(* `trans` is what the invariants are proved over; it is a little wider than `step` (TSkip lets any W i stutter, also a live
   worker), which costs nothing since every invariant is closed under stuttering *)
Inductive trans (c : cfg) (s : state) : label -> state -> Prop :=
| TConsumer s' : cmove c s s' -> trans c s C s'
| TWorker i w os added snt w' : nth_error (workers s) i = Some w -> wmove c s w os added snt w' ->
    trans c s (W i) (moved s os added snt i w')
| TSkip i : trans c s (W i) s
| TStop : trans c s Stop (stopped s).

(* The ten cases of a step, under the names the proofs below use.  Consumer: CTimeout, CRaise, CYield, CCount, CLiveness,
   CDrained, CStay (with `Ecp : cp s = ...`, and `Eq`, `Es`, `E` for the queue, the stop flag, the count); then the worker's move
   (`Hi`, `M : wmove ...`), the idle label, the stop request. *)
Ltac step_cases T :=
  destruct T as [s' [Ecp Eq | e q Ecp Eq Es | e q Ecp Eq Es | e n lim Ecp E | Ecp | Ecp | Ecp] | i w os' added snt w' Hi M | | ].

Lemma consumer_step_spec c s : cmove c s (consumer_step c s).
Proof.
  destruct (cp s) eqn:Ecp.
  - destruct (queue s) as [|e q] eqn:Eq.
    + replace (consumer_step c s) with (set_cp s CAlive); [constructor; assumption|].
      unfold consumer_step, set_cp. rewrite Ecp, Eq. reflexivity.
    + destruct (stop s) eqn:Es.
      * pose proof (CRaise c s e q Ecp Eq Es) as H. unfold consumer_step. rewrite Ecp, Eq, Es. exact H.
      * pose proof (CYield c s e q Ecp Eq Es) as H. unfold consumer_step. rewrite Ecp, Eq, Es. exact H.
  - destruct (counted c s e) as [n lim] eqn:E. pose proof (CCount c s e n lim Ecp E) as H.
    unfold consumer_step. rewrite Ecp. unfold counted in E. rewrite E.
    destruct (is_interrupt e), (stop s); exact H.
  - pose proof (CLiveness c s Ecp) as H. unfold consumer_step. rewrite Ecp. exact H.
  - pose proof (CDrained c s Ecp) as H. unfold consumer_step. rewrite Ecp. exact H.
  - pose proof (CStay c s Ecp) as H. unfold consumer_step. rewrite Ecp. exact H.
Qed.

Lemma step_spec c s l : trans c s l (step c s l).
Proof.
  destruct l as [|i|]; cbn [step]; [apply TConsumer, consumer_step_spec | | apply TStop].
  destruct (nth_error (workers s) i) as [w|] eqn:Hi; [|apply TSkip].
  assert (H : forall os added snt w' s', wmove c s w os added snt w' -> s' = moved s os added snt i w' -> trans c s (W i) s').
  { intros os added snt w' s' M ->. econstructor; eassumption. }
  destruct w; cbn [worker_step].
  - eapply H; [apply MLoop|]. unfold moved, set_worker. rewrite app_nil_r. reflexivity.
  - destruct (ops s) as [|o rest] eqn:Eo.
    + eapply H; [apply MFetchNone, Eo|]. unfold moved, set_worker. rewrite app_nil_r, Eo. reflexivity.
    + eapply H; [apply (MFetch c s o rest Eo)|]. unfold moved, set_worker. cbn. rewrite app_nil_r. destruct (build_err o); reflexivity.
  - eapply H; [apply MStart|]. reflexivity.
  - eapply H; [apply MCheck|]. unfold moved, set_worker. rewrite app_nil_r. destruct (has_to_stop s); reflexivity.
  - eapply H; [apply MSend|]. unfold moved, set_worker, after_send. cbn. rewrite app_nil_r. destruct c0; [|destruct (cof c)|]; reflexivity.
  - destruct script as [|e k]; (eapply H; [constructor|]); [|reflexivity]. unfold moved, set_worker. rewrite app_nil_r. reflexivity.
  - apply TSkip.
Qed.

Lemma run_inv (P : state -> Prop) c : (forall s l s', trans c s l s' -> P s -> P s') ->
  forall sched s, P s -> P (run c sched s).
Proof. intros H. apply fold_left_inv. intros s l. apply (H s l), step_spec. Qed.


Lemma trans_workers_length c s l s' : trans c s l s' -> length (workers s') = length (workers s).
Proof. intros T. destruct T as [s' []| | |]; try reflexivity. apply upd_length. Qed.

Lemma run_workers_length c sched n os : length (workers (run c sched (init n os))) = n.
Proof.
  apply (run_inv (fun s => length (workers s) = n)); [|apply repeat_length].
  intros s l s' T <-. eapply trans_workers_length, T.
Qed.

(* A: every finish is preceded by the start of its scenario *)
Definition hist (s : state) : list ev := rev (emitted s) ++ queue s.

Lemma hist_moved s os added snt i w' : hist (moved s os added snt i w') = hist s ++ added.
Proof. apply app_assoc. Qed.

Lemma hist_yield s e q : queue s = e :: q -> rev (e :: emitted s) ++ q = hist s.
Proof. intros E. unfold hist. rewrite E. cbn [rev]. rewrite <- app_assoc. reflexivity. Qed.

(* `finishes_have_starts` keeps what it has read newest first: hence the `rev` *)
Definition seen (h : list ev) (id : nat) : Prop := existsb (is_start id) (rev h) = true.
Definition follows (h k : list ev) : Prop := finishes_have_starts (rev h) k = true.

Lemma seen_snoc h e id : seen (h ++ [e]) id <-> is_start id e = true \/ seen h id.
Proof. unfold seen. rewrite rev_app_distr. cbn. apply orb_true_iff. Qed.

Lemma seen_app h a id : seen h id -> seen (h ++ a) id.
Proof. unfold seen. intros H. rewrite rev_app_distr, existsb_app, H. apply orb_true_r. Qed.

Lemma seen_last h id : seen (h ++ [ScStart id]) id.
Proof. apply seen_snoc. left. apply Nat.eqb_refl. Qed.

Lemma follows_cons h e k : follows h (e :: k) <->
  match e with ScFinish id _ => seen h id | _ => True end /\ follows (h ++ [e]) k.
Proof.
  unfold follows, seen. rewrite rev_app_distr. cbn [finishes_have_starts rev app]. rewrite andb_true_iff.
  destruct e; intuition.
Qed.

Lemma follows_app h a b : follows h (a ++ b) <-> follows h a /\ follows (h ++ a) b.
Proof.
  revert h. induction a as [|e a IH]; intros h; cbn [app].
  - rewrite app_nil_r. unfold follows at 2. cbn. intuition.
  - rewrite !follows_cons, IH, <- app_assoc. cbn [app]. intuition.
Qed.

Lemma follows_mono k : forall h h', (forall id, seen h id -> seen h' id) -> follows h k -> follows h' k.
Proof.
  induction k as [|e k IH]; intros h h' Hs; [reflexivity|]. rewrite !follows_cons. intros [H1 H2]. split.
  - destruct e; auto.
  - apply (IH (h ++ [e])); [|exact H2]. intros id. rewrite !seen_snoc. intuition.
Qed.

Definition wok (h : list ev) (w : wpc) : Prop :=
  match w with
  | WCheck o _ _ _ | WSend o _ _ _ => seen h (op_id o)
  | WPut k => follows h k
  | _ => True
  end.

Lemma wok_app h a w : wok h w -> wok (h ++ a) w.
Proof. destruct w; cbn; auto using seen_app. apply follows_mono. intros id. apply seen_app. Qed.

Lemma wok_next_case h o rest st : seen h (op_id o) -> wok h (next_case o rest st).
Proof.
  intros H. destruct rest; [|exact H]. cbn. unfold final_script. destruct st; apply follows_cons; split; auto; reflexivity.
Qed.

Lemma wok_move c s w os added snt w' h : wmove c s w os added snt w' -> wok h w -> follows h added /\ wok (h ++ added) w'.
Proof.
  intros M Hw. destruct M; cbn [wok] in Hw; rewrite ?app_nil_r; try (split; [reflexivity|]).
  - destruct (has_to_stop s); exact I.
  - exact I.
  - destruct (build_err o); [|exact I]. cbn. rewrite 3 follows_cons. repeat split. apply seen_app, seen_last.
  - apply wok_next_case, seen_last.
  - destruct (has_to_stop s); [|exact Hw]. apply follows_cons. split; [exact Hw|reflexivity].
  - unfold after_send. destruct c0; [|destruct (cof c)|]; auto using wok_next_case; cbn; rewrite !follows_cons; repeat split; auto using seen_app.
  - exact I.
  - apply follows_cons in Hw. destruct Hw as [H1 H2]. split; [apply follows_cons; split; [exact H1|reflexivity]|].
    destruct k; [exact I|exact H2].
Qed.

(* the last clause - an event is dropped only by the KeyboardInterrupt with which the consumer leaves - is not about starts and
   finishes; it lives here because the first two are stated under `dropped s = []`, and is what invC_step and inv1 take from A *)
Definition invA (s : state) : Prop :=
  follows [] (trace s) /\ (dropped s = [] -> follows [] (hist s) /\ wforall (wok (hist s)) (workers s)) /\
  (dropped s = [] \/ cp s = CDone).

Lemma invA_frame s s' : emitted s' = emitted s -> queue s' = queue s -> workers s' = workers s -> dropped s' = dropped s ->
  (cp s = CDone -> cp s' = CDone) -> invA s -> invA s'.
Proof.
  intros E1 E2 E3 E4 Hc (HA1 & HA2 & HA3). unfold invA, trace, hist. rewrite E1, E2, E3, E4. intuition.
Qed.

Lemma invA_step c s l s' : trans c s l s' -> invA s -> invA s'.
Proof.
  intros T HA. pose proof HA as (HA1 & HA2 & HA3).
  (* all steps but three leave the events, the workers and `dropped` alone *)
  step_cases T; try (apply (invA_frame s); auto; cbn; congruence).
  - (* CRaise *) split; [|split; [discriminate|right; reflexivity]]. unfold trace. cbn [emitted rev]. apply follows_app. split; [exact HA1|reflexivity].
  - (* CYield *) destruct HA3 as [Hd|]; [|congruence]. destruct (HA2 Hd) as [Hh Hw].
    unfold invA, trace, hist. cbn [emitted queue workers dropped]. rewrite (hist_yield s e q Eq). split; [|auto].
    rewrite <- (hist_yield s e q Eq) in Hh. apply follows_app in Hh. apply Hh.
  - (* worker *) split; [exact HA1|]. split; [|exact HA3]. intros Hd. destruct (HA2 Hd) as [Hh Hw]. rewrite hist_moved.
    destruct (wok_move _ _ _ _ _ _ _ (hist s) M (Hw _ _ Hi)) as [Ha Hw']. split; [apply follows_app; auto|].
    apply wforall_upd; [|exact Hw']. intros j w0 Hj. apply wok_app, (Hw j w0 Hj).
Qed.

Lemma invA_init n os : invA (init n os).
Proof. split; [reflexivity|]. split; [|left; reflexivity]. intros _. split; [reflexivity|]. apply wforall_repeat. exact I. Qed.

(* B: a started scenario is finished or still owed by a worker *)
Definition owes (w : wpc) (id : nat) : Prop :=
  match w with
  | WCheck o _ _ _ | WSend o _ _ _ => op_id o = id
  | WPut k => exists st, In (ScFinish id st) k
  | _ => False
  end.

Definition script_ok (w : wpc) : Prop :=
  match w with
  | WPut k => (forall id, ~ In (ScStart id) k) \/ exists id, k = [ScStart id; NonFatal id; ScFinish id ERROR]
  | _ => True
  end.

Definition covered (h : list ev) (ws : list wpc) (id : nat) : Prop :=
  (exists st, In (ScFinish id st) h) \/ exists j w, nth_error ws j = Some w /\ owes w id.

Definition invB (s : state) : Prop :=
  wforall script_ok (workers s) /\
  (dropped s = [] -> forall id, In (ScStart id) (hist s) -> covered (hist s) (workers s) id).

Lemma owes_next_case o rest st : owes (next_case o rest st) (op_id o).
Proof. destruct rest; [|reflexivity]. cbn. unfold final_script. destruct st; eexists; left; reflexivity. Qed.

Lemma script_ok_next_case o rest st : script_ok (next_case o rest st).
Proof.
  destruct rest; [|exact I]. left. intros id. unfold final_script. destruct st; intros [H|[]]; discriminate.
Qed.

(* the worker keeps owing what it owed unless it has just put the finish; a start it puts, it owes *)
Lemma owes_move c s w os added snt w' : wmove c s w os added snt w' -> script_ok w ->
  script_ok w' /\
  forall id, owes w id \/ In (ScStart id) added -> owes w' id \/ exists st, In (ScFinish id st) added.
Proof.
  intros M Hok. destruct M; cbn [owes script_ok In] in *.
  - split; [destruct (has_to_stop s); exact I | intros id [[]|[]]].
  - split; [exact I | intros id [[]|[]]].
  - split; [destruct (build_err o); [right; eexists; reflexivity | exact I] | intros id [[]|[]]].
  - split; [apply script_ok_next_case|]. intros id [[]|[H|[]]]. inversion H. left. apply owes_next_case.
  - destruct (has_to_stop s); (split; [|intros id [<-|[]]; left]).
    + left. intros id [H|[H|[]]]; discriminate.
    + eexists. left. reflexivity.
    + exact I.
    + reflexivity.
  - unfold after_send. destruct c0; [|destruct (cof c)|]; (split; [|intros id [<-|[]]; left]);
      auto using script_ok_next_case, owes_next_case.
    + left. intros id [H|[]]; discriminate.
    + eexists. left. reflexivity.
    + left. intros id [H|[H|[]]]; discriminate.
    + eexists. right. left. reflexivity.
  - split; [exact I | intros id [[? []]|[]]].
  - split.
    + destruct k as [|e2 k]; [exact I|]. destruct Hok as [Hno|[id E]].
      * left. intros id H. apply (Hno id). right. exact H.
      * inversion E. left. intros id' [H|[H|[]]]; discriminate.
    + intros id [[st [H|H]]|[H|[]]].
      * right. exists st. left. exact H.
      * left. destruct k; [destruct H|]. exists st. exact H.
      * subst e. destruct Hok as [Hno|[id' E]]; [destruct (Hno id); left; reflexivity|].
        inversion E. left. eexists. right. left. reflexivity.
Qed.

Lemma invB_step c s l s' : trans c s l s' -> invB s -> invB s'.
Proof.
  intros T [HS HB].
  step_cases T;
    try (split; assumption).
  - (* CRaise *) split; [exact HS | discriminate].
  - (* CYield *) split; [exact HS|]. unfold hist. cbn [emitted queue workers dropped]. rewrite (hist_yield s e q Eq). exact HB.
  - (* worker *) destruct (owes_move _ _ _ _ _ _ _ M (HS _ _ Hi)) as [Hok Hkeep]. split; [apply wforall_upd; assumption|].
    assert (Hme : forall id, owes w' id -> covered (hist s ++ added) (upd i w' (workers s)) id).
    { intros id H. right. exists i, w'. split; [|exact H]. apply nth_error_upd_same, nth_error_Some. congruence. }
    assert (Hfin : forall id st, In (ScFinish id st) added -> covered (hist s ++ added) (upd i w' (workers s)) id).
    { intros id st H. left. exists st. apply in_or_app. right. exact H. }
    cbn [dropped moved]. rewrite hist_moved. intros Hd id Hin. cbn [workers moved]. apply in_app_or in Hin.
    destruct Hin as [Hin|Hin]; [|destruct (Hkeep id (or_intror Hin)) as [H|[st H]]; eauto].
    destruct (HB Hd id Hin) as [[st H]|[j [wj [Hj Ho]]]]; [left; exists st; apply in_or_app; auto|].
    destruct (Nat.eq_dec j i) as [->|Hne].
    + rewrite Hi in Hj. inversion Hj; subst wj. destruct (Hkeep id (or_introl Ho)) as [H|[st H]]; eauto.
    + right. exists j, wj. split; [|exact Ho]. rewrite nth_error_upd_other; auto.
Qed.

Lemma invB_init n os : invB (init n os).
Proof. split; [apply wforall_repeat; exact I|]. intros _ id []. Qed.

(* C: how the consumer can be done without a stop request *)
Definition invC (c : cfg) (s : state) : Prop :=
  (maxf c = None -> limit s = false) /\
  (cp s = CDone -> has_to_stop s = false ->
     forallb is_dead (workers s) = true /\ queue s = [] /\ dropped s = []) /\
  (cp s = CEmpty -> forallb is_dead (workers s) = true).

Lemma all_dead_nth ws i w : forallb is_dead ws = true -> nth_error ws i = Some w -> w = WDead.
Proof.
  intros H Hi. rewrite forallb_forall in H. apply nth_error_In in Hi. specialize (H _ Hi). destruct w; try discriminate; auto.
Qed.

Lemma counted_limit_mono c s e n lim : counted c s e = (n, lim) -> limit s = true -> lim = true.
Proof.
  unfold counted, count_failure. intros E Hl.
  destruct (counts_as_failure e); [destruct (maxf c); [destruct (_ <=? _)|]|]; inversion E; auto.
Qed.

Lemma counted_unlimited c s e n lim : maxf c = None -> counted c s e = (n, lim) -> lim = limit s.
Proof. unfold counted, count_failure. intros ->. destruct (counts_as_failure e); intros E; inversion E; auto. Qed.

Lemma invC_step c s l s' : drain_fix c = true -> trans c s l s' -> invA s -> invC c s -> invC c s'.
Proof.
  intros Hfix T (_ & _ & HA3) (HC1 & HC2 & HC3).
  step_cases T;
    unfold invC, has_to_stop; cbn [limit cp stop workers queue dropped set_cp moved stopped].
  - (* CTimeout *) split; [exact HC1|]. split; discriminate.
  - (* CRaise *) split; [exact HC1|]. split; discriminate.
  - (* CYield *) split; [exact HC1|]. split; discriminate.
  - (* CCount *) split; [intros Hm; rewrite (counted_unlimited _ _ _ _ _ Hm E); auto|].
    destruct (is_interrupt e || stop s || lim); split; discriminate.
  - (* CLiveness *) rewrite Hfix. split; [exact HC1|]. destruct (forallb is_dead (workers s)); split; auto; discriminate.
  - (* CDrained: all workers are dead: the consumer leaves iff the queue is empty *)
    split; [exact HC1|]. destruct (queue s); split; try discriminate.
    intros _ _. split; [auto|]. split; [reflexivity|]. destruct HA3; congruence.
  - (* CStay *) split; auto.
  - (* worker: a worker that moves is not dead *)
    assert (Hlive : forallb is_dead (workers s) = true -> False).
    { intros H. rewrite (all_dead_nth _ _ _ H Hi) in M. inversion M. }
    split; [exact HC1|]. split; [intros H1 H2; destruct (HC2 H1 H2) as [H _] | intros H1; pose proof (HC3 H1) as H]; destruct (Hlive H).
  - (* idle *) split; auto.
  - (* Stop *) split; [exact HC1|]. split; [discriminate | exact HC3].
Qed.

Lemma invC_init c n os : invC c (init n os).
Proof. split; auto. split; discriminate. Qed.

Definition invABC c s := invA s /\ invB s /\ invC c s.

Lemma invABC_run c sched n os : drain_fix c = true -> invABC c (run c sched (init n os)).
Proof.
  intros Hfix. apply run_inv.
  - intros s l s' T (HA & HB & HC). split; [|split]; eauto using invA_step, invB_step, invC_step.
  - split; [apply invA_init|]. split; [apply invB_init | apply invC_init].
Qed.


Lemma in_started_ids id t : In id (started_ids t) <-> In (ScStart id) t.
Proof.
  unfold started_ids. rewrite in_flat_map. split.
  - intros [e [He Hi]]. destruct e; cbn in Hi; try contradiction. destruct Hi as [->|[]]. exact He.
  - intros H. exists (ScStart id). split; auto. left; reflexivity.
Qed.

Lemma closed_unless_stopped c sched n os :
  drain_fix c = true ->
  let s := run c sched (init n os) in
  cp s = CDone -> has_to_stop s = false -> all_closed (trace s) = true.
Proof.
  intros Hfix s Hcp Hs. destruct (invABC_run c sched n os Hfix) as (HA & [_ HB] & [_ [HC _]]).
  fold s in HA, HB, HC. destruct (HC Hcp Hs) as (D1 & D2 & D3).
  unfold all_closed. apply forallb_forall. intros id Hid. apply in_started_ids in Hid.
  assert (Hh : hist s = trace s) by (unfold hist, trace; rewrite D2, app_nil_r; reflexivity).
  rewrite <- Hh in Hid. destruct (HB D3 id Hid) as [[st H]|[j [w [Hj Ho]]]].
  - apply existsb_exists. exists (ScFinish id st). rewrite <- Hh. split; auto. cbn. apply Nat.eqb_refl.
  - assert (w = WDead) by (eapply all_dead_nth; eauto). subst w. destruct Ho.
Qed.

Definition op_ok (id : nat) (k : nat) : opb :=
  {| op_id := id; build_err := false; cases := repeat CaseOk k; end_skip := false |}.
Definition op_fail (id : nat) : opb :=
  {| op_id := id; build_err := false; cases := [CaseFail]; end_skip := false |}.

Definition cfg_now (m : option nat) : cfg := {| maxf := m; cof := false; drain_fix := true |}.
Definition cfg_before_fix : cfg := {| maxf := None; cof := false; drain_fix := false |}.

(* two workers, max_failures = 1: scenario 1 is announced and never closed, nobody asked to stop *)
Definition sched_limit : list label :=
  [W 0; W 0; W 1; W 1; W 0; W 1; W 0; W 0; W 0; C; C; C; C; C; C].

(* the code before the fix: timeout, then the worker puts its last event and dies, then the liveness test *)
Definition sched_race : list label :=
  [W 0; W 0; W 0; W 0; W 0; W 0; W 0; C; C; C; W 0; W 0; W 0; C].

(* the plan level: plan_loop of Model_C11, then eloop of ModelE_C11 with interruptions that escape a phase *)
Lemma plan_loop_wf phases : forall p st lim,
  plan_wf_body p None (plan_loop p phases st lim ++ [EngineFinished]) = true.
Proof.
  induction phases as [|[pc pr] rest IH]; intros p st lim; [reflexivity|].
  cbn [plan_loop].
  destruct (enabled pc && negb (st || lim)); cbn [app plan_wf_body]; rewrite ?Nat.eqb_refl; cbn [andb].
  - destruct (r_stop pr); [reflexivity | apply IH].
  - destruct st; [reflexivity | apply IH].
Qed.

Lemma plan_loop_inner phases : forall p st lim e,
  In e (plan_loop p phases st lim) -> e <> EngineFinished /\ e <> EngineStarted.
Proof.
  induction phases as [|[pc pr] rest IH]; intros p st lim e Hin; [destruct Hin|].
  cbn [plan_loop] in Hin. apply in_app_or in Hin. destruct Hin as [Hin|Hin].
  - destruct (enabled pc && negb (st || lim)); cbn in Hin;
      repeat (destruct Hin as [<-|Hin]; [split; discriminate|]); destruct Hin.
  - destruct (if enabled pc && negb (st || lim) then r_stop pr else st); [destruct Hin | eapply IH; eauto].
Qed.

Lemma ewf_ebody next p n k rest :
  ewf_body next (Some p) (map (EvBody p) (seq k n) ++ rest) = ewf_body next (Some p) rest.
Proof.
  revert k. induction n as [|n IH]; intros k; cbn [seq map app]; [reflexivity|].
  cbn [ewf_body]. rewrite Nat.eqb_refl. cbn [andb]. apply IH.
Qed.

Lemma eloop_wf phases : forall p st lim,
  ewf_body p None (eloop true p phases st lim ++ [EvFinish]) = true.
Proof.
  induction phases as [|ph rest IH]; intros p st lim; [reflexivity|].
  cbn [eloop]. destruct (e_enabled ph && negb (st || lim)).
  - destruct (e_ki ph); cbn [app ewf_body]; rewrite Nat.eqb_refl; cbn [andb]; unfold ebody; rewrite <- ?app_assoc;
      rewrite ewf_ebody; cbn [app ewf_body]; rewrite ?Nat.eqb_refl; cbn [andb]; auto.
    destruct (e_stop ph); [reflexivity|apply IH].
  - cbn [app ewf_body]. rewrite !Nat.eqb_refl. cbn [andb]. destruct st; [reflexivity|apply IH].
Qed.

Lemma eplan_wf phases stop0 : ewf (eplan true phases stop0) = true.
Proof. unfold eplan. destruct stop0; [reflexivity|]. cbn [ewf]. apply eloop_wf. Qed.

Definition invP (s : state) : Prop := forall e, cp s = CPost e -> exists t, emitted s = e :: t.

Lemma invP_step c s l s' : trans c s l s' -> invP s -> invP s'.
Proof.
  intros T HP.
  step_cases T; try exact HP;
    intros e0; cbn [cp emitted set_cp]; try discriminate.
  - (* CYield *) intros H. inversion H. eexists; reflexivity.
  - (* CCount *) destruct (is_interrupt e || stop s || lim); discriminate.
  - (* CLiveness *) destruct (forallb is_dead (workers s)); [destruct (drain_fix c)|]; discriminate.
  - (* CDrained *) destruct (queue s); discriminate.
Qed.

Lemma invP_init n os : invP (init n os).
Proof. intros e He. discriminate. Qed.

(* the limit is reached while post-processing a failed or errored ScenarioFinished, which stays the last emitted event *)
Definition invL (s : state) : Prop :=
  (limit s = true -> cp s = CDone /\ exists e t, emitted s = e :: t /\ counts_as_failure e = true) /\
  (dropped s <> [] -> stop s = true).

Lemma invL_running s : invL s -> cp s <> CDone -> limit s = false.
Proof. intros [L1 _] Hcp. destruct (limit s); [destruct (L1 eq_refl); contradiction | reflexivity]. Qed.

Lemma invL_step c s l s' : trans c s l s' -> invP s -> invL s -> invL s'.
Proof.
  intros T HP HL. pose proof HL as [L1 L2]. pose proof (invL_running s HL) as Hl.
  step_cases T; try (split; [exact L1 | exact L2]); (split; cbn [limit stop dropped cp emitted set_cp stopped]).
  - (* CTimeout *) rewrite Hl; [discriminate | congruence].
  - (* CTimeout *) exact L2.
  - (* CRaise *) rewrite Hl; [discriminate | congruence].
  - (* CRaise *) reflexivity.
  - (* CYield *) rewrite Hl; [discriminate | congruence].
  - (* CYield *) intros H. rewrite <- Es. exact (L2 H).
  - (* CCount: the limit is reached by this very event *)
    intros ->. rewrite orb_true_r. split; [reflexivity|]. destruct (HP e Ecp) as [t Et]. exists e, t.
    split; [exact Et|]. unfold counted in E. destruct (counts_as_failure e); [reflexivity|]. rewrite Hl in E by congruence. discriminate E.
  - (* CCount *) intros H. rewrite (L2 H). apply orb_true_r.
  - (* CLiveness *) rewrite Hl; [discriminate | congruence].
  - (* CLiveness *) exact L2.
  - (* CDrained *) rewrite Hl; [discriminate | congruence].
  - (* CDrained *) exact L2.
  - (* Stop *) exact L1.
  - (* Stop *) reflexivity.
Qed.

Lemma invL_init n os : invL (init n os).
Proof. split; [discriminate | intros H; destruct H; reflexivity]. Qed.

Lemma invPL_run c sched n os : invP (run c sched (init n os)) /\ invL (run c sched (init n os)).
Proof.
  apply (run_inv (fun s => invP s /\ invL s)); [|split; [apply invP_init | apply invL_init]].
  intros s l s' T [HP HL]. split; eauto using invP_step, invL_step.
Qed.

(* false exactly on the events that exist only after somebody asked to stop (or the limit was reached): Interrupt and a
   ScenarioFinished INTERRUPTED *)
Definition cool (e : ev) : bool :=
  match e with Interrupt | ScFinish _ INTERRUPTED => false | _ => true end.

Definition wcool (w : wpc) : Prop :=
  match w with
  | WPut k => forallb cool k = true
  | WCheck _ _ _ st | WSend _ _ _ st => st <> INTERRUPTED
  | _ => True
  end.

Lemma wcool_next_case o rest st : st <> INTERRUPTED -> wcool (next_case o rest st).
Proof. intros H. destruct rest; [|exact H]. cbn. unfold final_script. destruct st; try reflexivity; [destruct (end_skip o); reflexivity | congruence]. Qed.

Lemma wcool_move c s w os added snt w' : wmove c s w os added snt w' -> has_to_stop s = false -> wcool w ->
  forallb cool added = true /\ wcool w'.
Proof.
  intros M Hs Hw. destruct M; rewrite ?Hs; cbn [wcool] in *; try (split; [reflexivity|]); try exact I; try exact Hw.
  - destruct (build_err o); [reflexivity | exact I].
  - apply wcool_next_case. discriminate.
  - unfold after_send. destruct c0; [|destruct (cof c)|]; try reflexivity; apply wcool_next_case; [exact Hw | discriminate].
  - apply andb_true_iff in Hw. destruct Hw as [He Hk]. cbn. rewrite He. split; [reflexivity|]. destruct k; [exact I | exact Hk].
Qed.

Definition invF (s : state) : Prop :=
  has_to_stop s = false ->
  forallb cool (queue s) = true /\ wforall wcool (workers s) /\ (forall e, cp s = CPost e -> cool e = true).

Lemma invF_step c s l s' : trans c s l s' -> invF s -> invF s'.
Proof.
  intros T HF.
  step_cases T;
    try exact HF; unfold invF, has_to_stop in *; cbn [stop limit queue workers cp set_cp moved stopped]; try discriminate.
  - (* CTimeout *) intros Hs. destruct (HF Hs) as (F1 & F2 & F3). repeat split; auto. discriminate.
  - (* CYield *) rewrite Es, Eq in HF. intros Hs. destruct (HF Hs) as (F1 & F2 & F3). apply andb_true_iff in F1. destruct F1 as [He Hq].
    repeat split; auto. intros e0 H0. inversion H0; subst. exact He.
  - (* CCount *) intros Hs. apply orb_false_iff in Hs. destruct Hs as [Hs Hl]. apply orb_false_iff in Hs. destruct Hs as [_ Hs].
    rewrite Hs, Hl in *. cbn [orb].
    assert (Hold : limit s = false) by (destruct (limit s) eqn:El; [symmetry; apply (counted_limit_mono _ _ _ _ _ E El) | reflexivity]).
    rewrite Hold in HF. destruct (HF eq_refl) as (F1 & F2 & F3). repeat split; auto.
    destruct (is_interrupt e); discriminate.
  - (* CLiveness *) intros Hs. destruct (HF Hs) as (F1 & F2 & F3). repeat split; auto.
    destruct (forallb is_dead (workers s)); [destruct (drain_fix c)|]; discriminate.
  - (* CDrained *) intros Hs. destruct (HF Hs) as (F1 & F2 & F3). repeat split; auto. destruct (queue s); discriminate.
  - (* worker *) intros Hs. destruct (HF Hs) as (F1 & F2 & F3). destruct (wcool_move _ _ _ _ _ _ _ M Hs (F2 _ _ Hi)) as [Ha Hw'].
    rewrite forallb_app, F1, Ha. repeat split; auto. apply wforall_upd; assumption.
Qed.

Lemma invF_init n os : invF (init n os).
Proof. intros _. repeat split; [apply wforall_repeat; exact I | discriminate]. Qed.

(* not above ERROR (srank ERROR = 2) *)
Definition low_status (cur : option status) : Prop :=
  match cur with None => True | Some st => srank st <= 2 end.

(* how much an event weighs in the status fold (None: it is ignored) *)
Definition sev (e : ev) : option nat :=
  match e with
  | NonFatal _ => Some 2
  | ScFinish _ st => if status_eqb st SKIP then None else Some (srank st)
  | _ => None
  end.

Lemma fold_status_low cur e : cool e = true -> low_status cur -> low_status (fold_status cur e).
Proof. destruct e as [| |id []|]; try discriminate; destruct cur as [[]|]; cbn; auto; lia. Qed.

Lemma fold_status_covers cur e r : sev e = Some r -> exists cur', fold_status cur e = Some cur' /\ r <= srank cur'.
Proof.
  destruct e as [| |id st|]; try discriminate; [intros H; inversion H; cbn; eauto|].
  destruct st; cbn; try discriminate; intros H; inversion H; destruct cur as [[]|]; cbn; eexists; (split; [reflexivity|cbn; lia]).
Qed.

Lemma fold_status_mono cur e : low_status (Some cur) -> exists cur', fold_status (Some cur) e = Some cur' /\ srank cur <= srank cur'.
Proof.
  intros H. destruct e as [| |id []|]; cbn; eauto; destruct cur; cbn in *; eexists; (split; [reflexivity|cbn; lia]).
Qed.

Lemma fold_status_not_skip cur e : cur <> Some SKIP -> fold_status cur e <> Some SKIP.
Proof. intros H. destruct e as [| |id []|]; cbn; try discriminate; auto; destruct cur as [[]|]; cbn; congruence. Qed.

Definition processed (s : state) : list ev :=
  match cp s with CPost _ => tl (emitted s) | _ => emitted s end.

Lemma processed_after_count (b : bool) (l : list ev) :
  match (if b then CDone else CGet) with CPost _ => tl l | _ => l end = l.
Proof. destruct b; reflexivity. Qed.

Definition invE (s : state) : Prop :=
  (cp s <> CDone -> low_status (cstatus s)) /\
  (forall e r, In e (processed s) -> sev e = Some r -> exists cur, cstatus s = Some cur /\ r <= srank cur) /\
  cstatus s <> Some SKIP /\
  (emitted s <> [] -> executed s = true).

Lemma invE_step c s l s' : trans c s l s' -> invP s -> invF s -> invE s -> invE s'.
Proof.
  intros T HP HF (E1 & E2 & E3 & E4).
  step_cases T;
    try (unfold invE; auto; fail); unfold processed in E2; rewrite ?Ecp in E2;
    unfold invE, processed; cbn [cp emitted cstatus executed set_cp tl].
  - (* CTimeout *) repeat split; auto. intros _. apply E1. congruence.
  - (* CRaise: KeyboardInterrupt: INTERRUPTED is the worst status but SKIP *)
    repeat split; try congruence. intros e0 r [<-|H] Hr; [discriminate|]. exists INTERRUPTED. split; [reflexivity|].
    destruct (E2 e0 r H Hr) as (cur & Ec & Hle). pose proof (E1 ltac:(congruence)) as Hl. rewrite Ec in Hl. cbn in *. lia.
  - (* CYield *) repeat split; auto. intros _. apply E1. congruence.
  - (* CCount *) destruct (HP e Ecp) as [t Et]. rewrite Et in E2. cbn [tl] in E2.
    pose proof (E1 ltac:(congruence)) as Hlow.
    rewrite processed_after_count.
    assert (Hall : forall x r, In x (emitted s) -> sev x = Some r -> exists cur, fold_status (cstatus s) e = Some cur /\ r <= srank cur).
    { rewrite Et. intros x r [<-|H] Hr; [apply fold_status_covers, Hr|]. destruct (E2 x r H Hr) as (cur & Ec & Hle). rewrite Ec in *.
      destruct (fold_status_mono cur e Hlow) as (cur' & -> & Hle'). exists cur'. split; [reflexivity|lia]. }
    destruct (is_interrupt e || stop s) eqn:Eint; cbn [orb].
    + repeat split; try congruence; [|exact E4]. intros x r Hx Hr. destruct (Hall x r Hx Hr) as (cur & Ec & Hle). exists INTERRUPTED. split; [reflexivity|].
      destruct x as [| |id []|]; try discriminate; inversion Hr; cbn; lia.
    + split; [|split; [exact Hall | split; [apply fold_status_not_skip, E3 | exact E4]]].
      (* still running: nobody asked to stop, so e is not an interruption event *)
      destruct lim eqn:El; [congruence|]. intros _. apply fold_status_low; [|exact Hlow]. apply orb_false_iff in Eint.
      apply HF; [|exact Ecp]. unfold has_to_stop. rewrite (proj2 Eint).
      destruct (limit s) eqn:Els; [discriminate (counted_limit_mono _ _ _ _ _ E Els) | reflexivity].
  - (* CLiveness *) pose proof (E1 ltac:(congruence)) as Hlow. destruct (forallb is_dead (workers s)); [destruct (drain_fix c)|]; repeat split; auto.
  - (* CDrained *) pose proof (E1 ltac:(congruence)) as Hlow. destruct (queue s); repeat split; auto.
Qed.

Definition invFE (s : state) : Prop := invP s /\ invF s /\ invE s.

Lemma invFE_step c s l s' : trans c s l s' -> invFE s -> invFE s'.
Proof. intros T (HP & HF & HE). split; [|split]; eauto using invP_step, invF_step, invE_step. Qed.

Lemma invFE_init n os : invFE (init n os).
Proof.
  split; [apply invP_init|]. split; [apply invF_init|]. split; [intros _; exact I|]. split; [intros e r []|].
  split; [discriminate|]. intros H. destruct H. reflexivity.
Qed.

Lemma invFE_run c sched n os : invFE (run c sched (init n os)).
Proof. apply (run_inv invFE c (invFE_step c)), invFE_init. Qed.

Lemma status_covers c sched n os :
  let s := run c sched (init n os) in
  cp s = CDone ->
  forall e r, In e (trace s) -> sev e = Some r -> final_status s <> SKIP /\ r <= srank (final_status s).
Proof.
  intros s Hcp e r Hin Hr. destruct (invFE_run c sched n os) as (_ & _ & _ & E2 & E3 & E4). fold s in E2, E3, E4.
  unfold processed in E2. rewrite Hcp in E2. apply in_rev in Hin. destruct (E2 e r Hin Hr) as (cur & Ec & Hle).
  unfold final_status. rewrite Ec, E4 by (intros H; rewrite H in Hin; destruct Hin). split; [congruence | exact Hle].
Qed.
