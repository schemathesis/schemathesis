(* The stateful stream (ModelS_C11): one invariant, `sinv`, gives both stream theorems of C11. *)
From Coq Require Import List Bool Arith Lia.
From Verif Require Import Common.Lists C11.ModelS_C11.
Import ListNotations.

Section StatefulProofs.
  Variable E : Type.
  Notation st := (sstate E).

  Definition sinv (fix_ : bool) (script0 : list E) (s : st) : Prop :=
    script0 = rev (s_emitted s) ++ s_queue s ++ s_script s /\
    (s_alive s = false -> s_script s = []) /\
    (s_cp s = SEmpty -> s_alive s = false) /\
    (fix_ = true -> s_cp s = SDone -> s_alive s = false /\ s_queue s = []).

  Lemma sinv_step fix_ script0 s l : sinv fix_ script0 s -> sinv fix_ script0 (sstep E fix_ s l).
  Proof.
    intros (H1 & H2 & H3 & H4). destruct l; cbn [sstep].
    - destruct (s_cp s) eqn:Ecp.
      + destruct (s_queue s) as [|e q] eqn:Eq; unfold sinv; cbn [s_queue s_emitted s_script s_alive s_cp].
        * repeat split; auto; try (intros; discriminate).
        * cbn [rev]. rewrite <- !app_assoc. cbn [app]. repeat split; auto; try (intros; discriminate).
      + unfold sinv; cbn [s_queue s_emitted s_script s_alive s_cp]. split; auto. split; auto.
        destruct (s_alive s) eqn:Ea; [split; intros; discriminate|].
        destruct fix_; split; auto; intros; discriminate.
      + unfold sinv; cbn [s_queue s_emitted s_script s_alive s_cp]. split; auto. split; auto. specialize (H3 eq_refl).
        destruct (s_queue s) eqn:Eq; split; auto; intros; try discriminate; try (split; auto).
      + unfold sinv. rewrite Ecp. split; auto.
    - destruct (s_alive s) eqn:Ea; [|unfold sinv; rewrite Ea; repeat split; auto; apply H4; auto].
      destruct (s_script s) as [|e k] eqn:Es; unfold sinv; cbn [s_queue s_emitted s_script s_alive s_cp].
      + (* the thread ends; being alive it was neither at SEmpty nor done *)
        split; [exact H1|]. split; [reflexivity|]. split; [intros Hc; discriminate (H3 Hc)|].
        intros Hf Hc. destruct (H4 Hf Hc) as [Hx _]. discriminate Hx.
      + rewrite H1, <- !app_assoc. cbn [app]. split; [reflexivity|]. split; [discriminate|]. split; [intros Hc; discriminate (H3 Hc)|].
        intros Hf Hc. destruct (H4 Hf Hc) as [Hx _]. discriminate Hx.
  Qed.

  Lemma sinv_init fix_ script : sinv fix_ script (sinit E script).
  Proof. unfold sinv, sinit. cbn. repeat split; auto; intros; discriminate. Qed.

  Lemma sinv_run fix_ script sched : sinv fix_ script (srun E fix_ sched (sinit E script)).
  Proof.
    unfold srun. apply fold_left_inv; [apply sinv_step | apply sinv_init].
  Qed.
End StatefulProofs.

(* the schedule that lost an event before the fix (C11_stateful_before_fix_refuted), on the code as it is now *)
Lemma stateful_same_schedule_now :
  let s := srun nat true [LS; LC; LC; LS; LS; LC; LC; LC; LC; LC; LC] (sinit nat [1; 2]) in
  s_cp s = SDone /\ strace nat s = [1; 2].
Proof. vm_compute. split; reflexivity. Qed.
