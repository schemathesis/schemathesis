(* Foreign code (Hypothesis draws, python-jsonschema on sub-schemas, canonicalish) enters the theorems as universally
   quantified arguments. *)
From Coq Require Import List NArith ZArith Bool Lia.
From Verif Require Import Common.Str Common.Json C02.Model_C02 C02.Proofs_C02.
Import ListNotations.

(* a case produced in negative mode is labelled negative and has a component that is labelled
   negative and counts as generated (ValueContainer.is_generated) *)
Theorem C02_case_has_negative_part : forall modes i lbl,
  label_case Neg modes i = Case lbl ->
  case_mode lbl = Neg /\ exists p, In p (parts lbl) /\ p_label p = Some Neg /\ is_generated p = true.
Proof.
  intros modes i lbl H. destruct (label_case_inv _ _ _ _ H) as [bp [_ [-> Hany]]].
  split; [reflexivity|]. apply any_negated_exists, Hany. reflexivity.
Qed.
Print Assumptions C02_case_has_negative_part.

(* ... and that component is present, unless the body was drawn as NOT_SET *)
Theorem C02_case_has_present_negative_part_partial : forall modes i lbl,
  body_value_present i = true -> label_case Neg modes i = Case lbl ->
  exists p, In p (parts lbl) /\ p_label p = Some Neg /\ p_present p = true.
Proof.
  intros modes i lbl Hb H. destruct (C02_case_has_negative_part _ _ _ H) as [_ [p [Hin [Hl Hg]]]].
  exists p. split; [exact Hin|]. split; [exact Hl|]. revert p Hin Hl Hg.
  refine (case_parts_forall _ _ _ _ _ H _ _).
  - (* a location counts as generated only when present *)
    intros k Hl Hg. unfold is_generated in Hg. rewrite Hl, loc_part_kind in Hg. exact Hg.
  - intros bp Hbp Hl _. rewrite (body_part_present _ _ _ _ Hbp Hl). exact Hb.
Qed.
Print Assumptions C02_case_has_present_negative_part_partial.

(* finding F2: an optional body drawn as NOT_SET is the negated value of a case in which nothing is present *)
Theorem C02_case_has_present_negative_part_refuted : exists i,
  draws_fit Neg i = true /\
  exists lbl, label_case Neg [Neg] i = Case lbl /\ case_mode lbl = Neg /\ forall p, In p (parts lbl) -> p_present p = false.
Proof.
  exists i_notset_body. split; [reflexivity|]. eexists. split; [reflexivity|]. split; [reflexivity|].
  cbn. intros p [H|[H|[H|[H|[H|[]]]]]]; subst; reflexivity.
Qed.
Print Assumptions C02_case_has_present_negative_part_refuted.

(* every part labelled negative is present: when every location has parameters and the body is not NOT_SET *)
Theorem C02_negative_parts_present_partial : forall modes i lbl p,
  all_have_params i = true -> draws_fit Neg i = true -> body_value_present i = true ->
  label_case Neg modes i = Case lbl -> In p (parts lbl) -> p_label p = Some Neg -> p_present p = true.
Proof.
  intros modes i lbl p Hall Hfit Hb H. revert p. refine (case_parts_forall _ _ _ _ _ H _ _).
  - intros k _. apply loc_present; [apply all_have_params_loc, Hall | apply draws_fit_loc, Hfit].
  - intros bp Hbp Hl. rewrite (body_part_present _ _ _ _ Hbp Hl). exact Hb.
Qed.
Print Assumptions C02_negative_parts_present_partial.

(* finding F1: locations without parameters are labelled negative although absent *)
Theorem C02_negative_parts_present_refuted_absent_location : exists i,
  draws_fit Neg i = true /\
  exists lbl, label_case Neg [Neg] i = Case lbl /\
    comp lbl CPath = Some Neg /\ present lbl CPath = false /\
    comp lbl CHeaders = Some Neg /\ present lbl CHeaders = false /\
    comp lbl CCookies = Some Neg /\ present lbl CCookies = false.
Proof. exists i_query_only. split; [reflexivity|]. eexists. split; [reflexivity|]. repeat split. Qed.
Print Assumptions C02_negative_parts_present_refuted_absent_location.

(* finding F2 again: the body drawn as NOT_SET is labelled negative and absent *)
Theorem C02_negative_parts_present_refuted_notset_body : exists i,
  draws_fit Neg i = true /\ all_have_params i = false /\
  exists lbl, label_case Neg [Neg] i = Case lbl /\ comp lbl CBody = Some Neg /\ present lbl CBody = false.
Proof. exists i_notset_body. split; [reflexivity|]. split; [reflexivity|]. eexists. split; [reflexivity|]. split; reflexivity. Qed.
Print Assumptions C02_negative_parts_present_refuted_notset_body.

(* a part is labelled positive only if it was drawn from the positive strategy, never labelled negative if it was;
   a present part labelled negative was drawn from negative_schema(...).filter(not valid) *)
Theorem C02_labels_follow_strategy : forall modes i lbl p,
  label_case Neg modes i = Case lbl -> In p (parts lbl) ->
  (p_label p = Some Pos -> p_strategy p = SPos) /\
  (p_label p = Some Neg -> p_strategy p <> SPos) /\
  (draws_fit Neg i = true -> p_label p = Some Neg -> p_present p = true -> p_strategy p = SNeg).
Proof.
  intros modes i lbl p H. revert p. refine (case_parts_forall _ _ _ _ _ H _ _).
  - intros k. split; [|split].
    + intros Hl. apply fallback_strategy_pos, (loc_label_generator _ _ _ _ Hl).
    + intros Hl. apply no_fallback_strategy_not_pos, (loc_label_generator _ _ _ _ Hl).
    + intros Hfit. apply loc_present_neg_strategy, draws_fit_loc, Hfit.
  - intros bp Hbp. destruct (body_part_inv _ _ _ Hbp) as [_ Hlab]. split; [|split].
    + intros Hl. apply (Hlab _ Hl).
    + intros Hl. rewrite (proj2 (Hlab _ Hl)). discriminate.
    + intros _ Hl _. apply (Hlab _ Hl).
Qed.
Print Assumptions C02_labels_follow_strategy.

(* with the contract of the foreign strategies (gen_valid k = the generated part of component k is valid for the
   schema its strategy was built from): present negative parts are invalid, positive parts valid, before serialisation *)
Theorem C02_labelled_parts_valid_as_labelled : forall (gen_valid : ckind -> bool) modes i lbl,
  label_case Neg modes i = Case lbl -> draws_fit Neg i = true ->
  (forall p, In p (parts lbl) -> p_strategy p = SNeg -> gen_valid (p_kind p) = false) ->
  (forall p, In p (parts lbl) -> p_strategy p = SPos -> gen_valid (p_kind p) = true) ->
  forall p, In p (parts lbl) ->
    (p_label p = Some Neg -> p_present p = true -> gen_valid (p_kind p) = false) /\
    (p_label p = Some Pos -> gen_valid (p_kind p) = true).
Proof.
  intros gen_valid modes i lbl H Hfit Hneg Hpos p Hin. destruct (C02_labels_follow_strategy _ _ _ _ H Hin) as [A [_ C]]. split.
  - intros Hl Hp. apply Hneg; auto.
  - intros Hl. apply Hpos; auto.
Qed.
Print Assumptions C02_labelled_parts_valid_as_labelled.

(* without explicit arguments: skipped (modes = [negative]) / rejected (mixed modes) exactly when nothing is
   negatable in the eyes of can_negate_path_parameters / can_negate_headers / can_negate, a case otherwise *)
Theorem C02_skip_iff_nothing_negatable : forall i,
  no_explicit i = true -> draws_fit Neg i = true -> body_serializable i = true ->
  (label_case Neg [Neg] i = Skip <-> negatable_shape i = false) /\
  (forall modes, modes_only_negative modes = false -> (label_case Neg modes i = Reject <-> negatable_shape i = false)) /\
  (forall modes, negatable_shape i = true -> exists lbl, label_case Neg modes i = Case lbl).
Proof.
  intros i Hne Hfit Hs. destruct (label_case_no_explicit i Hne Hfit Hs) as [bp E]. split; [|split].
  - rewrite E. destruct (negatable_shape i); split; intros H; (reflexivity || discriminate H).
  - intros modes Hm. rewrite E, Hm. destruct (negatable_shape i); split; intros H; (reflexivity || discriminate H).
  - intros modes Hn. rewrite E, Hn. eexists; reflexivity.
Qed.
Print Assumptions C02_skip_iff_nothing_negatable.

Theorem C02_skip_iff_hypotheses_satisfiable : exists i1 i2,
  (no_explicit i1 = true /\ draws_fit Neg i1 = true /\ body_serializable i1 = true /\ negatable_shape i1 = true) /\
  (no_explicit i2 = true /\ draws_fit Neg i2 = true /\ body_serializable i2 = true /\ negatable_shape i2 = false /\
   label_case Neg [Neg] i2 = Skip /\ label_case Neg [Pos; Neg] i2 = Reject).
Proof. exists i_query_only, i_string_header. repeat split. Qed.
Print Assumptions C02_skip_iff_hypotheses_satisfiable.

(* finding F6: with an explicit argument a negatable operation can be skipped *)
Theorem C02_negatable_gets_cases_refuted_explicit : exists i,
  draws_fit Neg i = true /\ body_serializable i = true /\ negatable_shape i = true /\
  strategy_of Neg LHeader (i_header i) = SNeg /\ label_case Neg [Neg] i = Skip.
Proof. exists i_explicit_empty. repeat split. Qed.
Print Assumptions C02_negatable_gets_cases_refuted_explicit.

Theorem C02_negate_constraints_sound_partial : forall sub_valid c s ch m v,
  negate_constraints c false s ch = Some m -> negate_region s m = true ->
  valid sub_valid m v = true -> valid_kws sub_valid s v = false.
Proof.
  intros sub_valid c s ch m v H. destruct (negate_constraints_some _ _ _ _ H) as [Hne Hsub].
  apply negation_sound; [exact Hne|]. intros k Hk. destruct (Hsub k Hk) as [Hin Hc].
  split; [exact Hin | apply (candidate_not_props c), Hc].
Qed.
Print Assumptions C02_negate_constraints_sound_partial.

(* additionalProperties moved under not loses its properties: the mutated schema accepts valid values *)
Theorem C02_negate_constraints_sound_refuted : exists c s ch m v,
  negate_constraints c false s ch = Some m /\ valid sv_true m v = true /\ valid_kws sv_true s v = true.
Proof.
  destruct negate_constraints_sound_refuted as [m [H [_ Hv]]]. exists query_ctx, s_closed. eexists _, m, _. split; [exact H | exact Hv].
Qed.
Print Assumptions C02_negate_constraints_sound_refuted.

Theorem C02_change_type_sound_partial : forall sub_valid c m ch m' v,
  change_type c m ch = Some m' -> change_type_region m m' = true ->
  valid sub_valid m' v = true -> valid sub_valid m v = false.
Proof.
  intros sub_valid c m ch m' v H Hreg. destruct (change_type_some _ _ _ _ H) as [Hh [t [Hc ->]]].
  destruct (type_candidates_spec _ _ _ Hc) as [Hnot Hnum]. apply retype_sound; [exact Hh|exact Hnot|exact Hnum|].
  (* number narrowed to integer is what the region excludes *)
  intros Hn ->. unfold change_type_region in Hreg. rewrite (new_type_of_set_type TInt _ _ Hh), Hn in Hreg. discriminate.
Qed.
Print Assumptions C02_change_type_sound_partial.

(* number can be changed to integer *)
Theorem C02_change_type_sound_refuted : exists c m ch m' v,
  change_type c m ch = Some m' /\ valid sv_true m' v = true /\ valid sv_true m v = true.
Proof.
  destruct change_type_sound_refuted as [m' [H [_ Hv]]]. exists body_ctx. eexists _, _, m', _. split; [exact H | exact Hv].
Qed.
Print Assumptions C02_change_type_sound_refuted.

Theorem C02_remove_required_sound_partial : forall sub_valid m ch m' v,
  remove_required_property m ch = Some m' -> closed_object m = true ->
  valid sub_valid m' v = true -> valid sub_valid m v = false.
Proof.
  intros sub_valid m ch m' v H. destruct (remove_required_some _ _ _ H) as [names [name [Hreq [Hname ->]]]].
  apply (drop_required_sound _ _ names name); assumption.
Qed.
Print Assumptions C02_remove_required_sound_partial.

(* in an open object the removed property comes back as an additional one *)
Theorem C02_remove_required_sound_refuted : exists m ch m' v,
  remove_required_property m ch = Some m' /\ valid sv_true m' v = true /\ valid sv_true m v = true.
Proof.
  destruct remove_required_sound_refuted as [m' [H [_ Hv]]]. eexists _, _, m', _. split; [exact H | exact Hv].
Qed.
Print Assumptions C02_remove_required_sound_refuted.

(* on {type: integer, minimum: 3, maximum: 9}: candidate 1 of [minimum; maximum] is maximum, 10 violates it; of the type
   candidates [array; boolean; null; object; string] index 5 mod 5 picks array, the enabled null is second of [array; null];
   a closed object with required [a] loses a *)
Theorem C02_soundness_hypotheses_satisfiable :
  (exists m, negate_constraints body_ctx false s_bounded {| n_idx := 1; n_enabled := [] |} = Some m /\
     negate_region s_bounded m = true /\ valid sv_true m (JInt 10) = true /\ valid_kws sv_true s_bounded (JInt 10) = false) /\
  (exists m', change_type body_ctx (plain s_bounded) {| t_idx1 := 5; t_enabled := [TNull]; t_idx2 := 1 |} = Some m' /\
     change_type_region (plain s_bounded) m' = true /\ valid sv_true m' JNull = true) /\
  (exists m', remove_required_property (plain (KAddProps false :: s_open)) {| r_idx1 := 0; r_enabled := []; r_idx2 := 0 |} = Some m' /\
     closed_object (plain (KAddProps false :: s_open)) = true /\ valid sv_true m' (JObj []) = true).
Proof. split; [|split]; eexists; repeat split. Qed.
Print Assumptions C02_soundness_hypotheses_satisfiable.

(* finding F4: a string path parameter is claimed negatable, the negative strategy is chosen, no mutation applies *)
Theorem C02_path_string_claimed_negatable_refuted :
  can_negate_path [(nm_id, PStrOnly)] = true /\
  (forall d, strategy_of Neg LPath {| l_params := [(nm_id, PStrOnly)]; l_explicit := ENotSet; l_draw := d |} = SNeg) /\
  (forall ch, negate_constraints path_ctx false s_path_string ch = None) /\
  (forall ch, change_type path_ctx (plain s_path_string) ch = None) /\
  (forall ch, remove_required_property (plain s_path_string) ch = None).
Proof. repeat split. Qed.
Print Assumptions C02_path_string_claimed_negatable_refuted.

(* finding F5: a required string header is a skip although omitting it is a sound negation *)
Theorem C02_required_string_header_skipped_refuted :
  fallback LHeader [(nm_xa, PStrOnly)] = true /\
  no_explicit i_string_header = true /\ draws_fit Neg i_string_header = true /\
  label_case Neg [Neg] i_string_header = Skip /\
  exists m', remove_required_property (plain s_required_header) {| r_idx1 := 0; r_enabled := []; r_idx2 := 0 |} = Some m' /\
    valid sv_true m' (JObj []) = true /\
    forall sv v, valid sv m' v = true -> valid sv (plain s_required_header) v = false.
Proof.
  repeat split. eexists. split; [reflexivity|]. split; [reflexivity|].
  intros sv v. apply C02_remove_required_sound_partial with (ch := {| r_idx1 := 0; r_enabled := []; r_idx2 := 0 |}); reflexivity.
Qed.
Print Assumptions C02_required_string_header_skipped_refuted.

(* a non-string value of the wrong type stays invalid as text; for a string the region is the conclusion itself: its text is
   outside the lexical space of the declared type *)
Theorem C02_invalid_survives_coercion_partial : forall t v w,
  coercion_safe t v = true -> valid_prim t v = false -> coerce v = Some w -> wire_valid t w = false.
Proof.
  intros t v w. destruct v; cbn [coerce coercion_safe]; intros Hs Hv Hw; try discriminate; injection Hw as <-.
  - (* null *) destruct t; try discriminate; reflexivity.
  - (* a boolean *) destruct t, b; try discriminate; reflexivity.
  - (* an integer: its text is none of the three words *)
    destruct (show_Z_not_word z) as [A [B C]]. destruct t; try discriminate; cbn [wire_valid]; rewrite ?A, ?B, ?C; reflexivity.
  - (* a string is sent as it is: the region asks for what is to be shown *)
    apply negb_true_iff in Hs. exact Hs.
Qed.
Print Assumptions C02_invalid_survives_coercion_partial.

(* finding F3: the string "5" for an integer parameter is sent as 5 *)
Theorem C02_invalid_survives_coercion_refuted : exists t v w,
  valid_prim t v = false /\ coerce v = Some w /\ wire_valid t w = true.
Proof. exists PInt, (JStr [53%N]), [53%N]. repeat split. Qed.
Print Assumptions C02_invalid_survives_coercion_refuted.

Theorem C02_coercion_hypotheses_satisfiable :
  coercion_safe PInt (JBool true) = true /\ valid_prim PInt (JBool true) = false /\ coerce (JBool true) = Some s_true /\
  coercion_safe PBool (JInt (-12)) = true /\ coerce (JInt (-12)) = Some [45; 49; 50]%N /\ wire_valid PInt [45; 49; 50]%N = true.
Proof. repeat split. Qed.
Print Assumptions C02_coercion_hypotheses_satisfiable.

(* after popping the explicit names from the location schema, neither required nor properties mention any of them,
   and every other name is required / declared exactly as before *)
Theorem C02_exclusion_clears_required : forall names s ns,
  required_of s = Some ns -> unique_strs ns = true ->
  exists ns', required_of (exclude_names names s) = Some ns' /\ unique_strs ns' = true /\
    (forall n, smem n names = true -> smem n ns' = false /\ assoc_mem n (props_of (exclude_names names s)) = false) /\
    (forall n, smem n names = false ->
       smem n ns' = smem n ns /\ assoc_mem n (props_of (exclude_names names s)) = assoc_mem n (props_of s)).
Proof.
  intros names s ns Hreq Hu. destruct (required_of_exclude_names names s ns Hreq Hu) as [ns' [A [B C]]].
  exists ns'. split; [exact A|]. split; [exact B|].
  split; intros n Hn; rewrite C, props_of_exclude_names, Hn; split; reflexivity.
Qed.
Print Assumptions C02_exclusion_clears_required.

Theorem C02_exclusion_hypotheses_satisfiable :
  required_of s_filter_limit = Some [nm_filter] /\ unique_strs [nm_filter] = true /\
  exclude_names [nm_filter] s_filter_limit =
    [KProps [(nm_limit, JObj [(n_type, JStr n_integer)])]; KAddProps false; KType [TObj]; KRequired []] /\
  valid sub_valid_simple (plain (exclude_names [nm_filter] s_filter_limit)) (JObj [(nm_limit, JInt 0%Z)]) = true.
Proof. repeat split. Qed.
Print Assumptions C02_exclusion_hypotheses_satisfiable.

(* the class the label algebra uses for a header / cookie is PStrOnly exactly when the converted property schema
   (keyword filter, parameter-level examples, nullable, type file, default type string) is the dict {type: string} *)
Theorem C02_header_class_bare_iff : forall v2 decl exs,
  header_class v2 decl exs = PStrOnly <-> header_prop_schema v2 decl exs = bare_string.
Proof. exact header_class_bare_iff. Qed.
Print Assumptions C02_header_class_bare_iff.

(* whatever a text value can violate (a declared non-string type, enum, pattern, positive minLength, maxLength, format)
   is claimed negatable by can_negate_headers: for every declared schema, both dialects, any parameter-level examples *)
Theorem C02_violable_header_claimed_negatable : forall v2 decl exs,
  header_value_violable decl = true -> header_class v2 decl exs = POther.
Proof. exact violable_header_claimed_negatable. Qed.
Print Assumptions C02_violable_header_claimed_negatable.

(* an operation one of whose headers (cookies) can be violated by a
   text value gets negative cases for every value of generation.modes - never Skip, never Reject - the location is
   drawn from the negative strategy, labelled negative and present; whatever else the operation contains *)
Theorem C02_violable_header_gets_negative_cases : forall k v2 hs i,
  is_header_location k = true ->
  l_params (i_loc k i) = header_params v2 hs ->
  existsb value_violable_h hs = true ->
  no_explicit i = true -> draws_fit Neg i = true -> body_serializable i = true ->
  strategy_of Neg k (i_loc k i) = SNeg /\
  forall modes, exists lbl, label_case Neg modes i = Case lbl /\
    comp lbl (ckind_of k) = Some Neg /\ present lbl (ckind_of k) = true.
Proof.
  intros k v2 hs i Hk Hps Hv Hne Hfit Hs.
  (* the location is negatable in the eyes of the code: it has parameters and can_negate_headers holds *)
  assert (Hloc : loc_negatable k (i_loc k i) = true).
  { rewrite (loc_negatable_header_params k v2 hs _ Hk Hps). apply existsb_exists in Hv. destruct Hv as [h [Hin Hv]].
    apply existsb_exists. exists h. split; [exact Hin|]. rewrite (violable_header_claimed_negatable v2 _ _ Hv). reflexivity. }
  pose proof (loc_negatable_part k _ (no_explicit_loc k i Hne) (draws_fit_loc Neg k i Hfit) Hloc) as Hpart. split.
  - change (p_strategy (loc_part Neg k (i_loc k i)) = SNeg). rewrite Hpart. reflexivity.
  - destruct (label_case_no_explicit i Hne Hfit Hs) as [bp E]. intros modes. rewrite E, (negatable_shape_loc k i Hloc).
    eexists. split; [reflexivity|]. destruct (comp_present_loc Neg i bp k) as [-> ->]. rewrite Hpart. split; reflexivity.
Qed.
Print Assumptions C02_violable_header_gets_negative_cases.

Theorem C02_violable_header_hypotheses_satisfiable :
  (l_params (i_loc LHeader i_mode) = header_params false [hp nm_xmode d_enum true] /\
   existsb value_violable_h [hp nm_xmode d_enum true] = true /\
   no_explicit i_mode = true /\ draws_fit Neg i_mode = true /\ body_serializable i_mode = true) /\
  (l_params (i_loc LCookie i_theme) = header_params false [hp nm_theme d_pattern false] /\
   existsb value_violable_h [hp nm_theme d_pattern false] = true /\
   no_explicit i_theme = true /\ draws_fit Neg i_theme = true /\ body_serializable i_theme = true).
Proof. repeat split. Qed.
Print Assumptions C02_violable_header_hypotheses_satisfiable.

(* inside the region plain_header the code own predicate and the independent reading coincide *)
Theorem C02_plain_header_class_iff : forall v2 decl,
  plain_header v2 decl = true ->
  (header_class v2 decl [] = PStrOnly <-> header_value_violable decl = false).
Proof.
  intros v2 decl Hp. split.
  - intros Hc. destruct (header_value_violable decl) eqn:E; [|reflexivity].
    rewrite (violable_header_claimed_negatable v2 decl [] E) in Hc. discriminate.
  - apply unviolable_plain_header_bare. exact Hp.
Qed.
Print Assumptions C02_plain_header_class_iff.

(* skip iff nothing can be violated, stated with the independent predicate header_violable (omission of a required
   parameter or a violable value), for operations made of headers and cookies only; region plain_hparam: plain declared
   schema, no parameter-level example, optional.  Outside the region: F5 (required) and F7 (kept annotation) *)
Theorem C02_skip_iff_no_violable_header_partial : forall v2 hs cs i,
  l_params (i_header i) = header_params v2 hs -> l_params (i_cookie i) = header_params v2 cs ->
  only_headers i = true -> forallb (plain_hparam v2) (hs ++ cs) = true ->
  no_explicit i = true -> draws_fit Neg i = true -> body_serializable i = true ->
  (label_case Neg [Neg] i = Skip <-> existsb header_violable (hs ++ cs) = false) /\
  (forall modes, modes_only_negative modes = false ->
     (label_case Neg modes i = Reject <-> existsb header_violable (hs ++ cs) = false)) /\
  (forall modes, existsb header_violable (hs ++ cs) = true -> exists lbl, label_case Neg modes i = Case lbl).
Proof.
  intros v2 hs cs i Hh Hc Ho Hr Hne Hfit Hs.
  rewrite forallb_app in Hr. apply andb_true_iff in Hr. destruct Hr as [Hrh Hrc].
  assert (E : negatable_shape i = existsb header_violable (hs ++ cs)).
  { unfold negatable_shape. rewrite existsb_app.
    rewrite (loc_negatable_headers LHeader v2 hs _ eq_refl Hh Hrh), (loc_negatable_headers LCookie v2 cs _ eq_refl Hc Hrc).
    unfold only_headers in Ho. apply andb_true_iff in Ho. destruct Ho as [Ho Hb]. apply andb_true_iff in Ho.
    destruct Ho as [Hp Hq]. apply negb_true_iff in Hp, Hq. unfold loc_negatable. rewrite Hp, Hq.
    destruct (b_alts (i_body i)); [|discriminate]. cbn [andb orb existsb]. rewrite ?orb_false_r. reflexivity. }
  rewrite <- E. apply C02_skip_iff_nothing_negatable; assumption.
Qed.
Print Assumptions C02_skip_iff_no_violable_header_partial.

Theorem C02_skip_iff_headers_hypotheses_satisfiable :
  (only_headers i_described = true /\ forallb (plain_hparam false) ([hp nm_xa d_described false] ++ [hp nm_theme d_bare false]) = true /\
   no_explicit i_described = true /\ draws_fit Neg i_described = true /\ body_serializable i_described = true /\
   existsb header_violable ([hp nm_xa d_described false] ++ [hp nm_theme d_bare false]) = false /\
   label_case Neg [Neg] i_described = Skip /\ label_case Neg [Pos; Neg] i_described = Reject) /\
  (only_headers i_theme = true /\ forallb (plain_hparam false) ([] ++ [hp nm_theme d_pattern false]) = true /\
   existsb header_violable ([] ++ [hp nm_theme d_pattern false]) = true /\
   exists lbl, label_case Neg [Neg] i_theme = Case lbl /\ comp lbl CCookies = Some Neg).
Proof. repeat split. eexists. split; reflexivity. Qed.
Print Assumptions C02_skip_iff_headers_hypotheses_satisfiable.

(* finding F7: a string header carrying only an annotation that the converter keeps (example) cannot be violated, yet it
   is claimed negatable: the negative strategy is chosen, the operation is never a skip, and at the level of the location
   schema neither negate_constraints nor remove_required_property applies (the run ends in Unsatisfiable) *)
Theorem C02_skip_iff_no_violable_header_refuted_annotation :
  header_violable (hp nm_xa d_example false) = false /\
  header_class false d_example [] = POther /\ header_class true d_example [] = POther /\
  header_class false d_bare [JStr [120%N]] = POther /\
  only_headers (i_example DNone) = true /\ no_explicit (i_example DNone) = true /\
  (forall d, strategy_of Neg LHeader (i_header (i_example d)) = SNeg) /\
  (forall d, draws_fit Neg (i_example d) = true ->
     label_case Neg [Neg] (i_example d) <> Skip /\ exists lbl, label_case Neg [Neg] (i_example d) = Case lbl) /\
  (forall ch, negate_constraints header_ctx false s_example_location ch = None) /\
  (forall ch, remove_required_property (plain s_example_location) ch = None).
Proof.
  split; [reflexivity|]. split; [reflexivity|]. split; [reflexivity|]. split; [reflexivity|]. split; [reflexivity|].
  split; [reflexivity|]. split; [intros d; reflexivity|]. split; [|split; intros ch; reflexivity].
  (* a draw that fits is a dict, whatever it holds: the header part is generated and labelled negative *)
  intros [|d] Hfit; [discriminate Hfit|]. split; [discriminate|]. eexists. reflexivity.
Qed.
Print Assumptions C02_skip_iff_no_violable_header_refuted_annotation.

(* for parameters without a serializer (see finding F9 below) the guard of the code is sound for every query dict: a value it lets through is sent with at least one key=value pair,
   after jsonify_python_specific_types, the empty-dict rewriting of the transport and the encoding of requests *)
Theorem C02_query_guard_sound : forall q, is_non_empty_query q = true -> wire_count q <> 0%nat.
Proof.
  intros q H. unfold is_non_empty_query, urlencode_nonempty in H. apply negb_true_iff, Nat.eqb_neq in H.
  rewrite wire_count_guard. lia.
Qed.
Print Assumptions C02_query_guard_sound.

(* it rejects exactly the values whose wire form is empty, where no top-level value is None or the empty dict ... *)
Theorem C02_query_guard_exact_partial : forall q, no_none_or_empty_dict q = true ->
  is_non_empty_query q = negb (Nat.eqb (wire_count q) 0).
Proof.
  intros q H. unfold is_non_empty_query, urlencode_nonempty. rewrite wire_count_guard, (no_none_or_empty_dict_hidden q H), Nat.add_0_r. reflexivity.
Qed.
Print Assumptions C02_query_guard_exact_partial.

(* ... and over-rejects those two (sent as a=null and a=, the guard reads the raw value): lost cases, not a wrong label *)
Theorem C02_query_guard_exact_refuted :
  is_non_empty_query q_top_none = false /\ wire_count q_top_none = 1%nat /\ query_wire q_top_none = Some [(k_a, s_null)] /\
  is_non_empty_query [(k_a, JObj [])] = false /\ query_wire [(k_a, JObj [])] = Some [(k_a, [])].
Proof. repeat split. Qed.
Print Assumptions C02_query_guard_exact_refuted.

(* the property for the query location ON THE WIRE: a value that passes the filter of negative_schema (guard of the code,
   invalid for the location schema) and whose offending entries survive is sent with a non-empty query string that the
   declared schema, read by a server from the text, rejects *)
Theorem C02_negative_query_on_wire_partial : forall d q ps,
  passes_query_filter is_non_empty_query d q = true -> query_survives d q = true -> query_wire q = Some ps ->
  ps <> [] /\ wire_valid_query d ps = false.
Proof.
  unfold passes_query_filter. intros d q ps Hp Hs Hw. apply andb_true_iff in Hp. destruct Hp as [Hg Hv]. apply negb_true_iff in Hv.
  split.
  - intros ->. apply C02_query_guard_sound in Hg. apply query_wire_len in Hw. cbn [length] in Hw. congruence.
  - eapply invalid_query_invalid_on_wire; eassumption.
Qed.
Print Assumptions C02_negative_query_on_wire_partial.

(* the number of pairs is the one the guard theorem speaks of *)
Theorem C02_query_wire_length : forall q ps, query_wire q = Some ps -> length ps = wire_count q.
Proof. exact query_wire_len. Qed.
Print Assumptions C02_query_wire_length.

(* scalar values inside the coercion region of Part C are inside the region *)
Theorem C02_scalar_query_survives : forall d q, scalar_query_safe d q = true -> query_survives d q = true.
Proof.
  unfold scalar_query_safe, query_survives. intros d q H. apply forallb_forall. intros [k v] Hin.
  rewrite forallb_forall in H. specialize (H _ Hin). cbn [fst snd] in H.
  apply andb_true_iff in H. destruct H as [Hc Hd]. apply negb_true_iff in Hc. destruct (scalar_entry_wire v Hc) as [Hn Hw].
  unfold entry_survives. cbn [fst snd]. rewrite Hn, Hw. destruct (assoc_get k d) as [p|]; [|reflexivity].
  destruct (valid_prim (q_type p) v) eqn:Ev; [reflexivity|]. cbn [orb] in Hd |- *.
  destruct (coerce v) as [w|] eqn:Ew.
  - rewrite (C02_invalid_survives_coercion_partial _ _ _ Hd Ev Ew). reflexivity.
  - destruct v; try discriminate.
Qed.
Print Assumptions C02_scalar_query_survives.

(* finding F8: an undeclared name with an empty list (or a list of None) sends nothing; limit=5 alone is a valid query *)
Theorem C02_negative_query_on_wire_refuted_dropped_entry :
  passes_query_filter is_non_empty_query d_limit q_vanishing = true /\ entry_dropped q_vanishing = true /\
  query_wire q_vanishing = Some [(k_limit, [53%N])] /\ wire_valid_query d_limit [(k_limit, [53%N])] = true.
Proof. repeat split. Qed.
Print Assumptions C02_negative_query_on_wire_refuted_dropped_entry.

(* finding F3 with containers: limit = [None, 1] is sent as limit=1 *)
Theorem C02_negative_query_on_wire_refuted_none_item :
  passes_query_filter is_non_empty_query d_limit q_none_and_one = true /\ entry_dropped q_none_and_one = false /\
  query_wire q_none_and_one = Some [(k_limit, [49%N])] /\ wire_valid_query d_limit [(k_limit, [49%N])] = true.
Proof. repeat split. Qed.
Print Assumptions C02_negative_query_on_wire_refuted_none_item.

(* sentinel, NOT the code: a guard that counts every None as the text null lets limit = [None] through the filter;
   nothing is sent, and nothing is a valid query when limit is optional.  The guard of the code rejects it. *)
Theorem C02_query_guard_none_as_null_sentinel_refuted :
  passes_query_filter is_non_empty_query_none_as_null d_limit q_list_of_none = true /\
  query_wire q_list_of_none = Some [] /\ wire_valid_query d_limit [] = true /\
  passes_query_filter is_non_empty_query d_limit q_list_of_none = false.
Proof. repeat split. Qed.
Print Assumptions C02_query_guard_none_as_null_sentinel_refuted.

(* limit = [None, 1, 2] is sent as limit=1 and limit=2, zz = [[None]] as zz=None (the str() of the inner list's item), a = true as a=true *)
Theorem C02_query_on_wire_hypotheses_satisfiable :
  passes_query_filter is_non_empty_query d_two q_survivor = true /\ query_survives d_two q_survivor = true /\
  query_wire q_survivor = Some [(k_limit, [49%N]); (k_limit, [50%N]); (k_zz, [78; 111; 110; 101]%N); (k_a, s_true)] /\
  no_none_or_empty_dict q_survivor = true /\
  scalar_query_safe d_two [(k_limit, JBool false); (k_zz, JNull)] = true /\
  passes_query_filter is_non_empty_query d_two [(k_limit, JBool false); (k_zz, JNull)] = true.
Proof. repeat split. Qed.
Print Assumptions C02_query_on_wire_hypotheses_satisfiable.

(* finding F9: C02_query_guard_sound is about parameters without a serializer.  For a declared object parameter with
   explode true the serializer extracted_object runs after the guard: the guard sees f=x, the members are sent instead,
   and x = [None] sends nothing: no query string at all *)
Theorem C02_query_guard_sound_refuted_exploded_object :
  is_non_empty_query q_exploded = true /\ extracted_object k_f q_exploded = [(k_x, JArr [JNull])] /\
  wire_count (extracted_object k_f q_exploded) = 0%nat /\ query_wire (extracted_object k_f q_exploded) = Some [] /\
  wire_count q_exploded = 1%nat.
Proof. repeat split. Qed.
Print Assumptions C02_query_guard_sound_refuted_exploded_object.

(* inside the numeric fragment (type, integer minimum / maximum, BOOLEAN exclusiveMinimum / exclusiveMaximum in any
   combination and key order, annotations) the keyword dispatch of the validator of the code is the validity of the
   schema as declared (OpenAPI 2.0 / 3.0 = Draft 4: the exclusive flags modify their bound, false = absent, a flag
   without its bound says nothing) *)
Theorem C02_guard_validator_is_draft4 : forall schema v,
  num_fragment schema = true -> guard_is_valid Draft4 schema v = declared_valid schema v.
Proof. exact guard_validator_is_draft4. Qed.
Print Assumptions C02_guard_validator_is_draft4.

(* hence a value that passes the guard (is emitted, labelled negative) is invalid for the declared schema *)
Theorem C02_guard_kept_value_invalid : forall schema v,
  num_fragment schema = true -> guard_keeps Draft4 schema v = true -> declared_valid schema v = false.
Proof.
  intros schema v F K. unfold guard_keeps in K. apply negb_true_iff in K.
  rewrite <- (guard_validator_is_draft4 schema v F). exact K.
Qed.
Print Assumptions C02_guard_kept_value_invalid.

(* the same for a parameter location (properties / required / additionalProperties false) whose members are in the fragment *)
Theorem C02_location_guard_kept_value_invalid : forall props req q,
  forallb (fun p => num_fragment (snd p)) props = true ->
  location_guard_keeps Draft4 props req q = true -> location_is_valid declared_valid props req q = false.
Proof.
  intros props req q F K. unfold location_guard_keeps in K. apply negb_true_iff in K.
  rewrite <- (location_guard_is_draft4 props req q F). exact K.
Qed.
Print Assumptions C02_location_guard_kept_value_invalid.

Theorem C02_guard_hypotheses_satisfiable :
  num_fragment s_ratio = true /\ guard_keeps Draft4 s_ratio (JInt 0) = true /\ guard_keeps Draft4 s_ratio (JInt 11) = true /\
  guard_keeps Draft4 s_ratio (JInt 10) = false /\ guard_keeps Draft4 s_ratio (JStr []) = true /\
  num_fragment s_limit = true /\ guard_keeps Draft4 s_limit (JInt 51) = true /\ guard_keeps Draft4 s_limit (JInt 0) = false /\
  forallb (fun p => num_fragment (snd p)) [(k_limit, s_limit)] = true /\
  location_guard_keeps Draft4 [(k_limit, s_limit)] [k_limit] [(k_limit, JInt (-1))] = true /\
  location_guard_keeps Draft4 [(k_limit, s_limit)] [k_limit] [] = true.
Proof. vm_compute. repeat split. Qed.
Print Assumptions C02_guard_hypotheses_satisfiable.

(* sentinel, NOT the code: a validator of a later draft (numeric exclusive keywords, True / False compared as 1 / 0)
   keeps values that are valid for the declared schema: 0 for maximum 100 + exclusiveMaximum false, 1 for
   minimum 0 + exclusiveMinimum true, limit = 26 for the query location; the Draft 4 guard of the code rejects all three *)
Theorem C02_guard_draft7_sentinel_refuted :
  num_fragment s_max_false = true /\ guard_keeps Draft7 s_max_false (JInt 0) = true /\
  declared_valid s_max_false (JInt 0) = true /\ guard_keeps Draft4 s_max_false (JInt 0) = false /\
  num_fragment s_ratio = true /\ guard_keeps Draft7 s_ratio (JInt 1) = true /\
  declared_valid s_ratio (JInt 1) = true /\ guard_keeps Draft4 s_ratio (JInt 1) = false /\
  location_guard_keeps Draft7 [(k_limit, s_limit)] [k_limit] [(k_limit, JInt 26)] = true /\
  location_is_valid declared_valid [(k_limit, s_limit)] [k_limit] [(k_limit, JInt 26)] = true /\
  location_guard_keeps Draft4 [(k_limit, s_limit)] [k_limit] [(k_limit, JInt 26)] = false.
Proof. vm_compute. repeat split. Qed.
Print Assumptions C02_guard_draft7_sentinel_refuted.
