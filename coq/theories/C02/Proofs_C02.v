(* Lemmas about Model_C02.  First general facts about lists, association lists and the list operations of the model
   (smem, remove_first, unique_strs), which several parts use; then the parts in the order of the model, the exclusion of
   explicit names with the mutations.  A part first says what its definitions compute, then proves the general statement
   behind its theorems of Properties_C02, and ends with the witnesses of its refuted and satisfiable statements. *)
From Coq Require Import List NArith ZArith Bool Lia.
From Verif Require Import Common.Str Common.Json Common.Lists C02.Model_C02.
Import ListNotations.

Lemma forallb_false_exists {A} (f : A -> bool) l : forallb f l = false -> exists x, In x l /\ f x = false.
Proof.
  induction l as [|a r IH]; cbn [forallb]; [discriminate|]. intros H. apply andb_false_iff in H. destruct H as [H|H].
  - exists a. split; [left; reflexivity | exact H].
  - destruct (IH H) as [x [Hin Hx]]. exists x. split; [right; exact Hin | exact Hx].
Qed.

Lemma forallb_false_intro {A} (f : A -> bool) l x : In x l -> f x = false -> forallb f l = false.
Proof.
  intros Hin Hx. destruct (forallb f l) eqn:E; [|reflexivity].
  rewrite forallb_forall in E. rewrite (E x Hin) in Hx. discriminate.
Qed.

Lemma existsb_map {A B} (f : B -> bool) (g : A -> B) l : existsb f (map g l) = existsb (fun x => f (g x)) l.
Proof. induction l as [|a r IH]; [reflexivity|]. cbn [map existsb]. rewrite IH. reflexivity. Qed.

Lemma existsb_filter {A} (f : A -> bool) l : existsb f l = negb (is_nil (filter f l)).
Proof. induction l as [|a r IH]; [reflexivity|]. cbn [existsb filter]. destruct (f a); [reflexivity|exact IH]. Qed.

Lemma str_eqb_false_sym a b : str_eqb a b = false -> str_eqb b a = false.
Proof.
  intros H. rewrite str_eqb_sym. exact H.
Qed.

Lemma smem_in x l : In x l -> smem x l = true.
Proof. intros H. apply existsb_exists. exists x. split; [exact H | apply str_eqb_refl]. Qed.

Lemma unique_assoc_get {A} (e : list (str * A)) : unique_strs (map fst e) = true ->
  forall kv, In kv e -> assoc_get (fst kv) e = Some (snd kv).
Proof.
  induction e as [|[k v] r IH]; cbn [map fst unique_strs]; [intros _ kv []|].
  intros H kv Hin. apply andb_true_iff in H. destruct H as [Hk Hr]. cbn [assoc_get].
  destruct Hin as [<-|Hin]; cbn [fst snd].
  - rewrite str_eqb_refl. reflexivity.
  - destruct (str_eqb (fst kv) k) eqn:E; [|apply IH; assumption].
    apply str_eqb_spec in E. subst k. apply negb_true_iff in Hk.
    change (smem (fst kv) (map fst r) = false) in Hk. rewrite (smem_in _ _ (in_map fst _ _ Hin)) in Hk. discriminate.
Qed.

Lemma assoc_mem_in {A} name (kvs : list (str * A)) : assoc_mem name kvs = true -> exists v, In (name, v) kvs.
Proof.
  unfold assoc_mem. destruct (assoc_get name kvs) as [v|] eqn:E; [|discriminate]. intros _. exists v. apply assoc_get_in, E.
Qed.

Lemma assoc_mem_false_not_in {A} k (q : list (str * A)) : assoc_mem k q = false -> ~ In k (map fst q).
Proof.
  unfold assoc_mem. induction q as [|[k0 v] q IH]; cbn [assoc_get map fst]; intros H Hin; [destruct Hin|].
  destruct (str_eqb k k0) eqn:E; [discriminate|]. destruct Hin as [Hin|Hin].
  - subst k0. rewrite str_eqb_refl in E. discriminate.
  - exact (IH H Hin).
Qed.

Lemma assoc_mem_set_same {A} k (v : A) l : assoc_mem k (assoc_set k v l) = true.
Proof. unfold assoc_mem. rewrite assoc_get_set_same. reflexivity. Qed.

Lemma assoc_mem_remove {A} n name (ps : list (str * A)) :
  assoc_mem n (assoc_remove name ps) = negb (str_eqb n name) && assoc_mem n ps.
Proof.
  unfold assoc_mem. induction ps as [|[k v] r IH]; cbn [assoc_remove assoc_get]; [symmetry; apply andb_false_r|].
  destruct (str_eqb name k) eqn:E.
  - apply str_eqb_spec in E. subst k. rewrite IH. destruct (str_eqb n name); reflexivity.
  - cbn [assoc_get]. destruct (str_eqb n k) eqn:E2; [|exact IH].
    apply str_eqb_spec in E2. subst k. rewrite str_eqb_sym, E. reflexivity.
Qed.

Lemma assoc_mem_remove_le {A} n name (ps : list (str * A)) : assoc_mem n ps = false -> assoc_mem n (assoc_remove name ps) = false.
Proof. intros H. rewrite assoc_mem_remove, H. apply andb_false_r. Qed.

Lemma smem_remove_first n name ns : unique_strs ns = true ->
  smem n (remove_first name ns) = negb (str_eqb n name) && smem n ns.
Proof.
  unfold smem. induction ns as [|x r IH]; [intros _; symmetry; apply andb_false_r|]. cbn [unique_strs remove_first]. intros H.
  apply andb_true_iff in H. destruct H as [Hx Hr]. apply negb_true_iff in Hx. destruct (str_eqb name x) eqn:E.
  - apply str_eqb_spec in E. subst x. cbn [existsb]. destruct (str_eqb n name) eqn:E2; [|reflexivity].
    apply str_eqb_spec in E2. subst n. exact Hx.
  - cbn [existsb]. rewrite (IH Hr). destruct (str_eqb n x) eqn:E2; [|reflexivity].
    apply str_eqb_spec in E2. subst x. rewrite str_eqb_sym, E. reflexivity.
Qed.

Lemma unique_remove_first name ns : unique_strs ns = true -> unique_strs (remove_first name ns) = true.
Proof.
  induction ns as [|x r IH]; [reflexivity|]. cbn [unique_strs remove_first]. intros H.
  apply andb_true_iff in H. destruct H as [Hx Hr]. destruct (str_eqb name x); [exact Hr|].
  cbn [unique_strs]. rewrite (IH Hr), andb_true_r. apply negb_true_iff. apply negb_true_iff in Hx.
  change (smem x (remove_first name r) = false). rewrite (smem_remove_first _ _ _ Hr). 
  change (existsb (str_eqb x) r) with (smem x r) in Hx. rewrite Hx. apply andb_false_r.
Qed.

Lemma any_negated_exists ps : any_negated ps = true ->
  exists p, In p ps /\ p_label p = Some Neg /\ is_generated p = true.
Proof.
  unfold any_negated. intros H. apply existsb_exists in H. destruct H as [p [Hin Hp]].
  apply andb_true_iff in Hp. destruct Hp as [Hg Hn]. exists p. repeat split; auto.
  unfold is_neg_label in Hn. destruct (p_label p) as [[]|]; try discriminate; reflexivity.
Qed.

Lemma loc_part_kind mode k l : ckind_eqb (p_kind (loc_part mode k l)) CBody = false.
Proof. destruct k; reflexivity. Qed.

Lemma body_part_inv mode b bp : body_part mode b = BOk bp ->
  p_kind bp = CBody /\
  forall g, p_label bp = Some g ->
    p_present bp = negb (b_drawn_notset b) /\ p_strategy bp = match g with Pos => SPos | Neg => SNeg end.
Proof.
  unfold body_part. destruct (b_explicit b).
  - destruct (b_custom_nonbytes b); [discriminate|]. intros H; injection H as <-. split; [reflexivity|discriminate].
  - destruct (b_alts b); [intros H; injection H as <-; split; [reflexivity|discriminate]|].
    destruct (negb (b_media_ok b)); [destruct (b_other_media_ok b); discriminate|].
    intros H; injection H as <-. split; [reflexivity|]. cbn [p_label p_present p_strategy].
    intros g E; injection E as <-. split; reflexivity.
Qed.

Lemma body_part_present mode b bp g : body_part mode b = BOk bp -> p_label bp = Some g ->
  p_present bp = negb (b_drawn_notset b).
Proof. intros H Hl. apply (proj2 (body_part_inv _ _ _ H) _ Hl). Qed.

Lemma body_part_kind mode b bp : body_part mode b = BOk bp -> p_kind bp = CBody.
Proof. intros H. apply (body_part_inv _ _ _ H). Qed.

Lemma label_case_inv mode modes i lbl : label_case mode modes i = Case lbl ->
  exists bp, body_part mode (i_body i) = BOk bp /\
    lbl = {| case_mode := mode;
             parts := [loc_part mode LQuery (i_query i); loc_part mode LPath (i_path i);
                       loc_part mode LHeader (i_header i); loc_part mode LCookie (i_cookie i); bp] |} /\
    (mode = Neg -> any_negated (parts lbl) = true).
Proof.
  unfold label_case. destruct (body_part mode (i_body i)) as [bp| |]; try discriminate.
  destruct (any_negated _) eqn:E; cbn [negb].
  - rewrite andb_false_r. intros H; injection H as <-. exists bp. auto.
  - destruct mode; cbn [gmode_eqb andb].
    + intros H; injection H as <-. exists bp. split; [reflexivity|]. split; [reflexivity|discriminate].
    + destruct (modes_only_negative modes); discriminate.
Qed.

Lemma case_parts_forall mode modes i lbl (P : part -> Prop) : label_case mode modes i = Case lbl ->
  (forall k, P (loc_part mode k (i_loc k i))) -> (forall bp, body_part mode (i_body i) = BOk bp -> P bp) ->
  forall p, In p (parts lbl) -> P p.
Proof.
  intros H Hloc Hbody p. destruct (label_case_inv _ _ _ _ H) as [bp [Hbp [-> _]]]. cbn [parts In].
  intros [<-|[<-|[<-|[<-|[<-|[]]]]]].
  - apply (Hloc LQuery).
  - apply (Hloc LPath).
  - apply (Hloc LHeader).
  - apply (Hloc LCookie).
  - apply Hbody, Hbp.
Qed.

Lemma draws_fit_loc mode k i : draws_fit mode i = true -> draw_fits mode k (i_loc k i) = true.
Proof. unfold draws_fit. rewrite !andb_true_iff. intros [[[[? ?] ?] ?] _]. destruct k; assumption. Qed.

Lemma all_have_params_loc k i : all_have_params i = true -> has_params (i_loc k i) = true.
Proof. unfold all_have_params. rewrite !andb_true_iff. intros [[[? ?] ?] ?]. destruct k; assumption. Qed.

Lemma no_explicit_loc k i : no_explicit i = true -> not_set (i_loc k i) = true.
Proof. unfold no_explicit. rewrite !andb_true_iff. intros [[[[? ?] ?] ?] _]. destruct k; assumption. Qed.

Lemma no_explicit_body i : no_explicit i = true -> b_explicit (i_body i) = false.
Proof. unfold no_explicit. intros H. apply andb_true_iff in H. apply negb_true_iff, H. Qed.

Lemma remaining_nil ps : remaining ps [] = ps.
Proof. unfold remaining. induction ps as [|p r IH]; [reflexivity|]. cbn [filter existsb negb]. f_equal. exact IH. Qed.

Lemma loc_present mode k l : has_params l = true -> draw_fits mode k l = true ->
  p_present (loc_part mode k l) = true.
Proof.
  unfold has_params, draw_fits, loc_part, value_of, strategy_of. cbn [p_present].
  destruct (l_params l) as [|p ps] eqn:Eps; [discriminate|]. intros _ H.
  apply andb_true_iff in H. destruct H as [_ H].
  destruct (l_explicit l) as [|[|kv e]]; cbn [exclude_keys map] in H.
  (* nothing excluded: the strategy is not none(), the draw is a dict *)
  1, 2: rewrite remaining_nil in H; destruct (generator_of mode k l), (l_draw l); try discriminate; reflexivity.
  (* a non-empty explicit dict is there whatever is drawn *)
  destruct (l_draw l); reflexivity.
Qed.

Lemma fallback_nil k : fallback k [] = false.
Proof. destruct k; reflexivity. Qed.

Lemma loc_label_generator mode k l g : p_label (loc_part mode k l) = Some g -> generator_of mode k l = g.
Proof.
  unfold loc_part. cbn [p_label]. destruct (value_eq_explicit _ _); [discriminate|]. intros H; injection H as <-; reflexivity.
Qed.

Lemma fallback_strategy_pos k l : generator_of Neg k l = Pos -> strategy_of Neg k l = SPos.
Proof.
  unfold strategy_of, generator_of. destruct (l_params l) as [|p ps] eqn:E.
  - rewrite fallback_nil. discriminate.
  - destruct (fallback k (p :: ps)); [|discriminate]. intros _. destruct (remaining _ _); reflexivity.
Qed.

Lemma no_fallback_strategy_not_pos k l : generator_of Neg k l = Neg -> strategy_of Neg k l <> SPos.
Proof.
  unfold strategy_of. intros ->. destruct (l_params l); [discriminate|]. destruct (remaining _ _); discriminate.
Qed.

Lemma dict_eqb_refl e : unique_strs (map fst e) = true -> dict_eqb e e = true.
Proof.
  intros H. unfold dict_eqb. rewrite Nat.eqb_refl. cbn [andb]. apply forallb_forall. intros kv Hin.
  rewrite (unique_assoc_get e H kv Hin). apply N.eqb_refl.
Qed.

(* a part labelled negative and present was not made by none(): the only value none() leaves present is the explicit
   dict itself, and that one gets no label *)
Lemma loc_present_neg_strategy k l :
  draw_fits Neg k l = true -> p_label (loc_part Neg k l) = Some Neg -> p_present (loc_part Neg k l) = true ->
  strategy_of Neg k l = SNeg.
Proof.
  intros Hfit Hl Hp. pose proof (loc_label_generator _ _ _ _ Hl) as Hg.
  pose proof (no_fallback_strategy_not_pos _ _ Hg) as Hne.
  destruct (strategy_of Neg k l) eqn:Es; [|congruence|reflexivity]. exfalso.
  unfold draw_fits in Hfit. rewrite Es in Hfit. apply andb_true_iff in Hfit. destruct Hfit as [Hwf Hd].
  destruct (l_draw l) eqn:Ed; [|discriminate].
  unfold loc_part in Hl, Hp. cbn [p_label p_present] in Hl, Hp. unfold value_of in Hl, Hp. rewrite Ed in Hl, Hp.
  destruct (l_explicit l) as [|[|kv e]] eqn:Ee; try discriminate.
  cbn [value_eq_explicit] in Hl. cbn [explicit_wf] in Hwf. rewrite (dict_eqb_refl _ Hwf) in Hl. discriminate.
Qed.

Lemma loc_part_not_set mode k l : not_set l = true -> draw_fits mode k l = true ->
  loc_part mode k l =
    {| p_kind := ckind_of k; p_label := Some (generator_of mode k l); p_present := has_params l;
       p_strategy := if has_params l then match generator_of mode k l with Pos => SPos | Neg => SNeg end else SNone |}.
Proof.
  unfold not_set, draw_fits, loc_part, value_of, strategy_of, has_params.
  destruct (l_explicit l); [intros _|discriminate]. cbn [explicit_wf exclude_keys value_eq_explicit andb].
  destruct (l_params l) as [|p ps].
  - destruct (l_draw l); [reflexivity|discriminate].
  - rewrite remaining_nil. destruct (generator_of mode k l), (l_draw l); try discriminate; reflexivity.
Qed.

(* such a part counts as generated iff the location has parameters, and is labelled negative iff there is no fallback *)
Lemma loc_part_negated k l : not_set l = true -> draw_fits Neg k l = true ->
  is_generated (loc_part Neg k l) && is_neg_label (loc_part Neg k l) = loc_negatable k l.
Proof.
  intros Hn Hf. rewrite (loc_part_not_set _ _ _ Hn Hf).
  unfold is_generated, is_neg_label, loc_negatable, generator_of. cbn [p_label p_kind p_present].
  destruct (fallback k (l_params l)), (has_params l), k; reflexivity.
Qed.

Lemma loc_negatable_part k l : not_set l = true -> draw_fits Neg k l = true -> loc_negatable k l = true ->
  loc_part Neg k l = {| p_kind := ckind_of k; p_label := Some Neg; p_present := true; p_strategy := SNeg |}.
Proof.
  intros Hn Hf Hl. rewrite (loc_part_not_set _ _ _ Hn Hf). unfold loc_negatable in Hl.
  apply andb_true_iff in Hl. destruct Hl as [-> Hfb]. apply negb_true_iff in Hfb. unfold generator_of. rewrite Hfb. reflexivity.
Qed.

Lemma body_part_no_explicit i : b_explicit (i_body i) = false -> body_serializable i = true ->
  exists bp, body_part Neg (i_body i) = BOk bp /\
    is_generated bp && is_neg_label bp = existsb a_can_negate (b_alts (i_body i)).
Proof.
  unfold body_serializable, body_part. intros -> Hs. destruct (b_alts (i_body i)) as [|a r].
  - eexists. split; reflexivity.
  - rewrite Hs. eexists. split; [reflexivity|]. unfold body_candidates. rewrite (existsb_filter a_can_negate (a :: r)).
    destruct (filter a_can_negate (a :: r)); reflexivity.
Qed.

Lemma label_case_no_explicit i : no_explicit i = true -> draws_fit Neg i = true -> body_serializable i = true ->
  exists bp, forall modes,
    label_case Neg modes i =
      if negatable_shape i
      then Case {| case_mode := Neg;
                   parts := [loc_part Neg LQuery (i_query i); loc_part Neg LPath (i_path i);
                             loc_part Neg LHeader (i_header i); loc_part Neg LCookie (i_cookie i); bp] |}
      else if modes_only_negative modes then Skip else Reject.
Proof.
  intros Hne Hfit Hs. destruct (body_part_no_explicit i (no_explicit_body _ Hne) Hs) as [bp [Hbp Hb]].
  exists bp.
  assert (Hany : any_negated [loc_part Neg LQuery (i_query i); loc_part Neg LPath (i_path i);
                              loc_part Neg LHeader (i_header i); loc_part Neg LCookie (i_cookie i); bp] = negatable_shape i).
  { pose proof (fun k => loc_part_negated k _ (no_explicit_loc k i Hne) (draws_fit_loc Neg k i Hfit)) as Hl.
    pose proof (Hl LQuery) as Hq. pose proof (Hl LPath) as Hp. pose proof (Hl LHeader) as Hh. pose proof (Hl LCookie) as Hc.
    cbn [i_loc] in Hq, Hp, Hh, Hc. unfold any_negated, negatable_shape. cbn [existsb]. rewrite Hb, Hq, Hp, Hh, Hc.
    (* the parts come in the order query, path, header, cookie, body; negatable_shape asks path, header, cookie, query, body *)
    destruct (loc_negatable LQuery (i_query i)), (loc_negatable LPath (i_path i)), (loc_negatable LHeader (i_header i)),
      (loc_negatable LCookie (i_cookie i)), (existsb a_can_negate (b_alts (i_body i))); reflexivity. }
  intros modes. unfold label_case. rewrite Hbp, Hany. destruct (negatable_shape i); reflexivity.
Qed.

(* comp and present look a part up by its kind: the four location parts have four different kinds and come first *)
Lemma comp_present_loc mode i bp k :
  let lbl := {| case_mode := mode;
                parts := [loc_part mode LQuery (i_query i); loc_part mode LPath (i_path i);
                          loc_part mode LHeader (i_header i); loc_part mode LCookie (i_cookie i); bp] |} in
  comp lbl (ckind_of k) = p_label (loc_part mode k (i_loc k i)) /\
  present lbl (ckind_of k) = p_present (loc_part mode k (i_loc k i)).
Proof. destruct k; split; reflexivity. Qed.

(* a location without parameters; no request body *)
Definition loc_empty : loc_in := {| l_params := []; l_explicit := ENotSet; l_draw := DNone |}.
Definition body_none : body_in :=
  {| b_explicit := false; b_custom_nonbytes := false; b_alts := []; b_choice := 0; b_media_ok := true;
     b_other_media_ok := true; b_drawn_notset := false |}.
(* only an optional negatable body, drawn as NOT_SET *)
Definition i_notset_body : op_in :=
  {| i_path := loc_empty; i_header := loc_empty; i_cookie := loc_empty; i_query := loc_empty;
     i_body := {| b_explicit := false; b_custom_nonbytes := false;
                  b_alts := [{| a_can_negate := true; a_required := false |}]; b_choice := 0;
                  b_media_ok := true; b_other_media_ok := true; b_drawn_notset := true |} |}.
(* one integer query parameter, nothing else *)
Definition nm_xa : str := [88; 45; 65].
Definition i_query_only : op_in :=
  {| i_path := loc_empty; i_header := loc_empty; i_cookie := loc_empty;
     i_query := {| l_params := [(nm_xa, POther)]; l_explicit := ENotSet; l_draw := DDict [(nm_xa, 0%N)] |};
     i_body := body_none |}.
Definition i_string_header : op_in :=
  {| i_path := loc_empty;
     i_header := {| l_params := [(nm_xa, PStrOnly)]; l_explicit := ENotSet; l_draw := DDict [(nm_xa, 0%N)] |};
     i_cookie := loc_empty; i_query := loc_empty; i_body := body_none |}.
(* with an explicit argument the draw may equal it: nothing counts as generated *)
Definition i_explicit_empty : op_in :=
  {| i_path := loc_empty;
     i_header := {| l_params := [(nm_xa, POther)]; l_explicit := EDict []; l_draw := DDict [] |};
     i_cookie := loc_empty; i_query := loc_empty; i_body := body_none |}.

Lemma props_of_in ctx : props_of ctx = [] \/ In (KProps (props_of ctx)) ctx.
Proof.
  unfold props_of. destruct (find _ ctx) as [k|] eqn:E; [|left; reflexivity].
  apply find_some in E. destruct k; try (left; reflexivity). right. apply E.
Qed.

Lemma required_of_in kws ns : required_of kws = Some ns -> In (KRequired ns) kws.
Proof.
  unfold required_of. destruct (find _ kws) as [k|] eqn:E; [|discriminate].
  apply find_some in E. destruct k; try discriminate. intros H; injection H as <-. apply E.
Qed.

Lemma has_type_kw_find kws : has_type_kw kws = true -> In (KType (get_type kws)) kws.
Proof.
  unfold has_type_kw, get_type. destruct (find _ kws) as [k|] eqn:E; [|discriminate]. intros _.
  apply find_some in E. destruct E as [Hin Hk]. destruct k; try discriminate. exact Hin.
Qed.

Section Validity.
  Variable sub_valid : json -> json -> bool.

  Lemma kw_valid_ctx c1 c2 k v : (forall b, k <> KAddProps b) -> kw_valid sub_valid c1 k v = kw_valid sub_valid c2 k v.
  Proof. intros H. destruct k; try reflexivity. exfalso. apply (H b). reflexivity. Qed.

  Lemma valid_kws_in s k v : valid_kws sub_valid s v = true -> In k s -> kw_valid sub_valid s k v = true.
  Proof. unfold valid_kws. rewrite forallb_forall. auto. Qed.

  Lemma valid_has_type s t v : valid_kws sub_valid s v = true -> In (KType [t]) s -> has_type t v = true.
  Proof. intros Hv Hin. pose proof (valid_kws_in _ _ _ Hv Hin) as Y. cbn [kw_valid existsb] in Y. rewrite orb_false_r in Y. exact Y. Qed.

  Lemma invalid_kw s k v : In k s -> kw_valid sub_valid s k v = false -> valid_kws sub_valid s v = false.
  Proof. exact (forallb_false_intro (fun k => kw_valid sub_valid s k v) s k). Qed.

  Lemma valid_kept m v : valid sub_valid m v = true -> valid_kws sub_valid (kept m) v = true.
  Proof. unfold valid. intros H. apply andb_true_iff in H. apply H. Qed.

  Lemma invalid_kept m k v : In k (kept m) -> kw_valid sub_valid (kept m) k v = false -> valid sub_valid m v = false.
  Proof. intros Hin Hk. unfold valid. rewrite (invalid_kw _ _ _ Hin Hk). reflexivity. Qed.

  Lemma valid_negated m v : valid sub_valid m v = true -> negated m <> [] -> valid_kws sub_valid (negated m) v = false.
  Proof.
    unfold valid. intros H Hne. apply andb_true_iff in H. destruct H as [_ H].
    destruct (negated m); [contradiction|]. apply negb_true_iff, H.
  Qed.

  (* keywords of s put under not, properties not among them: a value the result accepts fails one of them, and fails it in
     s as well.  Only additionalProperties: false reads its siblings; it sees no properties under not, so it must see
     none in s either *)
  Lemma negation_sound s m v :
    negated m <> [] -> (forall k, In k (negated m) -> In k s /\ kname_of k <> NProps) -> negate_region s m = true ->
    valid sub_valid m v = true -> valid_kws sub_valid s v = false.
  Proof.
    intros Hne Hsub Hreg Hv. pose proof (valid_negated _ _ Hv Hne) as Hn. apply forallb_false_exists in Hn.
    destruct Hn as [k [Hk Hkv]]. apply (invalid_kw s k v (proj1 (Hsub k Hk))).
    destruct (is_ap_false k) eqn:Eap.
    - (* additionalProperties: false *)
      destruct k as [| | | | | | | |[|]| |]; try discriminate Eap.
      assert (Hnp : props_of (negated m) = []).
      { destruct (props_of_in (negated m)) as [E|E]; [exact E|]. destruct (proj2 (Hsub _ E)). reflexivity. }
      unfold negate_region in Hreg. replace (existsb is_ap_false (negated m)) with true in Hreg
        by (symmetry; apply existsb_exists; exists (KAddProps false); auto).
      cbn [kw_valid orb] in *. rewrite Hnp in Hkv. destruct (props_of s); [exact Hkv|discriminate Hreg].
    - (* any other keyword; additionalProperties: true fails on no value *)
      rewrite (kw_valid_ctx s (negated m)); [exact Hkv|]. intros [|] ->; [discriminate Hkv|discriminate Eap].
  Qed.
End Validity.

Lemma candidate_not_props c k : is_candidate c k = true -> kname_of k <> NProps.
Proof. destruct k; cbn; discriminate. Qed.

Lemma negate_constraints_some c s ch m : negate_constraints c false s ch = Some m ->
  negated m <> [] /\ forall k, In k (negated m) -> In k s /\ is_candidate c k = true.
Proof.
  unfold negate_constraints. destruct (filter (is_candidate c) s) as [|c0 cs] eqn:Ec; [discriminate|].
  destruct (nth_error (c0 :: cs) _) as [chosen|] eqn:En; [|discriminate]. intros H; injection H as <-. cbn [negated].
  set (negd := filter _ s). split.
  - apply nth_error_In in En. rewrite <- Ec in En. apply filter_In in En. destruct En as [Hin Hc].
    assert (X : In chosen negd).
    { apply filter_In. split; [exact Hin|]. rewrite Hc. destruct (kname_of chosen); reflexivity. }
    intros E. rewrite E in X. exact X.
  - intros k Hk. apply filter_In in Hk. destruct Hk as [Hin Hc]. apply andb_true_iff in Hc. split; [exact Hin|apply Hc].
Qed.

Lemma tmem_in t ts : In t ts -> tmem t ts = true.
Proof. intros H. apply existsb_exists. exists t. split; [exact H|]. destruct t; reflexivity. Qed.

Lemma type_candidates_spec c ts t : In t (type_candidates c ts) ->
  tmem t ts = false /\ (tmem TInt ts = true -> t <> TNum).
Proof.
  unfold type_candidates. intros H. destruct (tmem TInt ts).
  - apply filter_In in H. destruct H as [H Hn]. apply filter_In in H. destruct H as [_ Hm].
    apply negb_true_iff in Hm. split; [exact Hm|]. intros _ ->. discriminate.
  - apply filter_In in H. destruct H as [_ Hm]. apply negb_true_iff in Hm. split; [exact Hm|discriminate].
Qed.

Lemma change_type_some c m ch m' : change_type c m ch = Some m' ->
  has_type_kw (kept m) = true /\ exists t, In t (type_candidates c (get_type (kept m))) /\
    m' = prevent_unsat t {| kept := set_type t (kept m); negated := negated m |}.
Proof.
  unfold change_type. destruct (has_type_kw (kept m)) eqn:Eh; cbn [negb]; [|discriminate].
  destruct (c_form c); [discriminate|].
  destruct (tmem TStr (get_type (kept m)) && _); [discriminate|].
  set (cands := type_candidates c (get_type (kept m))).
  destruct cands as [|t0 [|t1 r]] eqn:Ec; [discriminate| |].
  - intros H; injection H as <-. split; [reflexivity|]. exists t0. split; [left; reflexivity|reflexivity].
  - destruct (nth_error (t0 :: t1 :: r) _) as [cand|] eqn:E1; [|discriminate].
    destruct (nth_error (cand :: _) _) as [t|] eqn:E2; [|discriminate].
    intros H; injection H as <-. split; [reflexivity|]. exists t. split; [|reflexivity].
    apply nth_error_In in E2. destruct E2 as [<-|E2].
    + eapply nth_error_In; eauto.
    + apply filter_In in E2. tauto.
Qed.

Lemma set_type_in t kws : In (KType [t]) (set_type t kws).
Proof.
  unfold set_type. destruct (has_type_kw kws) eqn:E.
  - apply in_map_iff. exists (KType (get_type kws)). split; [reflexivity|apply has_type_kw_find, E].
  - apply in_or_app. right. left. reflexivity.
Qed.

Lemma set_type_other t k kws : (forall ts, k <> KType ts) -> In k (set_type t kws) <-> In k kws.
Proof.
  intros H. unfold set_type. destruct (has_type_kw kws).
  - rewrite in_map_iff. split.
    + intros [k0 [E Hin]]. destruct k0; try (subst k; exact Hin). destruct (H _ (eq_sym E)).
    + intros Hin. exists k. split; [|exact Hin]. destruct k; try reflexivity. destruct (H _ eq_refl).
  - rewrite in_app_iff. split; [|auto]. intros [Hin|[E|[]]]; [exact Hin|destruct (H _ (eq_sym E))].
Qed.

Lemma new_type_of_set_type t kws ng : has_type_kw kws = true ->
  new_type_of (prevent_unsat t {| kept := set_type t kws; negated := ng |}) = Some t.
Proof.
  intros H. unfold new_type_of, set_type. cbn [prevent_unsat kept]. rewrite H. revert H. unfold has_type_kw.
  induction kws as [|k r IH]; cbn [map filter find]; [discriminate|].
  destruct (kname_eqb (kname_of k) NType) eqn:E.
  - destruct k; try discriminate E. intros _. reflexivity.
  - (* another keyword: left as it is, and not what find looks for, kept or not *)
    replace (match k with KType _ => KType [t] | _ => k end) with k by (destruct k; try reflexivity; discriminate E).
    intros H. destruct (keeps t k); cbn [find]; rewrite ?E; apply IH, H.
Qed.

Lemma has_type_overlap t t' v : has_type t v = true -> has_type t' v = true ->
  t = t' \/ (t = TInt /\ t' = TNum) \/ (t = TNum /\ t' = TInt).
Proof. intros H H'. destruct v, t; try discriminate H; destruct t'; try discriminate H'; auto. Qed.

(* replacing the types by one of which the schema allows no value is sound: a value of the new type has none of the
   old ones.  Integers are numbers, so integer <-> number are the two replacements this does not cover *)
Lemma retype_sound sub_valid m t v : has_type_kw (kept m) = true ->
  tmem t (get_type (kept m)) = false ->
  (tmem TInt (get_type (kept m)) = true -> t <> TNum) -> (tmem TNum (get_type (kept m)) = true -> t <> TInt) ->
  valid sub_valid (prevent_unsat t {| kept := set_type t (kept m); negated := negated m |}) v = true ->
  valid sub_valid m v = false.
Proof.
  intros Hh Hnot Hnum Hint Hv.
  apply valid_kept in Hv. cbn [prevent_unsat kept] in Hv.
  assert (Ht : has_type t v = true).
  { apply (valid_has_type _ _ _ _ Hv). apply filter_In. split; [apply set_type_in|reflexivity]. }
  apply (invalid_kept _ m _ v (has_type_kw_find _ Hh)). cbn [kw_valid].
  apply not_true_is_false. intros Hex. apply existsb_exists in Hex. destruct Hex as [t' [Hin' Ht']]. apply tmem_in in Hin'.
  destruct (has_type_overlap t t' v Ht Ht') as [->|[[-> ->]|[-> ->]]].
  - rewrite Hin' in Hnot. discriminate.
  - apply (Hint Hin'). reflexivity.
  - apply (Hnum Hin'). reflexivity.
Qed.

Lemma insert_sorted_in u w l : In u (insert_sorted w l) -> u = w \/ In u l.
Proof.
  induction l as [|b l IH]; cbn [insert_sorted].
  - intros [<-|[]]; auto.
  - destruct (str_ltb b w).
    + intros [<-|Hu]; [right; left; reflexivity|]. destruct (IH Hu); [auto|right; right; assumption].
    + intros [<-|Hu]; auto.
Qed.

Lemma sort_strs_in l z : In z (sort_strs l) -> In z l.
Proof.
  induction l as [|a l IH]; cbn [sort_strs fold_right]; [auto|]. intros Hz.
  destruct (insert_sorted_in _ _ _ Hz) as [->|Hz']; [left; reflexivity|right; apply IH; exact Hz'].
Qed.

Lemma pick_required_in names ch name : pick_required names ch = Some name -> In name names.
Proof.
  unfold pick_required. destruct names as [|x [|y r]]; [discriminate| |].
  - intros H; injection H as <-. left; reflexivity.
  - set (names := x :: y :: r).
    destruct (nth_error (sort_strs names) _) as [cand|] eqn:E1; [|discriminate].
    intros E2. apply nth_error_In in E2. destruct E2 as [<-|E2].
    + apply sort_strs_in. eapply nth_error_In; eauto.
    + apply sort_strs_in in E2. apply filter_In in E2. tauto.
Qed.

Lemma drop_required_keeps name k kws : In k kws -> (forall ns, k <> KRequired ns) -> (forall ps, k <> KProps ps) ->
  In k (drop_required name kws).
Proof.
  intros Hin H1 H2. unfold drop_required. apply in_flat_map. exists k. split; [exact Hin|].
  destruct k; try (left; reflexivity). - destruct (H1 _ eq_refl). - destruct (H2 _ eq_refl).
Qed.

Lemma drop_required_props name ps kws : In (KProps ps) (drop_required name kws) -> assoc_mem name ps = false.
Proof.
  unfold drop_required. intros Hin. apply in_flat_map in Hin. destruct Hin as [k [_ Hk]].
  destruct k; try (destruct Hk as [Hk|[]]; discriminate).
  - destruct (remove_first name names); [destruct Hk|destruct Hk as [Hk|[]]; discriminate].
  - destruct (assoc_remove name ps0) eqn:Er; [destruct Hk|]. destruct Hk as [Hk|[]]. injection Hk as <-.
    rewrite <- Er, assoc_mem_remove, str_eqb_refl. reflexivity.
Qed.

Lemma props_of_drop name t kws : assoc_mem name (props_of (set_type t (drop_required name kws))) = false.
Proof.
  destruct (props_of_in (set_type t (drop_required name kws))) as [->|Hin]; [reflexivity|].
  rewrite set_type_other in Hin by discriminate. apply (drop_required_props _ _ _ Hin).
Qed.

Lemma remove_required_some m ch m' : remove_required_property m ch = Some m' ->
  exists names name, In (KRequired names) (kept m) /\ In name names /\
    m' = {| kept := set_type TObj (drop_required name (kept m)); negated := negated m |}.
Proof.
  unfold remove_required_property. destruct (negb (tmem TObj (get_type (kept m)))); [discriminate|].
  destruct (required_of (kept m)) as [names|] eqn:Er; [|discriminate].
  destruct (pick_required names ch) as [name|] eqn:Ep; [|discriminate].
  intros H; injection H as <-. exists names, name. split; [apply required_of_in, Er|]. split; [apply (pick_required_in _ _ _ Ep)|reflexivity].
Qed.

(* dropping a required name from a closed object is sound: the result accepts objects only, additionalProperties: false
   is still there and the name is no longer a declared property, so an accepted object does not have it *)
Lemma drop_required_sound sub_valid m names name v :
  In (KRequired names) (kept m) -> In name names -> closed_object m = true ->
  valid sub_valid {| kept := set_type TObj (drop_required name (kept m)); negated := negated m |} v = true ->
  valid sub_valid m v = false.
Proof.
  intros Hreq Hname Hclosed Hv. apply valid_kept in Hv. cbn [kept] in Hv.
  pose proof (valid_has_type _ _ _ _ Hv (set_type_in TObj _)) as Hobj. destruct v as [| | | | |kvs]; try discriminate.
  unfold closed_object in Hclosed. apply existsb_exists in Hclosed. destruct Hclosed as [k [Hk Hap]].
  destruct k; try discriminate. destruct b; [discriminate|].
  assert (Hk' : In (KAddProps false) (set_type TObj (drop_required name (kept m)))).
  { rewrite set_type_other by discriminate. apply drop_required_keeps; [exact Hk|discriminate|discriminate]. }
  pose proof (valid_kws_in _ _ _ _ Hv Hk') as Hadd. cbn [kw_valid orb] in Hadd.
  apply (invalid_kept _ m (KRequired names) _ Hreq). cbn [kw_valid]. apply (forallb_false_intro _ _ name Hname).
  apply not_true_is_false. intros Hm. apply assoc_mem_in in Hm. destruct Hm as [w Hw].
  rewrite forallb_forall in Hadd. specialize (Hadd _ Hw). cbn [fst] in Hadd. rewrite props_of_drop in Hadd. discriminate.
Qed.

Lemma required_of_exclude_one name s :
  required_of (exclude_one name s) = option_map (remove_first name) (required_of s).
Proof.
  unfold required_of, exclude_one. induction s as [|k r IH]; [reflexivity|]. cbn [map find].
  destruct k; cbn [kname_of kname_eqb option_map]; (exact IH || reflexivity).
Qed.

Lemma props_of_exclude_one name s : props_of (exclude_one name s) = assoc_remove name (props_of s).
Proof.
  unfold props_of, exclude_one. induction s as [|k r IH]; [reflexivity|]. cbn [map find].
  destruct k; cbn [kname_of kname_eqb]; (exact IH || reflexivity).
Qed.

Lemma props_of_exclude_names names : forall s n,
  assoc_mem n (props_of (exclude_names names s)) = negb (smem n names) && assoc_mem n (props_of s).
Proof.
  induction names as [|name r IH]; intros s n; [reflexivity|].
  change (exclude_names (name :: r) s) with (exclude_names r (exclude_one name s)).
  rewrite IH, props_of_exclude_one, assoc_mem_remove. change (smem n (name :: r)) with (str_eqb n name || smem n r).
  destruct (str_eqb n name), (smem n r); reflexivity.
Qed.

Lemma required_of_exclude_names names : forall s ns, required_of s = Some ns -> unique_strs ns = true ->
  exists ns', required_of (exclude_names names s) = Some ns' /\ unique_strs ns' = true /\
    forall n, smem n ns' = negb (smem n names) && smem n ns.
Proof.
  induction names as [|name r IH]; intros s ns Hreq Hu.
  - exists ns. split; [exact Hreq|]. split; [exact Hu|reflexivity].
  - change (exclude_names (name :: r) s) with (exclude_names r (exclude_one name s)).
    destruct (IH (exclude_one name s) (remove_first name ns)) as [ns' [A [B C]]].
    { rewrite required_of_exclude_one, Hreq. reflexivity. }
    { apply unique_remove_first, Hu. }
    exists ns'. split; [exact A|]. split; [exact B|]. intros n. rewrite C, (smem_remove_first _ _ _ Hu).
    change (smem n (name :: r)) with (str_eqb n name || smem n r). destruct (str_eqb n name), (smem n r); reflexivity.
Qed.

(* every sub-schema accepts every value *)
Definition sv_true : json -> json -> bool := fun _ _ => true.
Definition nm_a : str := [97].
Definition body_ctx : mctx := {| c_loc := MBody; c_form := false |}.
Definition query_ctx : mctx := {| c_loc := MQuery; c_form := false |}.

(* Outside their regions the three soundness statements are false.
   {properties: {a: {}}, additionalProperties: false, type: object} at a query: the only candidate is additionalProperties *)
Definition s_closed : schema := [KProps [(nm_a, JObj [])]; KAddProps false; KType [TObj]].
Lemma negate_constraints_sound_refuted :
  exists m, negate_constraints query_ctx false s_closed {| n_idx := 0; n_enabled := [] |} = Some m /\
    negated m = [KAddProps false] /\
    valid sv_true m (JObj [(nm_a, JInt 1)]) = true /\ valid_kws sv_true s_closed (JObj [(nm_a, JInt 1)]) = true.
Proof. eexists. split; [reflexivity|]. repeat split. Qed.

(* the candidates for {type: number} are array, boolean, integer, null, object, string: index 2 is integer *)
Lemma change_type_sound_refuted :
  exists m', change_type body_ctx (plain [KType [TNum]]) {| t_idx1 := 2; t_enabled := []; t_idx2 := 0 |} = Some m' /\
    new_type_of m' = Some TInt /\
    valid sv_true m' (JInt 1) = true /\ valid sv_true (plain [KType [TNum]]) (JInt 1) = true.
Proof. eexists. split; [reflexivity|]. repeat split. Qed.

Definition s_open : schema := [KType [TObj]; KRequired [nm_a]; KProps [(nm_a, JObj [])]].
Lemma remove_required_sound_refuted :
  exists m', remove_required_property (plain s_open) {| r_idx1 := 0; r_enabled := []; r_idx2 := 0 |} = Some m' /\
    closed_object (plain s_open) = false /\
    valid sv_true m' (JObj [(nm_a, JInt 1)]) = true /\ valid sv_true (plain s_open) (JObj [(nm_a, JInt 1)]) = true.
Proof. eexists. split; [reflexivity|]. repeat split. Qed.

(* {type: integer, minimum: 3, maximum: 9}: inside the regions of negate_constraints and change_type *)
Definition s_bounded : schema := [KType [TInt]; KMin 3; KMax 9].

(* F4: a string path parameter, {type: string, minLength: 1} *)
Definition nm_id : str := [105; 100].
Definition path_ctx : mctx := {| c_loc := MPath; c_form := false |}.
Definition s_path_string : schema := [KType [TStr]; KMinLen 1].

(* F5: the location schema of one required string header X-A *)
Definition header_ctx : mctx := {| c_loc := MHeader; c_form := false |}.
Definition s_required_header : schema :=
  [KProps [(nm_xa, JObj [([116;121;112;101], JStr [115;116;114;105;110;103])])]; KAddProps false; KType [TObj]; KRequired [nm_xa]].

(* the location schema of a query with parameters filter: {} (required) and limit: integer *)
Definition nm_filter : str := [102; 105; 108; 116; 101; 114].
Definition nm_limit : str := [108; 105; 109; 105; 116].
Definition s_filter_limit : schema :=
  [KProps [(nm_filter, JObj []); (nm_limit, JObj [(n_type, JStr n_integer)])]; KAddProps false; KType [TObj]; KRequired [nm_filter]].

Lemma digit_char n : is_digit (48 + n mod 10) = true.
Proof.
  unfold is_digit. assert (H : n mod 10 < 10) by (apply N.mod_upper_bound; discriminate).
  revert H. generalize (n mod 10). intros m H. apply andb_true_iff. split; apply N.leb_le; lia.
Qed.

Lemma digits_fuel_head fuel n acc : fuel <> O ->
  exists c r, digits_fuel fuel n acc = c :: r /\ is_digit c = true.
Proof.
  revert n acc. induction fuel as [|f IH]; intros n acc Hf; [congruence|]. cbn [digits_fuel].
  destruct (n <? 10).
  - eexists _, _. split; [reflexivity|apply digit_char].
  - destruct f as [|f'].
    + cbn [digits_fuel]. eexists _, _. split; [reflexivity|apply digit_char].
    + apply IH. discriminate.
Qed.

Lemma show_Z_head z : exists c r, show_Z z = c :: r /\ (c = 45 \/ is_digit c = true).
Proof.
  destruct z as [|p|p]; cbn [show_Z].
  - exists 48, []. split; [reflexivity|right; reflexivity].
  - destruct (digits_fuel_head (S (N.to_nat (N.log2 (N.pos p)))) (N.pos p) []) as [c [r [E D]]]; [discriminate|].
    exists c, r. unfold show_N. rewrite E. auto.
  - eexists 45, _. split; [reflexivity|left; reflexivity].
Qed.

(* the text of an integer starts with a sign or a digit: it is none of true, false, null *)
Lemma show_Z_not_word z : str_eqb (show_Z z) s_true = false /\ str_eqb (show_Z z) s_false = false /\ str_eqb (show_Z z) s_null = false.
Proof.
  destruct (show_Z_head z) as [c [r [-> Hc]]]. unfold s_true, s_false, s_null. cbn [str_eqb].
  destruct Hc as [->|Hd]; [repeat split; reflexivity|].
  unfold is_digit in Hd. apply andb_true_iff in Hd. destruct Hd as [H1 H2]. apply N.leb_le in H1, H2.
  repeat split; (destruct (c =? _) eqn:E; [apply N.eqb_eq in E; lia|reflexivity]).
Qed.

Lemma invalid_survives_coercion_refuted :
  valid_prim PInt (JStr [53]) = false /\ coerce (JStr [53]) = Some [53] /\ wire_valid PInt [53] = true /\
  valid_prim PBool (JStr s_true) = false /\ coerce (JStr s_true) = Some s_true /\ wire_valid PBool s_true = true /\
  valid_prim PString (JInt 5) = false /\ coerce (JInt 5) = Some [53] /\ wire_valid PString [53] = true.
Proof. repeat split. Qed.

Lemma is_bare_string_eq s : is_bare_string s = true <-> s = bare_string.
Proof.
  unfold is_bare_string. split.
  - intros H. apply json_eqb_eq in H. injection H as ->. reflexivity.
  - intros ->. apply json_eqb_refl.
Qed.

Lemma header_class_bare_iff v2 decl exs :
  header_class v2 decl exs = PStrOnly <-> header_prop_schema v2 decl exs = bare_string.
Proof.
  unfold header_class. destruct (is_bare_string _) eqn:E.
  - split; [intros _; apply is_bare_string_eq; exact E | reflexivity].
  - split; [discriminate|]. intros H. apply is_bare_string_eq in H. rewrite H in E. discriminate.
Qed.

(* every step of the conversion that ends in {type: string} started from {} or {type: string} *)
Definition empty_or_bare (s : jdict) : Prop := s = [] \/ s = bare_string.

Lemma empty_or_bare_no_key k s : empty_or_bare s -> str_eqb k k_type = false -> assoc_mem k s = false.
Proof. intros [->| ->] H; [reflexivity|]. unfold assoc_mem, bare_string. cbn [assoc_get]. rewrite H. reflexivity. Qed.

Lemma hp_default_bare_inv s : hp_default_type s = bare_string -> empty_or_bare s.
Proof.
  unfold hp_default_type. destruct (assoc_mem k_type s).
  - intros ->. right. reflexivity.
  - destruct s as [|a [|b r]]; [left; reflexivity| |]; cbn [app]; intros H; discriminate.
Qed.

Lemma hp_file_bare_inv s : empty_or_bare (hp_file s) -> empty_or_bare s.
Proof.
  unfold hp_file. destruct (assoc_get k_type s) as [[| | |t| |]|]; try (intros H; exact H).
  destruct (str_eqb t k_file); [|intros H; exact H].
  intros H. pose proof (empty_or_bare_no_key k_format _ H eq_refl) as X. rewrite assoc_mem_set_same in X. discriminate.
Qed.

Lemma hp_nullable_bare_inv v2 s : empty_or_bare (hp_nullable v2 s) -> empty_or_bare s.
Proof.
  unfold hp_nullable. destruct (assoc_get (nullable_name v2) s) as [[|[]| | | |]|]; try (intros H; exact H).
  intros [H|H]; discriminate.
Qed.

Lemma hp_examples_bare_inv exs s : empty_or_bare (hp_examples exs s) -> empty_or_bare s.
Proof.
  unfold hp_examples. destruct exs as [|e r]; [intros H; exact H|].
  intros H. pose proof (empty_or_bare_no_key k_examples _ H eq_refl) as X. rewrite assoc_mem_set_same in X. discriminate.
Qed.

Lemma header_prop_bare_inv v2 decl exs :
  header_prop_schema v2 decl exs = bare_string -> empty_or_bare (hp_filter v2 decl).
Proof.
  unfold header_prop_schema. intros H.
  apply hp_default_bare_inv, hp_file_bare_inv, hp_nullable_bare_inv, hp_examples_bare_inv in H. exact H.
Qed.

Lemma entry_violable_kept v2 kv : entry_violable kv = true -> keep_keyword v2 (fst kv) = true.
Proof.
  unfold entry_violable. destruct kv as [k v]. cbn [fst snd].
  destruct (str_eqb k k_type) eqn:E1.
  { apply str_eqb_spec in E1. subst k. destruct v2; reflexivity. }
  destruct (smem k constraint_keys) eqn:E2.
  { intros _. unfold smem, constraint_keys in E2. cbn [existsb] in E2.
    repeat (apply orb_true_iff in E2; destruct E2 as [E2|E2]);
      try (apply str_eqb_spec in E2; subst k; destruct v2; reflexivity). discriminate. }
  destruct (str_eqb k k_minLength) eqn:E3; [|discriminate].
  apply str_eqb_spec in E3. subst k. intros _. destruct v2; reflexivity.
Qed.

(* the violable entry survives the filter, so the filtered schema is neither {} nor {type: string} *)
Lemma violable_header_claimed_negatable v2 decl exs :
  header_value_violable decl = true -> header_class v2 decl exs = POther.
Proof.
  intros H. unfold header_class. destruct (is_bare_string _) eqn:Hb; [exfalso|reflexivity].
  apply is_bare_string_eq, header_prop_bare_inv in Hb.
  unfold header_value_violable in H. apply existsb_exists in H. destruct H as [kv [Hin Hv]].
  assert (X : In kv (hp_filter v2 decl)).
  { unfold hp_filter. apply filter_In. split; [exact Hin | apply entry_violable_kept; exact Hv]. }
  destruct Hb as [Hs|Hs]; rewrite Hs in X.
  - destruct X.
  - destruct X as [<-|[]]. discriminate Hv.
Qed.

Lemma kept_unviolable_is_type_string v2 kv :
  plain_entry v2 kv = true -> entry_violable kv = false -> keep_keyword v2 (fst kv) = true -> kv = (k_type, JStr k_string).
Proof.
  unfold plain_entry, entry_violable. destruct kv as [k v]. cbn [fst snd].
  destruct (str_eqb k k_type) eqn:E1.
  - intros _ Hv _. apply str_eqb_spec in E1. subst k. apply negb_false_iff in Hv. apply json_eqb_eq in Hv. subst v. reflexivity.
  - destruct (smem k constraint_keys); [intros _ H; discriminate|].
    destruct (str_eqb k k_minLength).
    + intros H1 H2. rewrite H1 in H2. discriminate.
    + intros H1 _ H3. rewrite H3 in H1. discriminate.
Qed.

Lemma plain_filter_empty_or_bare v2 decl :
  plain_header v2 decl = true -> header_value_violable decl = false -> empty_or_bare (hp_filter v2 decl).
Proof.
  unfold plain_header, header_value_violable. intros Hp Hv. apply andb_true_iff in Hp. destruct Hp as [Hp Hu].
  induction decl as [|kv r IH]; [left; reflexivity|].
  cbn [forallb] in Hp. apply andb_true_iff in Hp. destruct Hp as [Hp1 Hp2].
  cbn [existsb] in Hv. apply orb_false_iff in Hv. destruct Hv as [Hv1 Hv2].
  cbn [map unique_strs] in Hu. apply andb_true_iff in Hu. destruct Hu as [Hu1 Hu2]. apply negb_true_iff in Hu1.
  unfold hp_filter. cbn [filter]. fold (hp_filter v2 r).
  destruct (keep_keyword v2 (fst kv)) eqn:E; [|apply IH; assumption].
  (* the first kept entry is type: string; were the rest not filtered to {}, it would hold a second type key *)
  pose proof (kept_unviolable_is_type_string v2 kv Hp1 Hv1 E) as ->. cbn [fst] in Hu1. right.
  destruct (IH Hp2 Hu2 Hv2) as [->|Hr]; [reflexivity|exfalso].
  assert (Hin : In (k_type, JStr k_string) (hp_filter v2 r)) by (rewrite Hr; left; reflexivity).
  apply filter_In in Hin. destruct Hin as [Hin _].
  change (smem k_type (map fst r) = false) in Hu1. apply (in_map fst) in Hin. cbn [fst] in Hin. rewrite (smem_in _ _ Hin) in Hu1. discriminate.
Qed.

Lemma unviolable_plain_header_bare v2 decl :
  plain_header v2 decl = true -> header_value_violable decl = false -> header_class v2 decl [] = PStrOnly.
Proof.
  intros Hp Hv. apply header_class_bare_iff. unfold header_prop_schema. cbn [hp_examples].
  destruct (plain_filter_empty_or_bare v2 decl Hp Hv) as [-> | ->]; destruct v2; reflexivity.
Qed.


Lemma fallback_header k ps : is_header_location k = true -> fallback k ps = negb (can_negate_headers ps).
Proof. destruct k; try discriminate; reflexivity. Qed.

Lemma negatable_shape_loc k i : loc_negatable k (i_loc k i) = true -> negatable_shape i = true.
Proof.
  unfold negatable_shape. destruct k; cbn [i_loc]; intros ->; rewrite ?orb_true_r; reflexivity.
Qed.

Lemma loc_negatable_header_params k v2 hs l : is_header_location k = true -> l_params l = header_params v2 hs ->
  loc_negatable k l = existsb (fun h => negb (is_stronly (header_class v2 (h_decl h) (h_examples h)))) hs.
Proof.
  intros Hk Hps. unfold loc_negatable, has_params. rewrite (fallback_header _ _ Hk), Hps, negb_involutive.
  unfold can_negate_headers, header_params. rewrite existsb_map. destruct hs; reflexivity.
Qed.

Lemma loc_negatable_headers k v2 hs l :
  is_header_location k = true -> l_params l = header_params v2 hs ->
  forallb (plain_hparam v2) hs = true ->
  loc_negatable k l = existsb header_violable hs.
Proof.
  intros Hk Hps Hr. rewrite (loc_negatable_header_params k v2 hs l Hk Hps). apply existsb_ext_in. intros x Hx.
  rewrite forallb_forall in Hr. pose proof (Hr x Hx) as Hpx. unfold plain_hparam in Hpx.
  apply andb_true_iff in Hpx. destruct Hpx as [Hpx Hreq]. apply andb_true_iff in Hpx. destruct Hpx as [Hpl Hnil].
  apply negb_true_iff in Hreq. unfold header_violable. rewrite Hreq. cbn [orb].
  destruct (h_examples x); [|discriminate].
  destruct (header_value_violable (h_decl x)) eqn:E.
  - rewrite (violable_header_claimed_negatable v2 _ [] E). reflexivity.
  - rewrite (unviolable_plain_header_bare v2 _ Hpl E). reflexivity.
Qed.

(* declared header schemas: bare string; with enum [fast, slow]; pattern ^[a-z]{3}$; minLength 3; description + maxLength 3;
   format date; type integer; a description only; an example x *)
Definition nm_xmode : str := [88; 45; 77; 111; 100; 101]%N.
Definition nm_theme : str := [116; 104; 101; 109; 101]%N.
Definition k_description : str := [100; 101; 115; 99; 114; 105; 112; 116; 105; 111; 110]%N.
Definition d_bare : jdict := [(k_type, JStr k_string)].
Definition d_enum : jdict := [(k_type, JStr k_string); (k_enum, JArr [JStr [102; 97; 115; 116]%N; JStr [115; 108; 111; 119]%N])].
Definition d_pattern : jdict := [(k_type, JStr k_string); (k_pattern, JStr [94; 91; 97; 45; 122; 93; 123; 51; 125; 36]%N)].
Definition d_minlen : jdict := [(k_minLength, JInt 3%Z)].
Definition d_maxlen : jdict := [(k_description, JStr [100]%N); (k_type, JStr k_string); (k_maxLength, JInt 3%Z)].
Definition d_format : jdict := [(k_format, JStr [100; 97; 116; 101]%N); (k_type, JStr k_string)].
Definition d_integer : jdict := [(k_type, JStr n_integer)].
Definition d_described : jdict := [(k_description, JStr [100]%N); (k_type, JStr k_string)].
Definition d_example : jdict := [(k_type, JStr k_string); (k_example, JStr [120]%N)].
(* a parameter without parameter-level examples; an OpenAPI 3 operation with header and cookie parameters only *)
Definition hp (name : str) (d : jdict) (req : bool) : hparam :=
  {| h_name := name; h_decl := d; h_examples := []; h_required := req |}.
Definition i_headers (hs cs : list hparam) (dh dc : draw) : op_in :=
  {| i_path := loc_empty;
     i_header := {| l_params := header_params false hs; l_explicit := ENotSet; l_draw := dh |};
     i_cookie := {| l_params := header_params false cs; l_explicit := ENotSet; l_draw := dc |};
     i_query := loc_empty; i_body := body_none |}.

Lemma header_class_examples :
  map (fun d => (header_value_violable d, header_class false d [], header_class true d [], plain_header false d))
      [d_bare; []; d_described; d_enum; d_pattern; d_minlen; d_maxlen; d_format; d_integer] =
  [(false, PStrOnly, PStrOnly, true); (false, PStrOnly, PStrOnly, true); (false, PStrOnly, PStrOnly, true);
   (true, POther, POther, true); (true, POther, POther, true); (true, POther, POther, true); (true, POther, POther, true);
   (true, POther, POther, true); (true, POther, POther, true)].
Proof. vm_compute. reflexivity. Qed.

(* GET /mode with a required enum header X-Mode; GET /theme with an optional pattern cookie theme; an operation with a
   described header X-A and a bare cookie theme *)
Definition i_mode : op_in := i_headers [hp nm_xmode d_enum true] [] (DDict []) DNone.
Definition i_theme : op_in := i_headers [] [hp nm_theme d_pattern false] DNone (DDict [(nm_theme, 0%N)]).
Definition i_described : op_in := i_headers [hp nm_xa d_described false] [hp nm_theme d_bare false] (DDict [(nm_xa, 0%N)]) (DDict []).
(* F7: a string header with an example, its location schema and its operation *)
Definition s_example_location : schema :=
  [KProps [(nm_xa, JObj d_example)]; KAddProps false; KType [TObj]].
Definition i_example (d : draw) : op_in := i_headers [hp nm_xa d_example false] [] d DNone.

(* The guard and the transport run the same loop, the transport on the prepared values.  Both are read here entry by
   entry: the number of pairs and the texts an entry sends depend on its value alone. *)
Definition keep1 (k : str) (v : json) : list (str * json) := if is_none v then [] else [(k, v)].
Definition prep (v : json) : json := empty_dict_to_text (jsonify_val v).

Lemma entry_loop_false k v : entry_loop false (k, v) = flat_map (keep1 k) (iter_values v).
Proof. reflexivity. Qed.

Lemma urlencode_count_app a b : urlencode_count (a ++ b) = (urlencode_count a + urlencode_count b)%nat.
Proof.
  induction a as [|x a IH]; cbn [app urlencode_count fold_right]; [reflexivity|].
  fold (urlencode_count (a ++ b)). fold (urlencode_count a). rewrite IH. lia.
Qed.

Lemma keep1_count_key k k' l : urlencode_count (flat_map (keep1 k) l) = urlencode_count (flat_map (keep1 k') l).
Proof.
  induction l as [|v l IH]; [reflexivity|]. cbn [flat_map]. rewrite !urlencode_count_app, IH. f_equal.
  unfold keep1. destruct (is_none v); reflexivity.
Qed.

Definition vcount (v : json) : nat := urlencode_count (flat_map (keep1 []) (iter_values v)).

Lemma entry_count_vcount v : entry_count v = vcount (prep v).
Proof. reflexivity. Qed.

Lemma encode_loop_count q : urlencode_count (encode_loop false q) = fold_right (fun kv n => (vcount (snd kv) + n)%nat) 0%nat q.
Proof.
  induction q as [|[k v] q IH]; [reflexivity|]. unfold encode_loop in *. cbn [flat_map fold_right snd].
  rewrite urlencode_count_app, IH, entry_loop_false. unfold vcount. rewrite (keep1_count_key k []). reflexivity.
Qed.

Lemma wire_count_sum q : wire_count q = fold_right (fun kv n => (entry_count (snd kv) + n)%nat) 0%nat q.
Proof.
  unfold wire_count, wire_result. rewrite encode_loop_count. unfold prepare_query, jsonify_query.
  induction q as [|[k v] q IH]; [reflexivity|]. cbn [map fold_right fst snd]. rewrite IH. reflexivity.
Qed.

Lemma jsonify_obj_keys kvs :
  map fst ((fix go (l : list (str * json)) : list (str * json) :=
              match l with [] => [] | (k, x) :: r => (k, jsonify_val x) :: go r end) kvs) = map fst kvs.
Proof. induction kvs as [|[k x] r IH]; [reflexivity|]. cbn [map fst]. f_equal. exact IH. Qed.

Lemma iter_values_obj kvs : iter_values (JObj kvs) = map (fun k => JStr k) (map fst kvs).
Proof. cbn [iter_values]. rewrite map_map. reflexivity. Qed.

(* the guard reads the raw value, the transport the prepared one: a top-level None or empty dict is sent as one text
   and seen as nothing; every other value sends what the guard sees *)
Definition hidden (v : json) : nat := match v with JNull | JObj [] => 1 | _ => 0 end.

Lemma vcount_prep v : vcount (prep v) = (vcount v + hidden v)%nat.
Proof.
  destruct v as [| b | z | s | l | [|[k x] r]]; unfold prep; cbn [jsonify_val empty_dict_to_text hidden];
    rewrite ?Nat.add_0_r; try reflexivity.
  unfold vcount. rewrite !iter_values_obj.
  (* cbn has unrolled one step of the local fix of jsonify_val; jsonify_obj_keys is about the fix itself *)
  change ((k, jsonify_val x) :: _) with ((fix go (l : list (str * json)) : list (str * json) :=
              match l with [] => [] | (k, x) :: r => (k, jsonify_val x) :: go r end) ((k, x) :: r)).
    rewrite jsonify_obj_keys. reflexivity.
Qed.

Lemma wire_count_guard q :
  wire_count q = (urlencode_count (encode_loop false q) + fold_right (fun kv n => hidden (snd kv) + n) 0 q)%nat.
Proof.
  rewrite encode_loop_count, wire_count_sum.
  induction q as [|[k v] q IH]; cbn [fold_right snd]; [reflexivity|]. rewrite entry_count_vcount, vcount_prep, IH. lia.
Qed.

Lemma no_none_or_empty_dict_hidden q : no_none_or_empty_dict q = true -> fold_right (fun kv n => hidden (snd kv) + n)%nat 0%nat q = 0%nat.
Proof.
  unfold no_none_or_empty_dict. induction q as [|[k v] q IH]; [reflexivity|]. cbn [forallb fold_right snd]. intros H.
  apply andb_true_iff in H. destruct H as [Hv Hq]. rewrite (IH Hq). destruct v as [| | | | |[|]]; (discriminate Hv || reflexivity).
Qed.

(* the same for the pairs: texts l is what the loop sends for the values l under one name *)
Fixpoint texts (l : list json) : option (list str) :=
  match l with
  | [] => Some []
  | v :: r => if is_none v then texts r else
              match doseq_texts v, texts r with Some a, Some b => Some (a ++ b) | _, _ => None end
  end.

Lemma urlencode_pairs_app a b :
  urlencode_pairs (a ++ b) = match urlencode_pairs a, urlencode_pairs b with Some x, Some y => Some (x ++ y) | _, _ => None end.
Proof.
  induction a as [|[k v] a IH]; cbn [app urlencode_pairs].
  - destruct (urlencode_pairs b); reflexivity.
  - rewrite IH. destruct (doseq_texts v); [|reflexivity]. destruct (urlencode_pairs a); [|reflexivity].
    destruct (urlencode_pairs b); [|reflexivity]. rewrite app_assoc. reflexivity.
Qed.

Lemma pairs_keep1 k l :
  urlencode_pairs (flat_map (keep1 k) l) = match texts l with Some ts => Some (map (fun t => (k, t)) ts) | None => None end.
Proof.
  induction l as [|v l IH]; [reflexivity|]. cbn [flat_map texts]. rewrite urlencode_pairs_app, IH. unfold keep1.
  destruct (is_none v).
  - cbn [urlencode_pairs]. destruct (texts l); reflexivity.
  - cbn [urlencode_pairs]. destruct (doseq_texts v); [|reflexivity]. destruct (texts l); [|reflexivity].
    rewrite app_nil_r, map_app. reflexivity.
Qed.

Lemma all_some_len {A} (l : list (option A)) ts : all_some l = Some ts -> length ts = length l.
Proof.
  revert ts. induction l as [|[x|] l IH]; cbn [all_some]; intros ts H; try discriminate.
  - injection H as <-. reflexivity.
  - destruct (all_some l); [|discriminate]. injection H as <-. cbn [length]. f_equal. apply IH. reflexivity.
Qed.

Lemma doseq_texts_len v ts : doseq_texts v = Some ts -> length ts = doseq_len v.
Proof.
  destruct v as [| b | z | s | l | kvs]; cbn [doseq_texts doseq_len py_str py_repr]; intros H.
  - injection H as <-. reflexivity.
  - injection H as <-. reflexivity.
  - injection H as <-. reflexivity.
  - injection H as <-. reflexivity.
  - apply all_some_len in H. rewrite map_length in H. exact H.
  - injection H as <-. apply map_length.
Qed.

Lemma texts_len k l ts : texts l = Some ts -> length ts = urlencode_count (flat_map (keep1 k) l).
Proof.
  revert ts. induction l as [|v l IH]; cbn [texts flat_map]; intros ts H.
  - injection H as <-. reflexivity.
  - rewrite urlencode_count_app. unfold keep1 at 1. destruct (is_none v).
    + cbn [urlencode_count fold_right]. apply IH. exact H.
    + destruct (doseq_texts v) as [a|] eqn:Ea; [|discriminate]. destruct (texts l) as [b|]; [|discriminate].
      injection H as <-. rewrite app_length, (IH b eq_refl). cbn [urlencode_count fold_right snd].
      rewrite (doseq_texts_len _ _ Ea). lia.
Qed.

Definition vtexts (v : json) : option (list str) := texts (iter_values (prep v)).

Lemma entry_wire_vtexts v : entry_wire v = vtexts v.
Proof.
  unfold entry_wire, vtexts, prep. rewrite entry_loop_false, pairs_keep1.
  destruct (texts _) as [ts|]; [|reflexivity]. rewrite map_map. cbn [snd]. rewrite map_id. reflexivity.
Qed.

Lemma vtexts_len v ts : vtexts v = Some ts -> length ts = entry_count v.
Proof. intros H. rewrite entry_count_vcount. unfold vcount. apply texts_len. exact H. Qed.

Fixpoint qpairs (q : jq) : option (list (str * str)) :=
  match q with
  | [] => Some []
  | kv :: r => match vtexts (snd kv), qpairs r with
               | Some ts, Some ps => Some (map (fun t => (fst kv, t)) ts ++ ps)
               | _, _ => None
               end
  end.

Lemma query_wire_qpairs q : query_wire q = qpairs q.
Proof.
  unfold query_wire, wire_result, prepare_query, jsonify_query, encode_loop.
  induction q as [|[k v] q IH]; [reflexivity|]. cbn [map flat_map fst snd qpairs].
  rewrite urlencode_pairs_app, IH, entry_loop_false, pairs_keep1. unfold vtexts, prep.
  destruct (texts _); [|reflexivity]. destruct (qpairs q); reflexivity.
Qed.


Lemma query_wire_len q ps : query_wire q = Some ps -> length ps = wire_count q.
Proof.
  rewrite query_wire_qpairs, wire_count_sum. revert ps.
  induction q as [|[k v] q IH]; cbn [qpairs fold_right fst snd]; intros ps H.
  - injection H as <-. reflexivity.
  - destruct (vtexts v) as [ts|] eqn:E; [|discriminate]. destruct (qpairs q) as [ps'|]; [|discriminate]. injection H as <-.
    rewrite app_length, map_length, (vtexts_len _ _ E), (IH ps' eq_refl). reflexivity.
Qed.

Lemma count_key_app k a b : count_key k (a ++ b) = (count_key k a + count_key k b)%nat.
Proof. unfold count_key. rewrite filter_app, app_length. reflexivity. Qed.

Lemma count_key_same k ts : count_key k (map (fun t => (k, t)) ts) = length ts.
Proof.
  unfold count_key. induction ts as [|t ts IH]; [reflexivity|]. cbn [map filter fst]. rewrite str_eqb_refl. cbn [length]. f_equal. exact IH.
Qed.

Lemma qpairs_keys q ps k t : qpairs q = Some ps -> In (k, t) ps -> In k (map fst q).
Proof.
  revert ps. induction q as [|[k0 v] q IH]; cbn [qpairs fst snd]; intros ps H Hin.
  - injection H as <-. destruct Hin.
  - destruct (vtexts v) as [ts|]; [|discriminate]. destruct (qpairs q) as [ps'|]; [|discriminate]. injection H as <-.
    apply in_app_or in Hin. destruct Hin as [Hin|Hin].
    + apply in_map_iff in Hin. destruct Hin as [t' [E _]]. injection E as <- _. left. reflexivity.
    + right. eapply IH; [reflexivity|exact Hin].
Qed.

Lemma qpairs_entry q ps k v : qpairs q = Some ps -> In (k, v) q ->
  exists ts, vtexts v = Some ts /\ (forall t, In t ts -> In (k, t) ps) /\ (length ts <= count_key k ps)%nat.
Proof.
  revert ps. induction q as [|[k0 v0] q IH]; cbn [qpairs fst snd]; intros ps H Hin; [destruct Hin|].
  destruct (vtexts v0) as [ts0|] eqn:E0; [|discriminate]. destruct (qpairs q) as [ps'|]; [|discriminate]. injection H as <-.
  destruct Hin as [Hin|Hin].
  - injection Hin as -> ->. exists ts0. split; [exact E0|]. split.
    + intros t Ht. apply in_or_app. left. apply in_map_iff. exists t. split; [reflexivity|exact Ht].
    + rewrite count_key_app, count_key_same. lia.
  - destruct (IH ps' eq_refl Hin) as [ts [A [B C]]]. exists ts. split; [exact A|]. split.
    + intros t Ht. apply in_or_app. right. apply B. exact Ht.
    + rewrite count_key_app. lia.
Qed.

Lemma has_key_false k ps : (forall t, ~ In (k, t) ps) -> has_key k ps = false.
Proof.
  intros H. unfold has_key. destruct (existsb _ ps) eqn:E; [|reflexivity].
  apply existsb_exists in E. destruct E as [[k' t] [Hin Hk]]. cbn [fst] in Hk. apply str_eqb_spec in Hk. subst k'.
  exfalso. exact (H t Hin).
Qed.

Lemma invalid_query_invalid_on_wire d q ps :
  valid_query d q = false -> query_survives d q = true -> query_wire q = Some ps -> wire_valid_query d ps = false.
Proof.
  intros Hv Hs Hw. rewrite query_wire_qpairs in Hw. unfold wire_valid_query.
  unfold valid_query in Hv. apply andb_false_iff in Hv. destruct Hv as [Hv|Hv].
  - (* an entry of the wrong type or of an undeclared name sends a text, and the pair of its first text is refused *)
    apply forallb_false_exists in Hv. destruct Hv as [[k v] [Hin Hbad]]. cbn [fst snd] in Hbad.
    unfold query_survives in Hs. rewrite forallb_forall in Hs. specialize (Hs _ Hin). unfold entry_survives in Hs. cbn [fst snd] in Hs.
    destruct (qpairs_entry _ _ _ _ Hw Hin) as [ts [Ht [Hall Hcnt]]].
    rewrite entry_wire_vtexts, Ht, <- (vtexts_len _ _ Ht) in Hs. apply andb_false_iff. left.
    destruct ts as [|t ts'].
    { destruct (assoc_get k d); [rewrite Hbad in Hs|]; discriminate Hs. }
    apply (forallb_false_intro _ _ (k, t)); [apply Hall; left; reflexivity|]. cbn [fst snd].
    destruct (assoc_get k d) as [p|]; [|reflexivity]. rewrite Hbad in Hs. cbn [orb] in Hs.
    apply orb_true_iff in Hs. destruct Hs as [Hs|Hs].
    + (* the name is sent more than once *)
      apply Nat.leb_le in Hs. apply andb_false_iff. right. apply Nat.eqb_neq. lia.
    + (* once, with a text outside the lexical space *)
      destruct ts'; [|discriminate Hs]. apply negb_true_iff in Hs. rewrite Hs. reflexivity.
  - (* a required name is missing: no pair carries it *)
    apply forallb_false_exists in Hv. destruct Hv as [[k p] [Hin Hbad]]. cbn [fst snd] in Hbad.
    apply orb_false_iff in Hbad. destruct Hbad as [Hreq Hmem].
    apply andb_false_iff. right. apply (forallb_false_intro _ _ (k, p) Hin). cbn [fst snd]. rewrite Hreq. cbn [orb].
    apply has_key_false. intros t Hint. apply (assoc_mem_false_not_in _ _ Hmem). eapply qpairs_keys; [exact Hw|exact Hint].
Qed.

Lemma scalar_entry_wire v : is_container v = false ->
  entry_count v = 1%nat /\ entry_wire v = match coerce v with Some w => Some [w] | None => None end.
Proof. destruct v as [| b | z | s | l | kvs]; intros H; try discriminate; split; reflexivity. Qed.

Definition k_limit : str := [108; 105; 109; 105; 116]%N.
Definition k_zz : str := [122; 122]%N.
Definition k_a : str := [97]%N.
Definition d_limit : qdecl := [(k_limit, {| q_type := PInt; q_required := false |})].
Definition q_list_of_none : jq := [(k_limit, JArr [JNull])].
Definition q_vanishing : jq := [(k_limit, JInt 5); (k_zz, JArr [])].
Definition q_none_and_one : jq := [(k_limit, JArr [JNull; JInt 1])].
Definition q_top_none : jq := [(k_a, JNull)].
Definition d_two : qdecl := [(k_limit, {| q_type := PInt; q_required := false |}); (k_a, {| q_type := PBool; q_required := true |})].
Definition q_survivor : jq := [(k_limit, JArr [JNull; JInt 1; JInt 2]); (k_zz, JArr [JArr [JNull]]); (k_a, JBool true)].
(* F9: f = {x: [None]} *)
Definition k_f : str := [102]%N.
Definition k_x : str := [120]%N.
Definition q_exploded : jq := [(k_f, JObj [(k_x, JArr [JNull])])].

Lemma dispatch_lookup (f : str -> json -> bool) (e : jdict) : unique_strs (map fst e) = true ->
  (forallb (fun kv => f (fst kv) (snd kv)) e = true <-> forall k a, assoc_get k e = Some a -> f k a = true).
Proof.
  intros U. rewrite forallb_forall. split.
  - intros H k a G. apply (H (k, a)). apply assoc_get_in. exact G.
  - intros H [k a] Hin. cbn [fst snd]. apply H. apply (unique_assoc_get e U (k, a) Hin).
Qed.

Lemma num_entry_exclusive name a : (name = k_exclusiveMinimum \/ name = k_exclusiveMaximum) ->
  num_entry (name, a) = true -> exists b, a = JBool b.
Proof. intros [-> | ->] H; vm_compute in H; destruct a; try discriminate H; eexists; reflexivity. Qed.

(* inside the fragment the truthiness Draft 4 reads is the boolean flag of the specification *)
Lemma truthy_is_flag schema name :
  (name = k_exclusiveMinimum \/ name = k_exclusiveMaximum) -> forallb num_entry schema = true ->
  py_truthy (assoc_get name schema) = excl_flag name schema.
Proof.
  intros Hn F. unfold excl_flag. destruct (assoc_get name schema) as [a|] eqn:G; [|reflexivity].
  apply assoc_get_in in G. rewrite forallb_forall in F. apply F in G.
  destruct (num_entry_exclusive _ _ Hn G) as [[|] ->]; reflexivity.
Qed.

Lemma guard_validator_is_draft4 schema v : num_fragment schema = true ->
  guard_is_valid Draft4 schema v = declared_valid schema v.
Proof.
  unfold num_fragment. intros H. apply andb_true_iff in H. destruct H as [F U].
  apply eq_true_iff_eq. unfold guard_is_valid.
  rewrite (dispatch_lookup (fun k a => guard_keyword Draft4 schema k a v) schema U).
  unfold declared_valid. rewrite !andb_true_iff.
  rewrite <- (truthy_is_flag schema k_exclusiveMinimum (or_introl eq_refl) F).
  rewrite <- (truthy_is_flag schema k_exclusiveMaximum (or_intror eq_refl) F).
  split.
  - intros H. repeat split.
    + destruct (assoc_get k_type schema) as [a|] eqn:G; [|reflexivity]. apply (H _ _ G).
    + destruct (assoc_get k_minimum schema) as [a|] eqn:G; [|reflexivity]. apply (H _ _ G).
    + destruct (assoc_get k_maximum schema) as [a|] eqn:G; [|reflexivity]. apply (H _ _ G).
  - intros [[Ht Hlo] Hhi] k a G. unfold guard_keyword.
    destruct (str_eqb k k_type) eqn:E1.
    { apply str_eqb_spec in E1. subst k. rewrite G in Ht. exact Ht. }
    destruct (str_eqb k k_minimum) eqn:E2.
    { apply str_eqb_spec in E2. subst k. rewrite G in Hlo. exact Hlo. }
    destruct (str_eqb k k_maximum) eqn:E3.
    { apply str_eqb_spec in E3. subst k. rewrite G in Hhi. exact Hhi. }
    destruct (str_eqb k k_exclusiveMinimum); [reflexivity|].
    destruct (str_eqb k k_exclusiveMaximum); reflexivity.
Qed.

Lemma location_guard_is_draft4 props req q :
  forallb (fun p => num_fragment (snd p)) props = true ->
  location_is_valid (guard_is_valid Draft4) props req q = location_is_valid declared_valid props req q.
Proof.
  intros F. unfold location_is_valid. f_equal. apply forallb_ext_in. intros [k v] _. cbn [fst snd].
  destruct (assoc_get k props) as [s|] eqn:G; [|reflexivity].
  apply guard_validator_is_draft4. apply assoc_get_in in G. rewrite forallb_forall in F. apply (F (k, s) G).
Qed.

Definition s_max_false : jdict := [(k_type, JStr n_number); (k_maximum, JInt 100); (k_exclusiveMaximum, JBool false)].
Definition s_ratio : jdict := [(k_type, JStr n_number); (k_minimum, JInt 0); (k_exclusiveMinimum, JBool true); (k_maximum, JInt 10)].
Definition s_limit : jdict :=
  [(k_type, JStr n_integer); (k_minimum, JInt 0); (k_exclusiveMinimum, JBool false); (k_maximum, JInt 50); (k_exclusiveMaximum, JBool false)].
