(* JSON values without floats; objects are insertion-ordered association lists
   (Python dict order).  The association-list operations below the JSON type are polymorphic
   in the value and serve every dict of the models, not only JSON objects.  Stdlib only. *)
From Coq Require Import List NArith ZArith Bool.
From Verif Require Import Common.Str.
Import ListNotations.

Inductive json :=
| JNull
| JBool (b : bool)
| JInt (z : Z)
| JStr (s : str)
| JArr (l : list json)
| JObj (kvs : list (str * json)).

(* induction principle that goes through the nested lists *)
Section JsonInd.
  Variable P : json -> Prop.
  Hypothesis Hnull : P JNull.
  Hypothesis Hbool : forall b, P (JBool b).
  Hypothesis Hint : forall z, P (JInt z).
  Hypothesis Hstr : forall s, P (JStr s).
  Hypothesis Harr : forall l, Forall P l -> P (JArr l).
  Hypothesis Hobj : forall kvs, Forall (fun kv => P (snd kv)) kvs -> P (JObj kvs).

  Fixpoint json_ind' (j : json) : P j :=
    match j with
    | JNull => Hnull
    | JBool b => Hbool b
    | JInt z => Hint z
    | JStr s => Hstr s
    | JArr l => Harr l ((fix go (l : list json) : Forall P l :=
                           match l with [] => Forall_nil _ | x :: r => Forall_cons _ (json_ind' x) (go r) end) l)
    | JObj kvs => Hobj kvs ((fix go (l : list (str * json)) : Forall (fun kv => P (snd kv)) l :=
                           match l with [] => Forall_nil _ | x :: r => Forall_cons _ (json_ind' (snd x)) (go r) end) kvs)
    end.
End JsonInd.

Fixpoint json_eqb (a b : json) : bool :=
  match a, b with
  | JNull, JNull => true
  | JBool x, JBool y => Bool.eqb x y
  | JInt x, JInt y => Z.eqb x y
  | JStr x, JStr y => str_eqb x y
  | JArr x, JArr y =>
      (fix go (x y : list json) : bool :=
         match x, y with
         | [], [] => true
         | p :: x', q :: y' => json_eqb p q && go x' y'
         | _, _ => false
         end) x y
  | JObj x, JObj y =>
      (fix go (x y : list (str * json)) : bool :=
         match x, y with
         | [], [] => true
         | (k, p) :: x', (k', q) :: y' => str_eqb k k' && json_eqb p q && go x' y'
         | _, _ => false
         end) x y
  | _, _ => false
  end.

Lemma json_eqb_refl j : json_eqb j j = true.
Proof.
  induction j using json_ind'; cbn; auto using Bool.eqb_reflx, Z.eqb_refl, str_eqb_refl.
  - induction H as [|x l Hx _ IH]; [reflexivity|]. rewrite Hx, IH. reflexivity.
  - induction H as [|[k x] l Hx _ IH]; [reflexivity|]. cbn in Hx. rewrite str_eqb_refl, Hx, IH. reflexivity.
Qed.

Lemma json_eqb_eq a : forall b, json_eqb a b = true -> a = b.
Proof.
  induction a using json_ind'; intros [] E; cbn in E; try discriminate; try reflexivity.
  - apply Bool.eqb_prop in E; subst; reflexivity.
  - apply Z.eqb_eq in E; subst; reflexivity.
  - apply str_eqb_spec in E; subst; reflexivity.
  - f_equal. revert l0 E. induction H as [|x l Hx _ IH]; intros [|q y] E; try discriminate; [reflexivity|].
    apply andb_true_iff in E; destruct E as [E1 E2]. f_equal; [apply Hx; exact E1 | apply IH; exact E2].
  - f_equal. revert kvs0 E. induction H as [|[k x] l Hx _ IH]; intros [|[k' q] y] E; try discriminate; [reflexivity|].
    apply andb_true_iff in E; destruct E as [E1 E3]. apply andb_true_iff in E1; destruct E1 as [E1 E2].
    apply str_eqb_spec in E1; subst. cbn in Hx. f_equal; [f_equal; apply Hx; exact E2 | apply IH; exact E3].
Qed.

(* dict operations *)
Fixpoint assoc_get {A} (k : str) (l : list (str * A)) : option A :=
  match l with
  | [] => None
  | (k', v) :: r => if str_eqb k k' then Some v else assoc_get k r
  end.

(* d[k] = v : keeps the position of an existing key, appends a new one *)
Fixpoint assoc_set {A} (k : str) (v : A) (l : list (str * A)) : list (str * A) :=
  match l with
  | [] => [(k, v)]
  | (k', v') :: r => if str_eqb k k' then (k, v) :: r else (k', v') :: assoc_set k v r
  end.

Fixpoint assoc_remove {A} (k : str) (l : list (str * A)) : list (str * A) :=
  match l with
  | [] => []
  | (k', v') :: r => if str_eqb k k' then assoc_remove k r else (k', v') :: assoc_remove k r
  end.

Definition assoc_mem {A} (k : str) (l : list (str * A)) : bool :=
  match assoc_get k l with Some _ => true | None => false end.

Definition assoc_update {A} (base upd : list (str * A)) : list (str * A) :=
  fold_left (fun acc kv => assoc_set (fst kv) (snd kv) acc) upd base.

Lemma assoc_get_in {A} k (v : A) l : assoc_get k l = Some v -> In (k, v) l.
Proof.
  induction l as [|[k' v'] r IH]; cbn; [discriminate|]. destruct (str_eqb k k') eqn:E; [|auto].
  apply str_eqb_spec in E. intros [= ->]. left. subst. reflexivity.
Qed.

Lemma assoc_get_assoc_set {A} n k (v : A) l :
  assoc_get n (assoc_set k v l) = if str_eqb n k then Some v else assoc_get n l.
Proof.
  induction l as [|[k' v'] r IH]; cbn; [reflexivity|].
  destruct (str_eqb k k') eqn:E; cbn.
  - apply str_eqb_spec in E; subst k'. destruct (str_eqb n k); reflexivity.
  - rewrite IH. destruct (str_eqb n k') eqn:E'; [|reflexivity].
    apply str_eqb_spec in E'; subst k'. rewrite str_eqb_sym, E. reflexivity.
Qed.

Lemma assoc_get_set_same {A} k (v : A) l : assoc_get k (assoc_set k v l) = Some v.
Proof. rewrite assoc_get_assoc_set, str_eqb_refl. reflexivity. Qed.

Lemma assoc_get_set_other {A} k k' (v : A) l : str_eqb k' k = false ->
  assoc_get k' (assoc_set k v l) = assoc_get k' l.
Proof. intros H. rewrite assoc_get_assoc_set, H. reflexivity. Qed.

Lemma assoc_get_map {A B} (f : A -> B) k (l : list (str * A)) :
  assoc_get k (map (fun kv => (fst kv, f (snd kv))) l) = option_map f (assoc_get k l).
Proof.
  induction l as [|[k' v'] r IH]; cbn; [reflexivity|].
  destruct (str_eqb k k'); [reflexivity | exact IH].
Qed.

(* dict merge {**b, **u}: a key that u does not hold keeps the value of b; with distinct keys in u, u wins *)
Lemma assoc_update_other {A} k (u : list (str * A)) : forall b,
  assoc_get k u = None -> assoc_get k (assoc_update b u) = assoc_get k b.
Proof.
  unfold assoc_update. induction u as [|[k1 v1] u IH]; intros b N; cbn in *; [reflexivity|].
  destruct (str_eqb k k1) eqn:E; [discriminate|]. rewrite IH by exact N. apply assoc_get_set_other, E.
Qed.

Lemma assoc_update_get {A} k (u b : list (str * A)) : NoDup (map fst u) ->
  assoc_get k (assoc_update b u) = match assoc_get k u with Some x => Some x | None => assoc_get k b end.
Proof.
  unfold assoc_update. revert b. induction u as [|[k1 v1] u IH]; intros b ND; cbn; [reflexivity|].
  inversion ND as [|? ? Hn ND']; subst. rewrite IH by exact ND'. destruct (str_eqb k k1) eqn:E.
  - apply str_eqb_spec in E; subst. destruct (assoc_get k1 u) eqn:G; [|apply assoc_get_set_same].
    apply assoc_get_in, (in_map fst) in G. contradiction.
  - rewrite assoc_get_set_other by exact E. reflexivity.
Qed.
