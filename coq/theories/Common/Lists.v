(* Facts about the standard list functions that several properties use and the standard library lacks. *)
From Coq Require Import List Bool.
Import ListNotations.

Lemma existsb_ext_in {A} (f g : A -> bool) l : (forall x, In x l -> f x = g x) -> existsb f l = existsb g l.
Proof.
  induction l as [|a l IH]; intros H; cbn; [reflexivity|].
  rewrite (H a (or_introl eq_refl)), IH; [reflexivity|]. intros x Hx. apply H. right. exact Hx.
Qed.

Lemma forallb_ext_in {A} (f g : A -> bool) l : (forall x, In x l -> f x = g x) -> forallb f l = forallb g l.
Proof.
  induction l as [|a l IH]; intros H; cbn; [reflexivity|].
  rewrite (H a (or_introl eq_refl)), IH; [reflexivity|]. intros x Hx. apply H. right. exact Hx.
Qed.

Lemma filter_none {A} (f : A -> bool) l : (forall x, In x l -> f x = false) -> filter f l = [].
Proof.
  induction l as [|a l IH]; intros H; cbn; [reflexivity|].
  rewrite (H a (or_introl eq_refl)). apply IH. intros x Hx. apply H. right. exact Hx.
Qed.

Lemma filter_filter {A} (p q : A -> bool) l : filter p (filter q l) = filter (fun x => q x && p x) l.
Proof. induction l as [|x l IH]; cbn; [reflexivity|]. destruct (q x); cbn; [destruct (p x)|]; rewrite IH; reflexivity. Qed.

Lemma existsb_false_In {A} (f : A -> bool) l x : existsb f l = false -> In x l -> f x = false.
Proof.
  intros H Hx. destruct (f x) eqn:E; [|reflexivity]. rewrite <- H. symmetry. apply existsb_exists. exists x. split; assumption.
Qed.

(* a list is split in one way only at the first occurrence of a separator *)
Lemma app_sep_inj {A} (sep : A) a : forall a' b b',
  ~ In sep a -> ~ In sep a' -> a ++ sep :: b = a' ++ sep :: b' -> a = a' /\ b = b'.
Proof.
  induction a as [|x a IH]; intros [|y a'] b b' H H' E; cbn [app] in E.
  - injection E as <-. split; reflexivity.
  - injection E as <- _. destruct H'. left; reflexivity.
  - injection E as -> _. destruct H. left; reflexivity.
  - injection E as <- E. destruct (IH a' b b') as [-> ->]; [| |exact E|split; reflexivity]; intros X; [apply H | apply H']; right; exact X.
Qed.

Lemma Forall2_weaken {A B} (P Q : A -> B -> Prop) l l' :
  (forall a b, P a b -> Q a b) -> Forall2 P l l' -> Forall2 Q l l'.
Proof. intros H F. induction F; constructor; auto. Qed.

(* every run of a transition system stays inside an invariant of its step function *)
Lemma fold_left_inv {S L} (step : S -> L -> S) (P : S -> Prop) :
  (forall s l, P s -> P (step s l)) -> forall ls s, P s -> P (fold_left step ls s).
Proof. intros Hstep. induction ls as [|l r IH]; intros s Hs; [exact Hs | exact (IH _ (Hstep s l Hs))]. Qed.
