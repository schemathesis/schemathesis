(* Common string library: strings are lists of Unicode code points (N).
   Executable definitions + their algebra.  Stdlib only. *)
From Coq Require Import List NArith Bool Lia Arith.
Import ListNotations.

Definition str := list N.

Fixpoint str_eqb (a b : str) : bool :=
  match a, b with
  | [], [] => true
  | x :: a', y :: b' => N.eqb x y && str_eqb a' b'
  | _, _ => false
  end.

Lemma str_eqb_spec a b : str_eqb a b = true <-> a = b.
Proof.
  revert b; induction a as [|x a IH]; intros [|y b]; cbn; try (split; congruence).
  rewrite andb_true_iff, N.eqb_eq, IH. split; [intros [-> ->]; reflexivity | intros H; inversion H; auto].
Qed.

Lemma str_eqb_refl a : str_eqb a a = true.
Proof. apply str_eqb_spec; reflexivity. Qed.

Lemma str_eqb_false a b : str_eqb a b = false <-> a <> b.
Proof. rewrite <- str_eqb_spec. destruct (str_eqb a b); split; congruence. Qed.

Lemma str_eqb_sym a b : str_eqb a b = str_eqb b a.
Proof. apply eq_true_iff_eq. rewrite !str_eqb_spec. split; congruence. Qed.

Fixpoint starts_with (p s : str) : bool :=
  match p, s with
  | [], _ => true
  | x :: p', y :: s' => N.eqb x y && starts_with p' s'
  | _ :: _, [] => false
  end.

Lemma starts_with_spec p s : starts_with p s = true <-> exists t, s = p ++ t.
Proof.
  revert s; induction p as [|x p IH]; intros s; cbn.
  - split; [eexists; reflexivity | reflexivity].
  - destruct s as [|y s]; [split; [discriminate | intros [t H]; discriminate]|].
    rewrite andb_true_iff, N.eqb_eq, IH. split.
    + intros [-> [t ->]]; eexists; reflexivity.
    + intros [t H]; inversion H; subst; split; [reflexivity | eexists; reflexivity].
Qed.

Definition ends_with (p s : str) : bool := starts_with (rev p) (rev s).

(* membership of a code point in a list *)
Definition mem (c : N) (l : list N) : bool := existsb (N.eqb c) l.

Lemma mem_spec c l : mem c l = true <-> In c l.
Proof.
  unfold mem; rewrite existsb_exists; split.
  - intros [x [Hx He]]; apply N.eqb_eq in He; subst; exact Hx.
  - intros H; exists c; split; [exact H | apply N.eqb_refl].
Qed.

(* ASCII helpers *)
Definition is_upper (c : N) : bool := (65 <=? c)%N && (c <=? 90)%N.
Definition is_lower (c : N) : bool := (97 <=? c)%N && (c <=? 122)%N.
Definition is_digit (c : N) : bool := (48 <=? c)%N && (c <=? 57)%N.
Definition lower_c (c : N) : N := if is_upper c then (c + 32)%N else c.
Definition upper_c (c : N) : N := if is_lower c then (c - 32)%N else c.
Definition lower_ascii (s : str) : str := map lower_c s.
Definition upper_ascii (s : str) : str := map upper_c s.

Lemma lower_c_idem c : lower_c (lower_c c) = lower_c c.
Proof.
  unfold lower_c, is_upper.
  destruct ((65 <=? c)%N && (c <=? 90)%N) eqn:E; [|rewrite E; reflexivity].
  apply andb_true_iff in E; destruct E as [E1 E2].
  apply N.leb_le in E1; apply N.leb_le in E2.
  destruct ((65 <=? c + 32)%N && (c + 32 <=? 90)%N) eqn:E'; [|reflexivity].
  apply andb_true_iff in E'; destruct E' as [_ E4]; apply N.leb_le in E4; lia.
Qed.

Lemma lower_ascii_idem s : lower_ascii (lower_ascii s) = lower_ascii s.
Proof. unfold lower_ascii; rewrite map_map; apply map_ext; intros; apply lower_c_idem. Qed.

(* split on a single separator code point: Python's s.split(sep) for a 1-char sep *)
Fixpoint split_on_aux (sep : N) (s : str) (cur : str) : list str :=
  match s with
  | [] => [rev cur]
  | c :: s' => if N.eqb c sep then rev cur :: split_on_aux sep s' []
               else split_on_aux sep s' (c :: cur)
  end.
Definition split_on (sep : N) (s : str) : list str := split_on_aux sep s [].

Fixpoint join (sep : str) (l : list str) : str :=
  match l with
  | [] => []
  | [x] => x
  | x :: l' => x ++ sep ++ join sep l'
  end.

Lemma split_on_aux_nonnil sep s : forall cur, split_on_aux sep s cur <> [].
Proof.
  induction s as [|c s IH]; intros cur; cbn [split_on_aux]; [discriminate|].
  destruct (N.eqb c sep); [discriminate | apply IH].
Qed.

Lemma split_on_aux_join sep s cur :
  join [sep] (split_on_aux sep s cur) = rev cur ++ s.
Proof.
  revert cur; induction s as [|c s IH]; intros cur; cbn [split_on_aux].
  - cbn; rewrite app_nil_r; reflexivity.
  - destruct (N.eqb c sep) eqn:E.
    + apply N.eqb_eq in E; subst c.
      specialize (IH []). cbn [rev app] in IH.
      destruct (split_on_aux sep s []) as [|y r] eqn:Hr; [destruct (split_on_aux_nonnil sep s [] Hr)|].
      cbn [join]. cbn [join] in IH. rewrite IH. reflexivity.
    + rewrite IH. cbn [rev]. rewrite <- app_assoc. reflexivity.
Qed.

Theorem join_split_on sep s : join [sep] (split_on sep s) = s.
Proof. unfold split_on; rewrite split_on_aux_join; reflexivity. Qed.

(* a separator closes the running word; text without one only extends it *)
Lemma split_on_aux_app sep b : forall a cur,
  split_on_aux sep (a ++ sep :: b) cur = split_on_aux sep a cur ++ split_on_aux sep b [].
Proof.
  induction a as [|c a IH]; intros cur; cbn [app split_on_aux].
  - rewrite N.eqb_refl. reflexivity.
  - destruct (N.eqb c sep); [cbn [app]; f_equal|]; apply IH.
Qed.

Lemma split_on_aux_nosep sep s : forall cur, ~ In sep s -> split_on_aux sep s cur = [rev cur ++ s].
Proof.
  induction s as [|c s IH]; intros cur H; cbn [split_on_aux]; [rewrite app_nil_r; reflexivity|].
  destruct (N.eqb_spec c sep) as [->|_]; [destruct H; left; reflexivity|].
  rewrite IH by (intros Hs; apply H; right; exact Hs). cbn [rev]. rewrite <- app_assoc. reflexivity.
Qed.

Lemma split_on_app sep a b : split_on sep (a ++ sep :: b) = split_on sep a ++ split_on sep b.
Proof. apply split_on_aux_app. Qed.

Lemma split_on_nosep sep s : ~ In sep s -> split_on sep s = [s].
Proof. apply (split_on_aux_nosep sep s []). Qed.

Lemma split_on_nonempty sep s : split_on sep s <> [].
Proof. apply split_on_aux_nonnil. Qed.

(* replace every occurrence of a single code point by a string *)
Definition replace_char (c : N) (by_ : str) (s : str) : str :=
  flat_map (fun x => if N.eqb x c then by_ else [x]) s.

Fixpoint strip_left (ws : list N) (s : str) : str :=
  match s with
  | c :: s' => if mem c ws then strip_left ws s' else s
  | [] => []
  end.
Definition strip (ws : list N) (s : str) : str := rev (strip_left ws (rev (strip_left ws s))).

(* stripping removes nothing from a string without such characters, and never a character outside the set *)
Lemma strip_left_none ws s : (forall c, In c s -> mem c ws = false) -> strip_left ws s = s.
Proof. destruct s as [|c s]; intros H; cbn; [|rewrite (H c (or_introl eq_refl))]; reflexivity. Qed.

Lemma strip_none ws s : (forall c, In c s -> mem c ws = false) -> strip ws s = s.
Proof.
  intros H. unfold strip. rewrite (strip_left_none ws s H), strip_left_none; [apply rev_involutive|].
  intros c Hc. apply H, in_rev, Hc.
Qed.

Lemma in_strip_left ws s c : In c s -> mem c ws = false -> In c (strip_left ws s).
Proof.
  induction s as [|a s IH]; intros Hin Hm; [exact Hin|]. cbn [strip_left].
  destruct (mem a ws) eqn:E; [|exact Hin].
  destruct Hin as [->|Hin]; [congruence | apply IH; assumption].
Qed.

Lemma in_strip ws s c : In c s -> mem c ws = false -> In c (strip ws s).
Proof.
  intros Hin Hm. unfold strip. apply (proj1 (in_rev _ _)). apply in_strip_left; [|exact Hm].
  apply (proj1 (in_rev _ _)). apply in_strip_left; assumption.
Qed.

Definition all_chars (p : N -> bool) (s : str) : bool := forallb p s.
