(* C04 model: the four response conformance checks of
   schemathesis/specs/openapi/checks.py as coded (verdict) and as the API
   documentation specifies (spec_verdict).  Executable definitions only.

   Foreign code enters as function arguments:
     valid  sid did : python-jsonschema accepts body did under converted schema sid
     hvalid hid v   : coerce header text v and validate it under header schema hid
   JSON parsing and UTF-8 decoding of the body are foreign too: the body arrives
   classified (BadUtf8 / NotJson / Json did). *)
From Coq Require Import List NArith ZArith Bool.
From Verif Require Import Common.Str Common.Json.
Import ListNotations.
Open Scope N_scope.

(* ---------- literals ---------- *)
Definition s_default : str := [100;101;102;97;117;108;116].
Definition s_content_type : str := [99;111;110;116;101;110;116;45;116;121;112;101].
Definition s_application : str := [97;112;112;108;105;99;97;116;105;111;110].
Definition s_json : str := [106;115;111;110].
Definition s_plus_json : str := [43;106;115;111;110].
Definition s_star : str := [42].
Definition digits : list N := [48;49;50;51;52;53;54;55;56;57].
(* str.isspace: what str.strip() strips.  int() strips the same except 28..31 (int_ws below): py_int, which uses
   this list, reads a text with these at its ends where int() raises *)
Definition ws : list N :=
  [9;10;11;12;13;28;29;30;31;32;133;160;5760;8192;8193;8194;8195;8196;8197;8198;8199;8200;8201;8202;8232;8233;8239;8287;12288].

(* ---------- str(int) and int(str) ---------- *)
Fixpoint dec_aux (fuel : nat) (n : N) (acc : str) : str :=
  match fuel with
  | O => acc
  | S f => let acc' := (48 + n mod 10) :: acc in
           if (n / 10 =? 0) then acc' else dec_aux f (n / 10) acc'
  end.
Definition dec (n : N) : str := dec_aux (S (N.to_nat (N.log2 n))) n [].

(* digits with single underscores between them *)
Fixpoint digits_val (s : str) (acc : N) (prev_digit : bool) : option N :=
  match s with
  | [] => if prev_digit then Some acc else None
  | c :: s' =>
      if is_digit c then digits_val s' (acc * 10 + (c - 48)) true
      else if (c =? 95) && prev_digit then digits_val s' acc false
      else None
  end.

(* int(s) for ASCII input; None = ValueError *)
Definition py_int (s : str) : option Z :=
  match strip ws s with
  | 43 :: r => option_map Z.of_N (digits_val r 0 false)
  | 45 :: r => option_map (fun n => Z.opp (Z.of_N n)) (digits_val r 0 false)
  | t => option_map Z.of_N (digits_val t 0 false)
  end.

(* ---------- utils.expand_status_code (utils.py:8) ---------- *)
Inductive key := KStr (s : str) | KInt (n : N).
Definition key_str (k : key) : str := match k with KStr s => s | KInt n => dec n end.

Fixpoint product (l : list (list N)) : list str :=
  match l with
  | [] => [[]]
  | cs :: r => flat_map (fun c => map (cons c) (product r)) cs
  end.

Definition key_chars (k : key) : list (list N) :=
  map (fun c => if c =? 88 then digits else [c]) (upper_ascii (key_str k)).

Definition expand_key (k : key) : list (option Z) := map py_int (product (key_chars k)).

(* list(_expand_responses(responses)): None = ValueError from int() *)
Fixpoint sequence {A} (l : list (option A)) : option (list A) :=
  match l with
  | [] => Some []
  | None :: _ => None
  | Some x :: r => option_map (cons x) (sequence r)
  end.
Definition all_codes (keys : list key) : option (list Z) := sequence (flat_map expand_key keys).

Definition zmem (z : Z) (l : list Z) : bool := existsb (Z.eqb z) l.
Definition is_default_key (k : key) : bool := match k with KStr s => str_eqb s s_default | KInt _ => false end.
(* checks.py:79 (since e29caab0): isinstance(code, str) and code.lower().startswith(x-) - a specification extension *)
Definition is_extension_key (k : key) : bool :=
  match k with KStr s => starts_with [120;45] (lower_ascii s) | KInt _ => false end.
(* the keys _expand_responses hands to expand_status_code *)
Definition status_keys (keys : list key) : list key := filter (fun k => negb (is_extension_key k)) keys.

(* ---------- documentation ---------- *)
Record sch := { s_id : N; s_truthy : bool }.
Record hdr := { h_name : str; h_required : bool; h_is_ref : bool; h_id : N }.
Record rbody := { r_content : list (str * option sch); r_schema20 : option sch; r_headers : list hdr }.
Inductive rdef := RInline (b : rbody) | RRef (name : str).
Record doc := {
  d_v30 : bool;
  d_responses : list (key * rdef);        (* the pairs the responses dict is built from *)
  d_components : list (str * rdef);       (* components/responses (3.x) or responses (2.0) *)
  d_produces_op : list str;
  d_produces_global : list str }.
Definition empty_body : rbody := {| r_content := []; r_schema20 := None; r_headers := [] |}.

Inductive body := BadUtf8 | NotJson | Json (did : N).
Record response := {
  status : N;
  rheaders : list (str * str);   (* Response.headers: lower-cased name, first value *)
  rbody_ : body }.

(* ---------- failures ---------- *)
Inductive fk :=
| FUndefinedStatus | FMissingCT | FMalformedMT | FUndefinedCT | FMissingHeaders | FHeaderSchema
| FMalformedJson | FBodySchema | FCrash.
Inductive exn := EValueError | EUnicodeDecode | EMalformedMediaType | ERefResolution.
Inductive outcome := Ok (l : list fk) | Crash (e : exn).

Definition fk_eqb (a b : fk) : bool :=
  match a, b with
  | FUndefinedStatus, FUndefinedStatus | FMissingCT, FMissingCT | FMalformedMT, FMalformedMT
  | FUndefinedCT, FUndefinedCT | FMissingHeaders, FMissingHeaders | FHeaderSchema, FHeaderSchema
  | FMalformedJson, FMalformedJson | FBodySchema, FBodySchema | FCrash, FCrash => true
  | _, _ => false
  end.
Definition all_fk : list fk :=
  [FUndefinedStatus; FMissingCT; FMalformedMT; FUndefinedCT; FMissingHeaders; FHeaderSchema; FMalformedJson; FBodySchema; FCrash].
Definition fk_mem (k : fk) (l : list fk) : bool := existsb (fk_eqb k) l.
(* the set of failures as a canonical list (run_checks collects a set) *)
Definition canon (l : list fk) : list fk := filter (fun k => fk_mem k l) all_fk.
Definition kinds (o : outcome) : list fk := match o with Ok l => l | Crash _ => [FCrash] end.

(* ---------- media_types.parse (core/media_types.py:37) ---------- *)
(* first field of _parseparam(; + line): up to the first ; that is at index 0 or
   has an even number of double quotes not preceded by a backslash before it *)
Fixpoint seg_scan (s : str) (first prev_bs odd : bool) (acc : str) : str :=
  match s with
  | [] => rev acc
  | c :: s' =>
      if (c =? 59) && (first || negb odd) then rev acc
      else seg_scan s' false (c =? 92) (if (c =? 34) && negb prev_bs then negb odd else odd) (c :: acc)
  end.
Definition first_segment (s : str) : str := seg_scan s true false false [].

Fixpoint split_once (sep : N) (s : str) (acc : str) : option (str * str) :=
  match s with
  | [] => None
  | c :: s' => if c =? sep then Some (rev acc, s') else split_once sep s' (c :: acc)
  end.

(* None = MalformedMediaType(ValueError) *)
Definition parse (s : str) : option (str * str) :=
  match split_once 47 (strip ws (first_segment s)) [] with
  | None => None
  | Some (m, sub) => Some (lower_ascii m, lower_ascii sub)
  end.

Definition is_json (p : str * str) : bool :=
  str_eqb (fst p) s_application && (str_eqb (snd p) s_json || ends_with s_plus_json (snd p)).

(* checks.py:109-114 *)
Definition media_match (e r : str * str) : bool :=
  (str_eqb (fst e) s_star && str_eqb (snd e) s_star)
  || (str_eqb (fst e) (fst r) && str_eqb (snd e) s_star)
  || (str_eqb (fst e) s_star && str_eqb (snd e) (snd r))
  || (str_eqb (fst e) (fst r) && str_eqb (snd e) (snd r)).

(* the loop of content_type_conformance (checks.py:100-121) *)
Fixpoint ct_loop (documented : list str) (ct : str) : list fk :=
  match documented with
  | [] => [FUndefinedCT]
  | o :: rest =>
      match parse o with
      | None => [FMalformedMT]
      | Some e =>
          match parse ct with
          | None => [FMalformedMT]
          | Some r => if media_match e r then [] else ct_loop rest ct
          end
      end
  end.

(* ---------- looking the response definition up ---------- *)
(* dict semantics: the last pair with an equal key wins *)
Definition lookup_by {A} (p : key -> bool) (l : list (key * A)) : option A :=
  fold_left (fun acc kv => if p (fst kv) then Some (snd kv) else acc) l None.
Definition raw_is (s : str) (k : key) : bool := match k with KStr t => str_eqb t s | KInt _ => false end.
Definition str_is (s : str) (k : key) : bool := str_eqb (key_str k) s.

(* _get_response_definitions (schemas.py:576): raw keys, exact then default *)
Definition lookup_raw (d : doc) (code : N) : option rdef :=
  match lookup_by (raw_is (dec code)) (d_responses d) with
  | Some x => Some x
  | None => lookup_by (raw_is s_default) (d_responses d)
  end.
(* validate_response (schemas.py:669): keys through str(), exact then default *)
Definition lookup_str (d : doc) (code : N) : option rdef :=
  match lookup_by (str_is (dec code)) (d_responses d) with
  | Some x => Some x
  | None => lookup_by (str_is s_default) (d_responses d)
  end.

Definition has_x (k : key) : bool := mem 88 (upper_ascii (key_str k)).
Definition key_matches (k : key) (code : N) : bool :=
  existsb (fun o => match o with Some z => Z.eqb z (Z.of_N code) | None => false end) (expand_key k).
(* as documented: exact, then a matching wildcard key, then default *)
Definition lookup_spec (d : doc) (code : N) : option rdef :=
  match lookup_by (str_is (dec code)) (d_responses d) with
  | Some x => Some x
  | None =>
      match find (fun kv => has_x (fst kv) && negb (is_default_key (fst kv)) && negb (is_extension_key (fst kv)) && key_matches (fst kv) code) (d_responses d) with
      | Some kv => Some (snd kv)
      | None => lookup_by (str_is s_default) (d_responses d)
      end
  end.

Inductive resolved := RBody (b : rbody) | RFail.
(* InliningResolver.resolve_in_scope (references.py:112): ONE step *)
Definition resolve_code (d : doc) (x : rdef) : resolved :=
  match x with
  | RInline b => RBody b
  | RRef n => match assoc_get n (d_components d) with
              | Some (RInline b) => RBody b
              | Some (RRef _) => RBody empty_body      (* a dict holding only $ref: every .get() misses *)
              | None => RFail
              end
  end.
(* as documented: follow the chain *)
Fixpoint resolve_fuel (fuel : nat) (comps : list (str * rdef)) (x : rdef) : resolved :=
  match x with
  | RInline b => RBody b
  | RRef n => match fuel with
              | O => RFail
              | S f => match assoc_get n comps with Some y => resolve_fuel f comps y | None => RFail end
              end
  end.
Definition resolve_spec (d : doc) (x : rdef) : resolved := resolve_fuel (S (length (d_components d))) (d_components d) x.

(* ---------- the checks over an already looked-up definition ---------- *)
Definition get_header (name : str) (r : response) : option str := assoc_get name (rheaders r).

Definition ct_check_on (documented : list str) (r : response) : outcome :=
  match documented with
  | [] => Ok []
  | _ => match get_header s_content_type r with
         | None => Ok [FMissingCT]
         | Some ct => Ok (ct_loop documented ct)
         end
  end.

(* mask = true: required is read from the unresolved header definition (checks.py:152) *)
Definition hdr_missing (mask : bool) (r : response) (h : hdr) : bool :=
  negb (assoc_mem (lower_ascii (h_name h)) (rheaders r)) && (h_required h && negb (mask && h_is_ref h)).
Definition hdr_invalid (hvalid : N -> str -> bool) (r : response) (h : hdr) : bool :=
  match get_header (lower_ascii (h_name h)) r with
  | Some v => negb (hvalid (h_id h) v)
  | None => false
  end.
Definition hdr_check_on (mask : bool) (hvalid : N -> str -> bool) (hs : list hdr) (r : response) : outcome :=
  Ok ((if existsb (hdr_missing mask r) hs then [FMissingHeaders] else [])
      ++ (if existsb (hdr_invalid hvalid r) hs then [FHeaderSchema] else [])).

(* validate_response from the schema on (schemas.py:680-720).
   strict = true is the code: a malformed received media type and an undecodable body escape as exceptions *)
Definition schema_check_on (strict : bool) (valid : N -> N -> bool) (os : option sch) (r : response) : outcome :=
  match os with
  | None => Ok []
  | Some s =>
      if negb (s_truthy s) then Ok [] else
      let finish (pre : list fk) :=
        match rbody_ r with
        | BadUtf8 => if strict then Crash EUnicodeDecode else Ok (pre ++ [FMalformedJson])
        | NotJson => Ok (pre ++ [FMalformedJson])
        | Json did => if valid (s_id s) did then Ok pre else Ok (pre ++ [FBodySchema])
        end in
      match get_header s_content_type r with
      | None => finish [FMissingCT]
      | Some [] => finish []
      | Some ct =>
          match parse ct with
          | None => if strict then Crash EMalformedMediaType else Ok []
          | Some p => if is_json p then finish [] else Ok []
          end
      end
  end.

(* ---------- the checks as coded ---------- *)
(* status_code_conformance (checks.py:54) with _expand_responses (checks.py:77) as of e29caab0 *)
Definition status_check (d : doc) (r : response) : outcome :=
  let keys := map fst (d_responses d) in
  if existsb is_default_key keys then Ok []
  else match all_codes (status_keys keys) with
       | None => Crash EValueError
       | Some codes => if zmem (Z.of_N (status r)) codes then Ok [] else Ok [FUndefinedStatus]
       end.

(* SENTINEL, not the code any more: status_code_conformance before e29caab0 expanded every key,
   specification extensions included (finding C04-F4, fixed) *)
Definition status_check_before_e29caab0 (d : doc) (r : response) : outcome :=
  let keys := map fst (d_responses d) in
  if existsb is_default_key keys then Ok []
  else match all_codes keys with
       | None => Crash EValueError
       | Some codes => if zmem (Z.of_N (status r)) codes then Ok [] else Ok [FUndefinedStatus]
       end.

Definition produces (d : doc) : list str :=
  match d_produces_op d with [] => d_produces_global d | l => l end.

(* content_type_conformance (checks.py:83) + get_content_types (schemas.py:1001, 1166) *)
Definition content_type_check (d : doc) (r : response) : outcome :=
  if d_v30 d then
    match lookup_raw d (status r) with
    | None => Ok []
    | Some x => match resolve_code d x with
                | RFail => Crash ERefResolution
                | RBody b => ct_check_on (map fst (r_content b)) r
                end
    end
  else ct_check_on (produces d) r.

(* response_headers_conformance (checks.py:134) + get_headers (schemas.py:591) *)
Definition headers_check (hvalid : N -> str -> bool) (d : doc) (r : response) : outcome :=
  match lookup_raw d (status r) with
  | None => Ok []
  | Some x => match resolve_code d x with
              | RFail => Crash ERefResolution
              | RBody b => hdr_check_on true hvalid (r_headers b) r
              end
  end.

(* get_response_schema: 2.0 takes schema (schemas.py:990), 3.x the FIRST media type (schemas.py:1149) *)
Definition first_schema (v30 : bool) (b : rbody) : option sch :=
  if v30 then match r_content b with [] => None | (_, s) :: _ => s end else r_schema20 b.

(* response_schema_conformance (checks.py:217) = validate_response (schemas.py:669) *)
Definition schema_check (valid : N -> N -> bool) (d : doc) (r : response) : outcome :=
  match lookup_str d (status r) with
  | None => Ok []
  | Some x => match resolve_code d x with
              | RFail => Crash ERefResolution
              | RBody b => schema_check_on true valid (first_schema (d_v30 d) b) r
              end
  end.

Definition verdict (valid : N -> N -> bool) (hvalid : N -> str -> bool) (d : doc) (r : response) : list fk :=
  canon (kinds (status_check d r) ++ kinds (content_type_check d r)
         ++ kinds (headers_check hvalid d r) ++ kinds (schema_check valid d r)).

(* ---------- the checks as documented ---------- *)
(* specification extensions and keys that do not read as integers are not status codes *)
Definition spec_status_check (d : doc) (r : response) : outcome :=
  let keys := map fst (d_responses d) in
  if existsb is_default_key keys then Ok []
  else if existsb (fun k => key_matches k (status r)) (status_keys keys) then Ok [] else Ok [FUndefinedStatus].

Definition spec_def (d : doc) (r : response) : option rbody :=
  match lookup_spec d (status r) with
  | None => None
  | Some x => match resolve_spec d x with RBody b => Some b | RFail => None end
  end.

Definition spec_content_type_check (d : doc) (r : response) : outcome :=
  if d_v30 d then
    match spec_def d r with None => Ok [] | Some b => ct_check_on (map fst (r_content b)) r end
  else ct_check_on (produces d) r.

Definition spec_headers_check (hvalid : N -> str -> bool) (d : doc) (r : response) : outcome :=
  match spec_def d r with None => Ok [] | Some b => hdr_check_on false hvalid (r_headers b) r end.

(* the schema documented for the received media type; without a Content-Type, the first one *)
Definition matching_schema (v30 : bool) (b : rbody) (r : response) : option sch :=
  if v30 then
    match get_header s_content_type r with
    | None => first_schema true b
    | Some ct =>
        match parse ct with
        | None => None
        | Some p =>
            match find (fun e => match parse (fst e) with Some q => media_match q p | None => false end) (r_content b) with
            | Some e => snd e
            | None => None
            end
        end
    end
  else r_schema20 b.

Definition spec_schema_check (valid : N -> N -> bool) (d : doc) (r : response) : outcome :=
  match spec_def d r with
  | None => Ok []
  | Some b => schema_check_on false valid (matching_schema (d_v30 d) b r) r
  end.

Definition spec_verdict (valid : N -> N -> bool) (hvalid : N -> str -> bool) (d : doc) (r : response) : list fk :=
  canon (kinds (spec_status_check d r) ++ kinds (spec_content_type_check d r)
         ++ kinds (spec_headers_check hvalid d r) ++ kinds (spec_schema_check valid d r)).

(* ---------- regions (executable) ---------- *)
Definition all_defs (d : doc) : list rdef := map snd (d_responses d) ++ map snd (d_components d).
Definition def_ok (p : rbody -> bool) (x : rdef) : bool := match x with RInline b => p b | RRef _ => true end.

(* F1: no key other than default and specification extensions is a wildcard *)
Definition no_wildcard_keys (d : doc) : bool :=
  forallb (fun k => is_default_key k || is_extension_key k || negb (has_x k)) (map fst (d_responses d)).
(* F2: at most one media type per response *)
Definition single_media_type (d : doc) : bool :=
  forallb (def_ok (fun b => (length (r_content b) <=? 1)%nat)) (all_defs d).
(* F3: keys are strings *)
Definition no_int_keys (d : doc) : bool :=
  forallb (fun k => match k with KStr _ => true | KInt _ => false end) (map fst (d_responses d)).
(* F4b: every key is default, a specification extension, or expands to integers *)
Definition keys_parse (d : doc) : bool :=
  forallb (fun k => is_default_key k || forallb (fun o => match o with Some _ => true | None => false end) (expand_key k))
          (status_keys (map fst (d_responses d))).
(* F5: referenced responses are inline and exist *)
Definition flat_refs (d : doc) : bool :=
  forallb (fun kv => match snd kv with RInline _ => true | RRef _ => false end) (d_components d)
  && forallb (fun x => match x with RInline _ => true | RRef n => assoc_mem n (d_components d) end) (map snd (d_responses d)).
(* F6: header definitions are inline *)
Definition no_header_refs (d : doc) : bool :=
  forallb (def_ok (fun b => forallb (fun h => negb (h_is_ref h)) (r_headers b))) (all_defs d).
(* F7: the body decodes as UTF-8 *)
Definition body_decodes (r : response) : bool := match rbody_ r with BadUtf8 => false | _ => true end.
(* F8: the received Content-Type, when present and non-empty, is well formed *)
Definition ct_wellformed (r : response) : bool :=
  match get_header s_content_type r with
  | None => true
  | Some [] => true
  | Some ct => match parse ct with Some _ => true | None => false end
  end.
(* the Content-Type check as documented has nothing to report but a missing header *)
Definition ct_conforms (d : doc) (r : response) : bool :=
  match spec_content_type_check d r with
  | Ok [] => true
  | Ok [FMissingCT] => true
  | _ => false
  end.
Definition nonempty_ct (r : response) : bool :=
  match get_header s_content_type r with Some [] => false | _ => true end.

(* ---------- integer keys, check by check ----------
   status_code_conformance and validate_response read every key through str(), get_content_types and
   get_headers (through _get_response_definitions) compare the RAW keys.  The two checks below are NOT the
   code: they are content_type_conformance / response_headers_conformance with the lookup validate_response
   uses, and only serve to say where the raw lookup changes an outcome. *)
Definition content_type_check_str (d : doc) (r : response) : outcome :=
  if d_v30 d then
    match lookup_str d (status r) with
    | None => Ok []
    | Some x => match resolve_code d x with
                | RFail => Crash ERefResolution
                | RBody b => ct_check_on (map fst (r_content b)) r
                end
    end
  else ct_check_on (produces d) r.
Definition headers_check_str (hvalid : N -> str -> bool) (d : doc) (r : response) : outcome :=
  match lookup_str d (status r) with
  | None => Ok []
  | Some x => match resolve_code d x with
              | RFail => Crash ERefResolution
              | RBody b => hdr_check_on true hvalid (r_headers b) r
              end
  end.
Fixpoint fks_eqb (a b : list fk) : bool :=
  match a, b with
  | [], [] => true
  | x :: a', y :: b' => fk_eqb x y && fks_eqb a' b'
  | _, _ => false
  end.
Definition exn_eqb (a b : exn) : bool :=
  match a, b with
  | EValueError, EValueError | EUnicodeDecode, EUnicodeDecode
  | EMalformedMediaType, EMalformedMediaType | ERefResolution, ERefResolution => true
  | _, _ => false
  end.
Definition outcome_eqb (a b : outcome) : bool :=
  match a, b with
  | Ok x, Ok y => fks_eqb x y
  | Crash x, Crash y => exn_eqb x y
  | _, _ => false
  end.
(* F3, per (document, response): the raw lookup of get_content_types / get_headers changes neither of the two
   outcomes that depend on it.  Holds for every document without integer keys; with integer keys it holds e.g.
   when the received media type and headers are fine either way - the body schema check is then fully specified *)
Definition int_keys_immaterial (hvalid : N -> str -> bool) (d : doc) (r : response) : bool :=
  outcome_eqb (content_type_check d r) (content_type_check_str d r)
  && outcome_eqb (headers_check hvalid d r) (headers_check_str hvalid d r).

(* ---------- writeOnly rewrite, and the loaded API schema as state ----------
   Object schemas at the level the rewrite works on: property names with their
   writeOnly / x-writeOnly flag, and the required list. *)
Record oschema := { o_props : list (str * bool); o_required : list str }.
Record jschema := { j_props : list str; j_required : list str; j_forbidden : list str }.

Fixpoint remove_first (x : str) (l : list str) : list str :=
  match l with
  | [] => []
  | y :: r => if str_eqb x y then r else y :: remove_first x r
  end.
Definition wo_names (s : oschema) : list str := map fst (filter snd (o_props s)).

(* converter.to_json_schema on the object schema of a response (converter.py:11-42) with
   rewrite_properties / forbid_properties (converter.py:57-80): the JSON Schema handed to the
   validator, and the schema object of the caller AFTER the call - the rewrite works on a deepclone,
   so the loaded document is left as it was *)
Definition to_json_schema_obj (s : oschema) : jschema * oschema :=
  ({| j_props := map fst (filter (fun p => negb (snd p)) (o_props s));
      j_required := fold_left (fun req n => remove_first n req) (wo_names s) (o_required s);
      j_forbidden := wo_names s |}, s).

(* Draft 4 on property presence: required, and not {required: forbidden} *)
Definition has (present : list str) (n : str) : bool := existsb (str_eqb n) present.
Definition jvalid (j : jschema) (present : list str) : bool :=
  forallb (has present) (j_required j)
  && match j_forbidden j with [] => true | f => negb (forallb (has present) f) end.

(* as documented: a writeOnly property does not occur in a response and is not required of it *)
Definition is_wo (s : oschema) (n : str) : bool := existsb (str_eqb n) (wo_names s).
Definition ovalid (s : oschema) (present : list str) : bool :=
  forallb (fun n => negb (has present n)) (wo_names s)
  && forallb (fun n => is_wo s n || has present n) (o_required s).

(* F9 *)
Definition single_writeonly (s : oschema) : bool := (length (wo_names s) <=? 1)%nat.
Fixpoint nodupb (l : list str) : bool :=
  match l with [] => true | x :: r => negb (existsb (str_eqb x) r) && nodupb r end.

(* the object schemas held by the loaded API schema, by schema id *)
Definition store := list (N * oschema).
Fixpoint store_get (sid : N) (st : store) : option oschema :=
  match st with
  | [] => None
  | (k, s) :: r => if k =? sid then Some s else store_get sid r
  end.
(* inst did: the object instances of body did that the schema applies to (one for an object,
   the items for an array of objects, ...), each as the list of its property names *)
Definition valid_st (st : store) (inst : N -> list (list str)) (sid did : N) : bool :=
  match store_get sid st with
  | Some s => forallb (jvalid (fst (to_json_schema_obj s))) (inst did)
  | None => true
  end.
(* what a validation leaves behind: every schema it converted *)
Definition touch (st : store) : store := map (fun kv => (fst kv, snd (to_json_schema_obj (snd kv)))) st.
Definition verdict_st (hvalid : N -> str -> bool) (inst : N -> list (list str)) (d : doc) (st : store) (r : response)
  : list fk * store := (verdict (valid_st st inst) hvalid d r, touch st).
(* validations one after another on ONE loaded schema *)
Fixpoint verdict_seq (hvalid : N -> str -> bool) (inst : N -> list (list str)) (d : doc) (st : store) (rs : list response)
  : list (list fk) :=
  match rs with
  | [] => []
  | r :: rs' => let p := verdict_st hvalid inst d st r in fst p :: verdict_seq hvalid inst d (snd p) rs'
  end.

(* ---------- _coerce_header_value (checks.py:197-216) on header TEXT ---------- *)
(* int() strips what Py_ISSPACE / Py_UNICODE_ISSPACE accept AFTER _PyUnicode_TransformDecimalAndSpaceToASCII:
   str.isspace code points except 28..31 (ASCII code points are copied unchanged and Py_ISSPACE rejects them) *)
Definition int_ws : list N :=
  [9;10;11;12;13;32;133;160;5760;8192;8193;8194;8195;8196;8197;8198;8199;8200;8201;8202;8232;8233;8239;8287;12288].
(* the code points with unicodedata.decimal = 0 (Unicode 15.0.0); each starts a run of ten decimal digits.
   Tied to unicodedata of the running interpreter on every run *)
Definition nd_zeros : list N :=
  [48;1632;1776;1984;2406;2534;2662;2790;2918;3046;3174;3302;3430;3558;3664;3792;3872;4160;4240;6112;6160;6470;6608;
   6784;6800;6992;7088;7232;7248;42528;43216;43264;43472;43504;43600;44016;65296;66720;68912;69734;69872;69942;70096;
   70384;70736;70864;71248;71360;71472;71904;72016;72784;73040;73120;73552;92768;92864;93008;120782;120792;120802;
   120812;120822;123200;123632;124144;125264;130032].
Fixpoint decimal_in (zs : list N) (c : N) : option N :=
  match zs with
  | [] => None
  | z :: r => if (z <=? c) && (c <=? z + 9) then Some (c - z) else decimal_in r c
  end.
(* Py_UNICODE_TODECIMAL *)
Definition decimal_of (c : N) : option N := decimal_in nd_zeros c.

(* base 10 digits of PyLong_FromString: decimal digits with single underscores between them *)
Fixpoint udigits_val (s : str) (acc : N) (prev_digit : bool) : option N :=
  match s with
  | [] => if prev_digit then Some acc else None
  | c :: s' =>
      match decimal_of c with
      | Some d => udigits_val s' (acc * 10 + d) true
      | None => if (c =? 95) && prev_digit then udigits_val s' acc false else None
      end
  end.

(* int(text) for any text; None = ValueError.  EXACT: the value is an unbounded Z *)
Definition py_int_u (s : str) : option Z :=
  match strip int_ws s with
  | [] => None
  | c :: r =>
      if c =? 43 then option_map Z.of_N (udigits_val r 0 false)
      else if c =? 45 then option_map (fun n => Z.opp (Z.of_N n)) (udigits_val r 0 false)
      else option_map Z.of_N (udigits_val (c :: r) 0 false)
  end.

Inductive htype := TString | TInteger | TNumber | TBoolean | TNull | TArray | TOther.
(* HFloatOfInt z: the float equal to the integer z; HFloatOpaque: float() is not modelled for this text
   (either a float that the model does not compute, or the unchanged text) *)
Inductive hval := HStr (s : str) | HInt (z : Z) | HBool (b : bool) | HNull | HFloatOfInt (z : Z) | HFloatOpaque.

Definition s_null : str := [110;117;108;108].
Definition bool_true_words : list str :=
  [[121]; [121;101;115]; [116]; [116;114;117;101]; [111;110]; [49]].
Definition bool_false_words : list str :=
  [[110]; [110;111]; [102]; [102;97;108;115;101]; [111;102;102]; [48]].
(* core/__init__.py:59 string_to_boolean *)
Definition string_to_boolean (v : str) : hval :=
  if existsb (str_eqb (lower_ascii v)) bool_true_words then HBool true
  else if existsb (str_eqb (lower_ascii v)) bool_false_words then HBool false
  else HStr v.

Definition two53 : Z := 9007199254740992%Z.
Definition coerce_header (t : htype) (v : str) : hval :=
  match t with
  | TString => HStr v
  | TInteger => match py_int_u v with Some z => HInt z | None => HStr v end
  | TNumber => match py_int_u v with
               | Some z => if (Z.abs z <=? two53)%Z then HFloatOfInt z else HFloatOpaque
               | None => HFloatOpaque
               end
  | TNull => if str_eqb (lower_ascii v) s_null then HNull else HStr v
  | TBoolean => string_to_boolean v
  | TArray | TOther => HStr v
  end.

(* jsonschema on the coerced value of a header documented {type: integer, minimum: lo, maximum: hi}:
   a str / bool / None is not an integer; bounds are compared on exact integers *)
Definition in_bounds (lo hi : option Z) (z : Z) : bool :=
  (match lo with Some l => (l <=? z)%Z | None => true end) && (match hi with Some h => (z <=? h)%Z | None => true end).
Definition int_value_conforms (lo hi : option Z) (v : hval) : bool :=
  match v with HInt z => in_bounds lo hi z | _ => false end.
Definition hdr_int_conforms (lo hi : option Z) (text : str) : bool :=
  int_value_conforms lo hi (coerce_header TInteger text).

(* SENTINEL, not the code: an integer header read through float() (one merged integer / number branch):
   nearest double of an integer, ties to even, and the fragment  int [. zeros] [e nonnegative-int]  of the float() grammar *)
Definition round53 (z : Z) : Z :=
  let a := Z.abs z in
  if (a <? two53)%Z then z else
  let e := (Z.log2 a - 52)%Z in
  let q := (a / 2 ^ e)%Z in
  let r := (a mod 2 ^ e)%Z in
  let half := (2 ^ (e - 1))%Z in
  let q' := if (half <? r)%Z || ((r =? half)%Z && Z.odd q) then (q + 1)%Z else q in
  (Z.sgn z * (q' * 2 ^ e))%Z.
Definition sentinel_float_int (v : str) : option Z :=
  let me := match split_once 101 v [] with Some (a, b) => (a, py_int_u b) | None => (v, Some 0%Z) end in
  let pf := match split_once 46 (fst me) [] with Some (a, b) => (a, b) | None => (fst me, []) end in
  match py_int_u (fst pf), snd me with
  | Some z, Some k => if (0 <=? k)%Z && forallb (N.eqb 48) (snd pf) then Some (round53 (z * 10 ^ k)) else None
  | _, _ => None
  end.
Definition coerce_int_through_float (v : str) : hval :=
  match sentinel_float_int v with Some z => HInt z | None => HStr v end.
Definition hdr_int_conforms_through_float (lo hi : option Z) (text : str) : bool :=
  int_value_conforms lo hi (coerce_int_through_float text).
