(* C04 property theorems.  valid / hvalid (python-jsonschema on the converted schema, header coercion +
   validation) are universally quantified. *)
From Coq Require Import List NArith ZArith Bool.
From Verif Require Import Common.Str Common.Json Common.Lists C04.Model_C04 C04.Proofs_C04.
Import ListNotations.
Open Scope N_scope.

(* skeys d: the response keys that are not specification extensions (x-...).
   status_code_conformance reports an undocumented status code exactly when there is no
   default key, every such key reads as integers after replacing X/x by digits, and no key has a
   digit instance equal to the code (string or integer keys, any number of wildcards) *)
Theorem C04_status_iff : forall d r,
  status_check d r = Ok [FUndefinedStatus] <->
  (~ In (KStr s_default) (keys_of d)
   /\ (forall k e, In k (skeys d) -> key_expansion k e -> py_int e <> None)
   /\ (forall k, In k (skeys d) -> ~ code_matches k (status r))).
Proof.
  intros d r. destruct (status_check_cases d r) as [Hd | k e Hd Hk He Hn | k Hd Hr Hk Hm | Hd Hr Hm].
  - split; [discriminate | tauto].
  - split; [discriminate | intros [_ [H _]]; destruct (H k e Hk He Hn)].
  - split; [discriminate | intros [_ [_ H]]; destruct (H k Hk Hm)].
  - tauto.
Qed.
Print Assumptions C04_status_iff.

(* ... and it raises ValueError exactly when there is no default and some key does not read as integers *)
Theorem C04_status_raises_iff : forall d r,
  status_check d r = Crash EValueError <->
  (~ In (KStr s_default) (keys_of d) /\ exists k e, In k (skeys d) /\ key_expansion k e /\ py_int e = None).
Proof.
  intros d r. destruct (status_check_cases d r) as [Hd | k e Hd Hk He Hn | k Hd Hr Hk Hm | Hd Hr Hm].
  - split; [discriminate | tauto].
  - split; [|reflexivity]. intros _. split; [exact Hd | exists k, e; auto].
  - split; [discriminate | intros [_ [k' [e [Hk' [He Hn]]]]]; destruct (Hr k' e Hk' He Hn)].
  - split; [discriminate | intros [_ [k' [e [Hk' [He Hn]]]]]; destruct (Hr k' e Hk' He Hn)].
Qed.
Print Assumptions C04_status_raises_iff.

(* 2XX matches 204, lower-case x too, and not 404; an integer key matches its code *)
Theorem C04_status_examples :
  code_matches (KStr [50;88;88]) 204 /\ code_matches (KStr [50;120;120]) 299 /\ code_matches (KInt 200) 200
  /\ status_check (doc30 [(KStr [50;88;88], RInline no_body)] []) (resp 404 None NotJson) = Ok [FUndefinedStatus]
  /\ status_check (doc30 [(KStr [50;120;120], RInline no_body)] []) (resp 204 None NotJson) = Ok [].
Proof.
  (* apply conj, not split: split closes an equation by unification, which evaluates it outside the VM *)
  repeat apply conj; [| | | vm_compute; reflexivity ..].
  - exists [50;48;52]. split; [apply expandsb_sound|]; reflexivity.
  - exists [50;57;57]. split; [apply expandsb_sound|]; reflexivity.
  - exists [50;48;48]. split; [apply expandsb_sound|]; reflexivity.
Qed.
Print Assumptions C04_status_examples.

(* the loop of content_type_conformance over well-formed media types: UndefinedContentType exactly when
   no documented type matches the received one, a pass exactly when one does *)
Theorem C04_content_type_iff : forall docs ct p,
  parse ct = Some p -> forallb (fun o => match parse o with Some _ => true | None => false end) docs = true ->
  (ct_loop docs ct = [FUndefinedCT] <-> forall o q, In o docs -> parse o = Some q -> media_match q p = false)
  /\ (ct_loop docs ct = [] <-> exists o q, In o docs /\ parse o = Some q /\ media_match q p = true).
Proof.
  intros docs ct p Hp. induction docs as [|o rest IH]; intros Hall; cbn [ct_loop].
  - split; split; try discriminate; try reflexivity.
    + intros _ o q [].
    + intros [o [q [[] _]]].
  - cbn in Hall. apply andb_true_iff in Hall. destruct Hall as [Ho Hrest].
    destruct (parse o) as [e|] eqn:Eo; [|discriminate]. rewrite Hp.
    specialize (IH Hrest). destruct IH as [IH1 IH2].
    destruct (media_match e p) eqn:Em.
    + split; split.
      * discriminate.
      * intros H. specialize (H o e (or_introl eq_refl) Eo). congruence.
      * intros _. exists o, e. split; [left; reflexivity | auto].
      * reflexivity.
    + split; split.
      * intros H o' q [<-|Hin] Hq; [congruence | apply (proj1 IH1 H o' q Hin Hq)].
      * intros H. apply IH1. intros o' q Hin Hq. apply (H o' q (or_intror Hin) Hq).
      * intros H. apply IH2 in H. destruct H as [o' [q [Hin Hq]]]. exists o', q. split; [right; exact Hin | exact Hq].
      * intros [o' [q [[<-|Hin] [Hq Hm]]]]; [congruence | apply IH2; exists o', q; auto].
Qed.
Print Assumptions C04_content_type_iff.

(* media_types.parse: a type is read without its parameters, and lower-cased *)
Theorem C04_parse_ignores_parameters : forall s rest,
  mem 59 s = false -> mem 34 s = false -> parse (s ++ 59 :: rest) = parse s.
Proof.
  intros s rest H1 H2. unfold parse, first_segment. rewrite seg_scan_plain by assumption. reflexivity.
Qed.
Print Assumptions C04_parse_ignores_parameters.

Theorem C04_parse_lowercase : forall s m sub, parse s = Some (m, sub) -> lower_ascii m = m /\ lower_ascii sub = sub.
Proof.
  intros s m sub. unfold parse. destruct (split_once 47 (strip ws (first_segment s)) []) as [[a b]|]; [|discriminate].
  intros H. inversion H. split; apply lower_ascii_idem.
Qed.
Print Assumptions C04_parse_lowercase.

(* Documents may come as Python dicts with integer keys.  Inside the regions the body schema check agrees with the
   documentation whatever the type of the keys (the lookup of validate_response goes through str()) *)
Theorem C04_schema_check_any_keys_partial : forall valid d r,
  no_wildcard_keys d = true -> single_media_type d = true -> flat_refs d = true ->
  body_decodes r = true -> ct_wellformed r = true -> ct_conforms d r = true ->
  schema_check valid d r = spec_schema_check valid d r.
Proof. exact schema_agree_any_keys. Qed.
Print Assumptions C04_schema_check_any_keys_partial.

(* inside the eight regions (the third in its per-response form: the raw-key lookup of get_content_types / get_headers
   changes neither of their two outcomes) and when the content type check has nothing but a missing header to report,
   the set of failure kinds the four checks report is the set the documentation calls for.  ct_conforms is needed:
   with an undocumented content type the code still validates the body against the first media type *)
Theorem C04_verdict_eq_spec_int_keys_partial : forall valid hvalid d r,
  no_wildcard_keys d = true -> single_media_type d = true -> int_keys_immaterial hvalid d r = true -> keys_parse d = true ->
  flat_refs d = true -> no_header_refs d = true -> body_decodes r = true -> ct_wellformed r = true ->
  ct_conforms d r = true ->
  verdict valid hvalid d r = spec_verdict valid hvalid d r.
Proof. exact verdict_eq_spec_int_keys. Qed.
Print Assumptions C04_verdict_eq_spec_int_keys_partial.

(* the property as worded, inside the eight regions: a failure is reported exactly when the response deviates
   (that no check raises there is C04_no_check_raises_partial) *)
Theorem C04_fails_iff_spec_int_keys_partial : forall valid hvalid d r,
  no_wildcard_keys d = true -> single_media_type d = true -> int_keys_immaterial hvalid d r = true -> keys_parse d = true ->
  flat_refs d = true -> no_header_refs d = true -> body_decodes r = true -> ct_wellformed r = true ->
  (verdict valid hvalid d r = [] <-> spec_verdict valid hvalid d r = []).
Proof. exact fails_iff_spec_int_keys. Qed.
Print Assumptions C04_fails_iff_spec_int_keys_partial.

(* every document without integer keys satisfies the per-response hypothesis: hence the same two theorems under no_int_keys *)
Theorem C04_int_keys_immaterial_covers : forall hvalid d r, no_int_keys d = true -> int_keys_immaterial hvalid d r = true.
Proof. exact immaterial_of_no_int_keys. Qed.
Print Assumptions C04_int_keys_immaterial_covers.

Theorem C04_verdict_eq_spec_partial : forall valid hvalid d r,
  no_wildcard_keys d = true -> single_media_type d = true -> no_int_keys d = true -> keys_parse d = true ->
  flat_refs d = true -> no_header_refs d = true -> body_decodes r = true -> ct_wellformed r = true ->
  ct_conforms d r = true ->
  verdict valid hvalid d r = spec_verdict valid hvalid d r.
Proof.
  intros valid hvalid d r Hw Hs Hi.
  exact (C04_verdict_eq_spec_int_keys_partial valid hvalid d r Hw Hs (C04_int_keys_immaterial_covers hvalid d r Hi)).
Qed.
Print Assumptions C04_verdict_eq_spec_partial.

Theorem C04_fails_iff_spec_partial : forall valid hvalid d r,
  no_wildcard_keys d = true -> single_media_type d = true -> no_int_keys d = true -> keys_parse d = true ->
  flat_refs d = true -> no_header_refs d = true -> body_decodes r = true -> ct_wellformed r = true ->
  (verdict valid hvalid d r = [] <-> spec_verdict valid hvalid d r = []).
Proof.
  intros valid hvalid d r Hw Hs Hi.
  exact (C04_fails_iff_spec_int_keys_partial valid hvalid d r Hw Hs (C04_int_keys_immaterial_covers hvalid d r Hi)).
Qed.
Print Assumptions C04_fails_iff_spec_partial.

(* the hypotheses of the partial theorems hold of a non-trivial input (referenced response, default,
   required header, upper-case media type with a parameter) on which both verdicts are non-empty *)
Theorem C04_hypotheses_satisfiable : exists d r,
  region_flags d r = [true; true; true; true; true; true; true; true] /\ ct_conforms d r = true
  /\ verdict none_valid hnone d r = [FMissingHeaders; FBodySchema]
  /\ spec_verdict none_valid hnone d r = [FMissingHeaders; FBodySchema]
  /\ verdict (only_valid 0) hnone d (resp 200 None (Json 0)) = [].
Proof. exists d_nv, r_nv. vm_compute. repeat split. Qed.
Print Assumptions C04_hypotheses_satisfiable.

(* the per-response hypothesis is strictly weaker than no_int_keys: with the key 200 written as an integer a violating
   JSON body is reported (3.0 and 2.0), a body conforming to 200 is not judged by default; the F3 witness itself is outside *)
Theorem C04_int_key_body_examples :
  int_keys_immaterial hnone d_f3 r_f3 = false
  /\ no_int_keys d_f3 = false /\ int_keys_immaterial hnone d_f3 r_f3_json = true
  /\ verdict none_valid hnone d_f3 r_f3_json = [FBodySchema] /\ spec_verdict none_valid hnone d_f3 r_f3_json = [FBodySchema]
  /\ int_keys_immaterial hnone d_f3_default r_f3_json = true
  /\ verdict (only_valid 0) hnone d_f3_default r_f3_json = [] /\ verdict (only_valid 1) hnone d_f3_default r_f3_json = [FBodySchema]
  /\ int_keys_immaterial hnone d_f3_20 r_f3_json = true
  /\ verdict none_valid hnone d_f3_20 r_f3_json = [FBodySchema] /\ spec_verdict none_valid hnone d_f3_20 r_f3_json = [FBodySchema].
Proof. vm_compute. repeat split. Qed.
Print Assumptions C04_int_key_body_examples.

Theorem C04_no_check_raises_partial : forall valid hvalid d r,
  no_wildcard_keys d = true -> no_int_keys d = true -> keys_parse d = true ->
  flat_refs d = true -> body_decodes r = true -> ct_wellformed r = true ->
  ~ In FCrash (verdict valid hvalid d r).
Proof. intros. apply verdict_no_crash; assumption. Qed.
Print Assumptions C04_no_check_raises_partial.

Theorem C04_spec_never_raises : forall valid hvalid d r, ~ In FCrash (spec_verdict valid hvalid d r).
Proof.
  intros v hv d r. apply no_crash_canon.
  - apply spec_status_no_crash.
  - unfold spec_content_type_check. destruct (d_v30 d); [destruct (spec_def d r); [|intros []]|]; apply ct_check_on_no_crash.
  - unfold spec_headers_check. destruct (spec_def d r); [apply hdr_check_on_no_crash | intros []].
  - unfold spec_schema_check. destruct (spec_def d r); [apply schema_check_on_no_crash | intros []].
Qed.
Print Assumptions C04_spec_never_raises.

(* outside the regions the equality is false of the code: a witness for each region with the other seven flags true
   (the second media type witness, on the same input, states the verdicts only).  ct_conforms holds of all of them
   but the int_key and malformed_ct ones *)
Theorem C04_verdict_eq_spec_refuted_wildcard : exists valid hvalid d r,
  region_flags d r = [false; true; true; true; true; true; true; true]
  /\ verdict valid hvalid d r = [] /\ spec_verdict valid hvalid d r = [FBodySchema].
Proof.
  exists none_valid, hnone, d_f1, r_f1.
  (* the hundred instances of 4XX are read once, for keys_parse; status_agree then spares the status check the same sweep *)
  assert (Hk : keys_parse d_f1 = true) by (vm_compute; reflexivity).
  unfold region_flags, verdict. rewrite (status_agree d_f1 r_f1 Hk), Hk. vm_compute. repeat split.
Qed.
Print Assumptions C04_verdict_eq_spec_refuted_wildcard.

Theorem C04_verdict_eq_spec_refuted_media_type : exists valid hvalid d r,
  region_flags d r = [true; false; true; true; true; true; true; true]
  /\ verdict valid hvalid d r = [FBodySchema] /\ spec_verdict valid hvalid d r = [].
Proof. exists (only_valid 1), hnone, d_f2, r_f2. vm_compute. repeat split. Qed.
Print Assumptions C04_verdict_eq_spec_refuted_media_type.

Theorem C04_verdict_eq_spec_refuted_media_type_miss : exists valid hvalid d r,
  verdict valid hvalid d r = [] /\ spec_verdict valid hvalid d r = [FBodySchema].
Proof. exists (only_valid 0), hnone, d_f2, r_f2. vm_compute. repeat split. Qed.
Print Assumptions C04_verdict_eq_spec_refuted_media_type_miss.

Theorem C04_verdict_eq_spec_refuted_int_key : exists valid hvalid d r,
  region_flags d r = [true; true; false; true; true; true; true; true]
  /\ verdict valid hvalid d r = [] /\ spec_verdict valid hvalid d r = [FUndefinedCT].
Proof. exists none_valid, hnone, d_f3, r_f3. vm_compute. repeat split. Qed.
Print Assumptions C04_verdict_eq_spec_refuted_int_key.

Theorem C04_verdict_eq_spec_refuted_non_numeric_key : exists valid hvalid d r,
  region_flags d r = [true; true; true; false; true; true; true; true]
  /\ status_check d r = Crash EValueError
  /\ verdict valid hvalid d r = [FCrash] /\ spec_verdict valid hvalid d r = [].
Proof. exists none_valid, hnone, d_f4b, r_bare. vm_compute. repeat split. Qed.
Print Assumptions C04_verdict_eq_spec_refuted_non_numeric_key.

Theorem C04_verdict_eq_spec_refuted_ref_chain : exists valid hvalid d r,
  region_flags d r = [true; true; true; true; false; true; true; true]
  /\ verdict valid hvalid d r = [] /\ spec_verdict valid hvalid d r = [FBodySchema].
Proof. exists none_valid, hnone, d_f5, r_f3_json. vm_compute. repeat split. Qed.
Print Assumptions C04_verdict_eq_spec_refuted_ref_chain.

Theorem C04_verdict_eq_spec_refuted_header_ref : exists valid hvalid d r,
  region_flags d r = [true; true; true; true; true; false; true; true]
  /\ verdict valid hvalid d r = [] /\ spec_verdict valid hvalid d r = [FMissingHeaders].
Proof. exists none_valid, hnone, d_f6, r_bare. vm_compute. repeat split. Qed.
Print Assumptions C04_verdict_eq_spec_refuted_header_ref.

Theorem C04_verdict_eq_spec_refuted_bad_utf8 : exists valid hvalid d r,
  region_flags d r = [true; true; true; true; true; true; false; true]
  /\ schema_check valid d r = Crash EUnicodeDecode
  /\ verdict valid hvalid d r = [FCrash] /\ spec_verdict valid hvalid d r = [FMalformedJson].
Proof. exists none_valid, hnone, d_hist, r_f7. vm_compute. repeat split. Qed.
Print Assumptions C04_verdict_eq_spec_refuted_bad_utf8.

Theorem C04_verdict_eq_spec_refuted_malformed_ct : exists valid hvalid d r,
  region_flags d r = [true; true; true; true; true; true; true; false]
  /\ schema_check valid d r = Crash EMalformedMediaType
  /\ verdict valid hvalid d r = [FMalformedMT; FCrash] /\ spec_verdict valid hvalid d r = [FMalformedMT].
Proof. exists (only_valid 0), hnone, d_hist, r_f8. vm_compute. repeat split. Qed.
Print Assumptions C04_verdict_eq_spec_refuted_malformed_ct.

(* finding F4: status_code_conformance before e29caab0 (the sentinel) raises on a specification extension key;
   the check since that commit returns a verdict there, and such documents are inside every region *)
Theorem C04_extension_key_sentinel_refuted : exists d r,
  status_check_before_e29caab0 d r = Crash EValueError
  /\ region_flags d r = [true; true; true; true; true; true; true; true]
  /\ status_check d r = Ok []
  /\ verdict none_valid hnone d r = [] /\ spec_verdict none_valid hnone d r = []
  /\ status_check d (resp 404 None NotJson) = Ok [FUndefinedStatus].
Proof. exists d_f4, r_bare. vm_compute. repeat split. Qed.
Print Assumptions C04_extension_key_sentinel_refuted.

(* validate_response on a truthy schema (schema_check_on true): under a JSON content type a body that is not JSON is
   MalformedJson; a missing Content-Type is reported and the decodable body validated all the same *)
Theorem C04_malformed_json_is_failure : forall valid s r ct p,
  s_truthy s = true -> get_header s_content_type r = Some ct -> parse ct = Some p -> is_json p = true ->
  rbody_ r = NotJson -> schema_check_on true valid (Some s) r = Ok [FMalformedJson].
Proof.
  intros v s r ct p Ht Hh Hp Hj Hb. unfold schema_check_on. rewrite Ht, Hh, Hp, Hj, Hb.
  (* schema_check_on matches Some [] before Some ct *)
  destruct ct; reflexivity.
Qed.
Print Assumptions C04_malformed_json_is_failure.

Theorem C04_missing_content_type : forall valid s r,
  s_truthy s = true -> get_header s_content_type r = None -> rbody_ r <> BadUtf8 ->
  exists rest, schema_check_on true valid (Some s) r = Ok (FMissingCT :: rest).
Proof.
  intros v s r Ht Hh Hb. unfold schema_check_on. rewrite Ht, Hh. cbn.
  destruct (rbody_ r) as [| |did]; [contradiction | eexists; reflexivity |].
  destruct (v (s_id s) did); eexists; reflexivity.
Qed.
Print Assumptions C04_missing_content_type.

(* The loaded schema as state: verdicts do not depend on what was validated before.
   The model of converter.to_json_schema leaves the schema object of the caller as it was
   (checked against the real function, object by object, on every run) *)
Theorem C04_conversion_leaves_document : forall s, snd (to_json_schema_obj s) = s.
Proof. reflexivity. Qed.
Print Assumptions C04_conversion_leaves_document.

(* hence a sequence of validations on ONE loaded schema gives, response by response, the verdict of that
   response alone: for all documents, stores of object schemas, response lists, instance maps *)
Theorem C04_verdict_seq : forall hvalid inst d st rs,
  verdict_seq hvalid inst d st rs = map (fun r => verdict (valid_st st inst) hvalid d r) rs.
Proof.
  intros hv inst d st rs. induction rs as [|r rs IH]; cbn [verdict_seq map]; [reflexivity|].
  unfold verdict_st. cbn [fst snd]. rewrite touch_id, IH. reflexivity.
Qed.
Print Assumptions C04_verdict_seq.

Theorem C04_history_example :
  verdict_seq hnone inst_hist d_hist [(0, o_one)]
    [resp 200 (Some s_app_json) (Json 0); resp 200 (Some s_app_json) (Json 1); resp 200 (Some s_app_json) (Json 1)]
  = [[]; [FBodySchema]; [FBodySchema]].
Proof. vm_compute. reflexivity. Qed.
Print Assumptions C04_history_example.

(* for an object schema with at most one writeOnly property and no name twice in required, the converted schema
   accepts exactly the objects the documentation allows in a response *)
Theorem C04_writeonly_partial : forall s present,
  single_writeonly s = true -> nodupb (o_required s) = true ->
  jvalid (fst (to_json_schema_obj s)) present = ovalid s present.
Proof.
  intros s present Hs Hn. unfold single_writeonly in Hs.
  destruct (wo_names s) as [|w [|w2 rest]] eqn:E.
  - exact (jvalid_no_writeonly s present E).
  - exact (jvalid_one_writeonly s w present E Hn).
  - discriminate Hs.
Qed.
Print Assumptions C04_writeonly_partial.

Theorem C04_writeonly_refuted : exists s present,
  single_writeonly s = false /\ nodupb (o_required s) = true
  /\ jvalid (fst (to_json_schema_obj s)) present = true /\ ovalid s present = false.
Proof. exists o_two, [s_id_; s_pw]. vm_compute. repeat split. Qed.
Print Assumptions C04_writeonly_refuted.

(* Header value coercion (checks.py:197 _coerce_header_value) on header TEXT.
   A header documented {type: integer, minimum: lo, maximum: hi} conforms exactly when int() reads its text,
   and the EXACT integer read satisfies the bounds: all texts, all bounds, unbounded Z.  What int() reads is the
   subject of C04_int_literal_exact and C04_int_rejects_foreign_character *)
Theorem C04_integer_header_iff : forall lo hi text,
  hdr_int_conforms lo hi text = true <->
  exists z, py_int_u text = Some z /\ (forall l, lo = Some l -> (l <= z)%Z) /\ (forall h, hi = Some h -> (z <= h)%Z).
Proof.
  intros lo hi text. unfold hdr_int_conforms, coerce_header. destruct (py_int_u text) as [z|]; cbn [int_value_conforms].
  - rewrite in_bounds_iff. split.
    + intros H. exists z. split; [reflexivity | exact H].
    + intros [z' [E H]]. inversion E. subst. exact H.
  - split; [discriminate | intros [z [E _]]; discriminate].
Qed.
Print Assumptions C04_integer_header_iff.

(* the coercion of an integer-typed header: the exact integer of the literal, else the unchanged text *)
Theorem C04_coerce_integer_cases : forall text,
  (exists z, py_int_u text = Some z /\ coerce_header TInteger text = HInt z)
  \/ (py_int_u text = None /\ coerce_header TInteger text = HStr text).
Proof.
  intros text. unfold coerce_header. destruct (py_int_u text) as [z|].
  - left. exists z. split; reflexivity.
  - right. split; reflexivity.
Qed.
Print Assumptions C04_coerce_integer_cases.

Theorem C04_integer_header_not_literal : forall lo hi text,
  py_int_u text = None -> coerce_header TInteger text = HStr text /\ hdr_int_conforms lo hi text = false.
Proof.
  intros lo hi text H. split.
  - destruct (C04_coerce_integer_cases text) as [[z [E _]]|[_ E]]; [congruence | exact E].
  - apply not_true_iff_false. intros Hc. apply C04_integer_header_iff in Hc. destruct Hc as [z [E _]]. congruence.
Qed.
Print Assumptions C04_integer_header_not_literal.

(* every decimal literal (decimal digits of any script, single underscores between digits), bare or signed,
   is read as exactly its value, whatever its size *)
Theorem C04_int_literal_exact : forall body n, int_body body n ->
  py_int_u body = Some (Z.of_N n) /\ py_int_u (43 :: body) = Some (Z.of_N n)
  /\ py_int_u (45 :: body) = Some (Z.opp (Z.of_N n)).
Proof.
  intros body n Hb. pose proof (int_body_val _ _ Hb) as Hv. destruct (int_body_strip _ _ Hb) as [Hs Hsign].
  unfold py_int_u. rewrite Hs, !Hsign by reflexivity. repeat split.
  - destruct body as [|c r]; [discriminate Hv|].
    (* a sign is no digit: Hv would be None *)
    destruct (c =? 43) eqn:E43; [apply N.eqb_eq in E43; subst c; vm_compute in Hv; discriminate|].
    destruct (c =? 45) eqn:E45; [apply N.eqb_eq in E45; subst c; vm_compute in Hv; discriminate|].
    rewrite Hv. reflexivity.
  - rewrite N.eqb_refl, Hv. reflexivity.
  - change (45 =? 43) with false. rewrite N.eqb_refl, Hv. reflexivity.
Qed.
Print Assumptions C04_int_literal_exact.

(* a text with any character that is not a decimal digit, underscore, sign or int() whitespace is not an integer *)
Theorem C04_int_rejects_foreign_character : forall text c,
  In c text -> mem c int_ws = false -> decimal_of c = None -> c <> 95 -> c <> 43 -> c <> 45 ->
  py_int_u text = None.
Proof.
  intros text c Hin Hws Hd H95 H43 H45. destruct (py_int_u text) as [z|] eqn:E; [exfalso | reflexivity].
  destruct (py_int_u_some _ _ E) as [t [n [Hv Hs]]].
  (* c survives the strip, and is not the sign: it is in the digit string *)
  pose proof (in_strip int_ws text c Hin Hws) as H.
  assert (Hc : In c t).
  { destruct Hs as [Hs|[Hs|Hs]]; rewrite Hs in H; [exact H | |]; (destruct H as [H|H]; [congruence | exact H]). }
  destruct (udigits_charset _ _ _ _ Hv c Hc) as [X|X]; contradiction.
Qed.
Print Assumptions C04_int_rejects_foreign_character.

(* in particular exponent and decimal point notation: such a header stays a string and fails type: integer *)
Theorem C04_int_rejects_exponent_and_point : forall a b,
  py_int_u (a ++ 101 :: b) = None /\ py_int_u (a ++ 69 :: b) = None /\ py_int_u (a ++ 46 :: b) = None.
Proof.
  intros a b.
  repeat split; (eapply C04_int_rejects_foreign_character;
    [apply in_elt | (* no int() whitespace *) reflexivity | (* no decimal digit *) reflexivity | discriminate ..]).
Qed.
Print Assumptions C04_int_rejects_exponent_and_point.

(* SENTINEL: reading the integer through float() is a different function: 1e3 passes type: integer,
   2**53+1 passes maximum 2**53 (misses), 2**53+3 fails maximum 2**53+3 (false alarm) *)
Theorem C04_header_through_float_sentinel_refuted :
  (hdr_int_conforms None None t_1e3 = false /\ hdr_int_conforms_through_float None None t_1e3 = true)
  /\ (hdr_int_conforms None (Some two53) t_two53_plus1 = false
      /\ hdr_int_conforms_through_float None (Some two53) t_two53_plus1 = true)
  /\ (hdr_int_conforms None (Some 9007199254740995%Z) t_two53_plus3 = true
      /\ hdr_int_conforms_through_float None (Some 9007199254740995%Z) t_two53_plus3 = false).
Proof. vm_compute. repeat split; reflexivity. Qed.
Print Assumptions C04_header_through_float_sentinel_refuted.

Theorem C04_integer_header_examples :
  coerce_header TInteger [160;43;49;95;48;48;48;32] = HInt 1000
  /\ coerce_header TInteger [1636;1634] = HInt 42
  /\ coerce_header TInteger [45;48;48;55] = HInt (-7)
  /\ coerce_header TInteger [28;52;50] = HStr [28;52;50]
  /\ coerce_header TInteger [49;95;95;48] = HStr [49;95;95;48]
  /\ coerce_header TInteger [49;50;46;48] = HStr [49;50;46;48]
  /\ coerce_header TInteger t_two53_plus1 = HInt 9007199254740993
  /\ hdr_int_conforms (Some 10%Z) (Some 20%Z) [49;53] = true
  /\ hdr_int_conforms (Some 10%Z) (Some 20%Z) [50;49] = false
  /\ int_body [49;95;48;48;48] 1000
  /\ coerce_header TBoolean [79;78] = HBool true
  /\ coerce_header TBoolean [50] = HStr [50]
  /\ coerce_header TNull [78;117;108;108] = HNull
  /\ coerce_header TNumber [52;50] = HFloatOfInt 42.
Proof.
  repeat apply conj; try (vm_compute; reflexivity).
  (* the value of an int_body is built as n * 10 + d *)
  change 1000 with (((1 * 10 + 0) * 10 + 0) * 10 + 0).
  apply IB_digit with (s := [49;95;48;48]); [|vm_compute; reflexivity].
  apply IB_digit with (s := [49;95;48]); [|vm_compute; reflexivity].
  apply IB_us with (s := [49]); [|vm_compute; reflexivity].
  apply IB_one. vm_compute. reflexivity.
Qed.
Print Assumptions C04_integer_header_examples.
