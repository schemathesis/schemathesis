(* C04 proofs, in this order: the definitions the property theorems speak of; facts about lists and strip;
   failure sets and outcomes; status_code_conformance (key expansion, status_check by cases); content types;
   finding and resolving the response definition; the checks on one definition; the coded checks against the
   documented ones inside the regions (Section Regions), with the witness documents for outside them;
   the writeOnly rewrite and validation histories; integer-typed headers. *)
From Coq Require Import List NArith ZArith Bool.
From Verif Require Import Common.Str Common.Json Common.Lists C04.Model_C04.
Import ListNotations.
Open Scope N_scope.

(* e is obtained from k by replacing every X by a digit *)
Definition expansion_of (k e : str) : Prop :=
  Forall2 (fun kc ec => if kc =? 88 then In ec digits else ec = kc) k e.

Definition key_expansion (k : key) (e : str) : Prop := expansion_of (upper_ascii (key_str k)) e.

(* the documented meaning of a response key: some digit instance of it reads as the code *)
Definition code_matches (k : key) (code : N) : Prop :=
  exists e, key_expansion k e /\ py_int e = Some (Z.of_N code).

Definition keys_of (d : doc) : list key := map fst (d_responses d).

(* the keys that are read as status codes: all but specification extensions *)
Definition skeys (d : doc) : list key := status_keys (keys_of d).

(* the eight regions of the partial theorems, in the order of their hypotheses:
   F1 no_wildcard_keys, F2 single_media_type, F3 no_int_keys, F4b keys_parse, F5 flat_refs, F6 no_header_refs,
   F7 body_decodes, F8 ct_wellformed *)
Definition region_flags (d : doc) (r : response) : list bool :=
  [no_wildcard_keys d; single_media_type d; no_int_keys d; keys_parse d; flat_refs d; no_header_refs d; body_decodes r; ct_wellformed r].

(* the decimal integer literals: digit groups joined by single underscores, with their exact value *)
Inductive int_body : str -> N -> Prop :=
| IB_one c d : decimal_of c = Some d -> int_body [c] d
| IB_digit s n c d : int_body s n -> decimal_of c = Some d -> int_body (s ++ [c]) (n * 10 + d)
| IB_us s n c d : int_body s n -> decimal_of c = Some d -> int_body (s ++ [95; c]) (n * 10 + d).

Lemma existsb_flat_map {A B} (f : B -> bool) (g : A -> list B) l :
  existsb f (flat_map g l) = existsb (fun x => existsb f (g x)) l.
Proof. induction l as [|a l IH]; cbn; [reflexivity|]. rewrite existsb_app, IH. reflexivity. Qed.

Lemma existsb_eqb_in {A} (eqb : A -> A -> bool) : (forall a b, eqb a b = true <-> a = b) ->
  forall x l, existsb (eqb x) l = true <-> In x l.
Proof.
  intros Heq x l. rewrite existsb_exists. split.
  - intros [y [Hy E]]. apply Heq in E. subst. exact Hy.
  - intros H. exists x. split; [exact H | apply Heq; reflexivity].
Qed.

Lemma find_none_all {A} (f : A -> bool) l : (forall x, In x l -> f x = false) -> find f l = None.
Proof.
  induction l as [|a l IH]; intros H; cbn; [reflexivity|].
  rewrite (H a (or_introl eq_refl)). apply IH. intros x Hx. apply H. right. exact Hx.
Qed.

Lemma sequence_cases {A} (l : list (option A)) :
  match sequence l with Some xs => l = map Some xs | None => In None l end.
Proof.
  induction l as [|[x|] l IH]; cbn; [reflexivity | | left; reflexivity].
  destruct (sequence l); cbn; [f_equal | right]; exact IH.
Qed.

Lemma fk_eqb_eq a b : fk_eqb a b = true <-> a = b.
Proof.
  split; [|intros ->; destruct b; reflexivity].
  destruct a, b; intros H; (reflexivity || discriminate H).
Qed.

Lemma fk_mem_in k l : fk_mem k l = true <-> In k l.
Proof. apply (existsb_eqb_in fk_eqb fk_eqb_eq). Qed.

Lemma in_all_fk k : In k all_fk.
Proof. apply fk_mem_in. destruct k; reflexivity. Qed.

Lemma canon_in k l : In k (canon l) <-> In k l.
Proof. unfold canon. rewrite filter_In, fk_mem_in. pose proof (in_all_fk k). tauto. Qed.

Lemma canon_nil l : canon l = [] <-> l = [].
Proof.
  split; [|intros ->; reflexivity].
  destruct l as [|k l]; [reflexivity|]. intros H.
  assert (Hk : In k (canon (k :: l))) by (apply canon_in; left; reflexivity).
  rewrite H in Hk. destruct Hk.
Qed.

Lemma canon_idem l : canon (canon l) = canon l.
Proof. apply filter_ext. intros k. apply eq_iff_eq_true. rewrite !fk_mem_in. apply canon_in. Qed.

(* verdict and spec_verdict are canon of four appended lists; the second is what the content type check reports *)
Lemma canon_second_nonempty a b c e : b <> [] -> canon (a ++ b ++ c ++ e) <> [].
Proof.
  intros Hb H. rewrite canon_nil in H. apply app_eq_nil in H. destruct H as [_ H].
  apply app_eq_nil in H. destruct H as [H _]. exact (Hb H).
Qed.

Lemma no_crash_canon a b c d :
  ~ In FCrash a -> ~ In FCrash b -> ~ In FCrash c -> ~ In FCrash d -> ~ In FCrash (canon (a ++ b ++ c ++ d)).
Proof.
  intros Ha Hb Hc Hd H. apply (proj1 (canon_in _ _)) in H.
  repeat (apply in_app_or in H; destruct H as [H|H]); contradiction.
Qed.

(* for a literal l the premise closes by reflexivity *)
Lemma ok_no_crash l : fk_mem FCrash l = false -> ~ In FCrash (kinds (Ok l)).
Proof. intros E H. apply (proj2 (fk_mem_in FCrash l)) in H. congruence. Qed.

Lemma fks_eqb_eq a b : fks_eqb a b = true <-> a = b.
Proof.
  revert b. induction a as [|x a IH]; intros [|y b]; cbn; try (split; congruence).
  rewrite andb_true_iff, fk_eqb_eq, IH. split; [intros [-> ->]; reflexivity | intros H; inversion H; auto].
Qed.

Lemma outcome_eqb_eq a b : outcome_eqb a b = true <-> a = b.
Proof.
  destruct a as [x|x], b as [y|y]; cbn; try (split; congruence).
  - rewrite fks_eqb_eq. split; congruence.
  - destruct x, y; cbn; split; congruence.
Qed.

Lemma product_spec (k e : str) :
  In e (product (map (fun c => if c =? 88 then digits else [c]) k)) <-> expansion_of k e.
Proof.
  unfold expansion_of. revert e. induction k as [|c k IH]; intros e; cbn [map product].
  - split.
    + intros [<-|[]]. constructor.
    + intros H. inversion H. left. reflexivity.
  - rewrite in_flat_map. split.
    + intros [x [Hx He]]. apply in_map_iff in He. destruct He as [e' [<- He']].
      constructor; [|apply IH; exact He'].
      destruct (c =? 88); [exact Hx | destruct Hx as [<-|[]]; reflexivity].
    + intros H. inversion H as [|kc ec k' e' Hc Hr]; subst.
      exists ec. split.
      * destruct (c =? 88); [exact Hc | left; symmetry; exact Hc].
      * apply in_map. apply IH. exact Hr.
Qed.

(* the same position by position, executable: enough to check a given instance *)
Fixpoint expandsb (k e : str) : bool :=
  match k, e with
  | [], [] => true
  | kc :: k', ec :: e' => (if kc =? 88 then mem ec digits else ec =? kc) && expandsb k' e'
  | _, _ => false
  end.

Lemma expandsb_sound k : forall e, expandsb k e = true -> expansion_of k e.
Proof.
  induction k as [|kc k IH]; intros [|ec e] H; try discriminate H; constructor.
  - apply andb_true_iff, proj1 in H. destruct (kc =? 88); [apply mem_spec | apply N.eqb_eq]; exact H.
  - apply IH. apply andb_true_iff in H. apply H.
Qed.

Lemma in_expand_key k o : In o (expand_key k) <-> exists e, key_expansion k e /\ o = py_int e.
Proof.
  unfold expand_key, key_chars, key_expansion. rewrite in_map_iff. split.
  - intros [e [<- He]]. exists e. split; [apply product_spec; exact He | reflexivity].
  - intros [e [He ->]]. exists e. split; [reflexivity | apply product_spec; exact He].
Qed.

Lemma key_matches_spec k code : key_matches k code = true <-> code_matches k code.
Proof.
  unfold key_matches, code_matches. rewrite existsb_exists. split.
  - intros [o [Ho Hz]]. apply in_expand_key in Ho. destruct Ho as [e [He ->]].
    destruct (py_int e) as [z|] eqn:E; [|discriminate]. apply Z.eqb_eq in Hz. subst z.
    exists e. split; [exact He | exact E].
  - intros [e [He Hp]]. exists (py_int e). split.
    + apply in_expand_key. exists e. split; [exact He | reflexivity].
    + rewrite Hp. apply Z.eqb_refl.
Qed.

Lemma some_key_matches ks code :
  existsb (fun k => key_matches k code) ks = true <-> exists k, In k ks /\ code_matches k code.
Proof.
  rewrite existsb_exists.
  split; intros [k [Hk Hm]]; exists k; (split; [exact Hk | apply key_matches_spec; exact Hm]).
Qed.

Lemma in_expand_keys keys o :
  In o (flat_map expand_key keys) <-> exists k e, In k keys /\ key_expansion k e /\ o = py_int e.
Proof.
  rewrite in_flat_map. split.
  - intros [k [Hk Ho]]. apply in_expand_key in Ho. destruct Ho as [e [He ->]]. exists k, e. auto.
  - intros [k [e [Hk [He ->]]]]. exists k. split; [exact Hk | apply in_expand_key; exists e; auto].
Qed.

Lemma zmem_in z l : zmem z l = true <-> In z l.
Proof. apply (existsb_eqb_in Z.eqb Z.eqb_eq). Qed.

Lemma zmem_some z cs :
  existsb (fun o => match o with Some z' => Z.eqb z' z | None => false end) (map Some cs) = zmem z cs.
Proof. unfold zmem. induction cs as [|c cs IH]; cbn; [reflexivity|]. rewrite IH, Z.eqb_sym. reflexivity. Qed.

(* list(_expand_responses(..)) is eager: one instance of one key that int() rejects and there is no list of
   codes; otherwise a code is in the list exactly when some key matches it *)
Lemma all_codes_cases ks :
  match all_codes ks with
  | Some cs => (forall k e, In k ks -> key_expansion k e -> py_int e <> None)
               /\ forall code, zmem (Z.of_N code) cs = existsb (fun k => key_matches k code) ks
  | None => exists k e, In k ks /\ key_expansion k e /\ py_int e = None
  end.
Proof.
  unfold all_codes. pose proof (sequence_cases (flat_map expand_key ks)) as H.
  destruct (sequence (flat_map expand_key ks)) as [cs|].
  - split.
    + intros k e Hk He Hn.
      assert (Hin : In None (map Some cs)) by (rewrite <- H, <- Hn; apply in_expand_keys; exists k, e; auto).
      apply in_map_iff in Hin. destruct Hin as [z [Hz _]]. discriminate.
    + intros code. unfold key_matches. rewrite <- existsb_flat_map, H. symmetry. apply zmem_some.
  - apply in_expand_keys in H. destruct H as [k [e [Hk [He Hn]]]]. exists k, e. auto.
Qed.

Lemma is_default_key_spec k : is_default_key k = true <-> k = KStr s_default.
Proof.
  destruct k as [s|n]; cbn.
  - rewrite str_eqb_spec. split; [intros ->; reflexivity | intros H; inversion H; reflexivity].
  - split; discriminate.
Qed.

Lemma has_default_spec keys : existsb is_default_key keys = true <-> In (KStr s_default) keys.
Proof.
  rewrite existsb_exists. split.
  - intros [k [Hk Hd]]. apply is_default_key_spec in Hd. subst. exact Hk.
  - intros H. exists (KStr s_default). split; [exact H | apply is_default_key_spec; reflexivity].
Qed.

Lemma keys_parse_spec d : keys_parse d = true -> ~ In (KStr s_default) (keys_of d) ->
  forall k e, In k (skeys d) -> key_expansion k e -> py_int e <> None.
Proof.
  intros Hp Hd k e Hk He Hn. unfold keys_parse in Hp. rewrite forallb_forall in Hp. specialize (Hp k Hk).
  apply orb_true_iff in Hp. destruct Hp as [Hp|Hp].
  - apply is_default_key_spec in Hp. subst k. apply filter_In in Hk. exact (Hd (proj1 Hk)).
  - rewrite forallb_forall in Hp. specialize (Hp (py_int e)). rewrite Hn in Hp. discriminate Hp.
    apply in_expand_key. exists e. auto.
Qed.

(* the four ways status_code_conformance ends, each with what leads there *)
Inductive status_case (d : doc) (r : response) : outcome -> Prop :=
| SDefault : In (KStr s_default) (keys_of d) -> status_case d r (Ok [])
| SRaises k e : ~ In (KStr s_default) (keys_of d) ->
    In k (skeys d) -> key_expansion k e -> py_int e = None -> status_case d r (Crash EValueError)
| SMatch k : ~ In (KStr s_default) (keys_of d) ->
    (forall k e, In k (skeys d) -> key_expansion k e -> py_int e <> None) ->
    In k (skeys d) -> code_matches k (status r) -> status_case d r (Ok [])
| SNoMatch : ~ In (KStr s_default) (keys_of d) ->
    (forall k e, In k (skeys d) -> key_expansion k e -> py_int e <> None) ->
    (forall k, In k (skeys d) -> ~ code_matches k (status r)) -> status_case d r (Ok [FUndefinedStatus]).

Lemma status_check_cases d r : status_case d r (status_check d r).
Proof.
  unfold status_check. fold (keys_of d). fold (skeys d).
  destruct (existsb is_default_key (keys_of d)) eqn:Ed; [apply SDefault, has_default_spec, Ed|].
  assert (Hd : ~ In (KStr s_default) (keys_of d)) by (rewrite <- has_default_spec, Ed; discriminate).
  pose proof (all_codes_cases (skeys d)) as H. destruct (all_codes (skeys d)) as [cs|].
  - destruct H as [Hr Hz]. rewrite Hz.
    destruct (existsb (fun k => key_matches k (status r)) (skeys d)) eqn:Em.
    + apply some_key_matches in Em. destruct Em as [k [Hk Hm]]. exact (SMatch d r k Hd Hr Hk Hm).
    + apply SNoMatch; [exact Hd | exact Hr |]. intros k Hk Hm.
      rewrite <- not_true_iff_false, some_key_matches in Em. apply Em. exists k. auto.
  - destruct H as [k [e [Hk [He Hn]]]]. exact (SRaises d r k e Hd Hk He Hn).
Qed.

Lemma status_agree d r : keys_parse d = true -> status_check d r = spec_status_check d r.
Proof.
  intros Hp. unfold status_check, spec_status_check. fold (keys_of d). fold (skeys d).
  destruct (existsb is_default_key (keys_of d)) eqn:Ed; [reflexivity|].
  assert (Hd : ~ In (KStr s_default) (keys_of d)) by (rewrite <- has_default_spec, Ed; discriminate).
  pose proof (all_codes_cases (skeys d)) as H. destruct (all_codes (skeys d)) as [cs|].
  - rewrite (proj2 H). reflexivity.
  - destruct H as [k [e [Hk [He Hn]]]]. destruct (keys_parse_spec d Hp Hd k e Hk He Hn).
Qed.

Lemma spec_status_no_crash d r : ~ In FCrash (kinds (spec_status_check d r)).
Proof.
  unfold spec_status_check. destruct (existsb is_default_key _); [|destruct (existsb _ _)]; apply ok_no_crash; reflexivity.
Qed.

Lemma ct_loop_cases docs ct : ct_loop docs ct = [] \/ ct_loop docs ct = [FMalformedMT] \/ ct_loop docs ct = [FUndefinedCT].
Proof.
  induction docs as [|o rest IH]; cbn; [right; right; reflexivity|].
  destruct (parse o); [|right; left; reflexivity]. destruct (parse ct); [|right; left; reflexivity].
  destruct (media_match p p0); [left; reflexivity | exact IH].
Qed.

(* a semicolon outside quotes ends the first field (no quotes in the type itself) *)
Lemma seg_scan_plain s : forall first pb acc rest,
  mem 59 s = false -> mem 34 s = false ->
  seg_scan (s ++ 59 :: rest) first pb false acc = seg_scan s first pb false acc.
Proof.
  induction s as [|c s IH]; intros first pb acc rest H59 H34.
  - cbn. rewrite orb_true_r. reflexivity.
  - unfold mem in H59, H34. cbn [existsb] in H59, H34.
    apply orb_false_iff in H59. destruct H59 as [E1 H59].
    apply orb_false_iff in H34. destruct H34 as [E2 H34].
    rewrite N.eqb_sym in E1. rewrite N.eqb_sym in E2.
    cbn [app seg_scan]. rewrite E1, E2. cbn [andb].
    apply IH; assumption.
Qed.

Lemma ct_check_on_no_crash docs r : ~ In FCrash (kinds (ct_check_on docs r)).
Proof.
  unfold ct_check_on. destruct docs as [|o rest]; [apply ok_no_crash; reflexivity|].
  destruct (get_header s_content_type r) as [ct|]; [|apply ok_no_crash; reflexivity].
  destruct (ct_loop_cases (o :: rest) ct) as [H|[H|H]]; rewrite H; apply ok_no_crash; reflexivity.
Qed.

(* ct_conforms, of any outcome *)
Definition conforming (o : outcome) : bool :=
  match o with Ok [] => true | Ok [FMissingCT] => true | _ => false end.

Lemma ct_conforms_eq d r : ct_conforms d r = conforming (spec_content_type_check d r).
Proof. reflexivity. Qed.

Lemma nonconforming_reports o : conforming o = false -> kinds o <> [].
Proof. destruct o as [[|k l]|e]; cbn; intros H; discriminate. Qed.

Lemma lookup_by_ext {A} (p q : key -> bool) (l : list (key * A)) :
  (forall kv, In kv l -> p (fst kv) = q (fst kv)) -> lookup_by p l = lookup_by q l.
Proof.
  unfold lookup_by. generalize (@None A) as acc. induction l as [|kv l IH]; intros acc H; cbn; [reflexivity|].
  rewrite (H kv (or_introl eq_refl)). apply IH. intros kv' Hin. apply H. right. exact Hin.
Qed.

Lemma fold_lookup_in {A} (p : key -> bool) (l : list (key * A)) acc x :
  fold_left (fun acc kv => if p (fst kv) then Some (snd kv) else acc) l acc = Some x -> acc = Some x \/ In x (map snd l).
Proof.
  revert acc. induction l as [|kv l IH]; intros acc H; cbn in H; [left; exact H|].
  apply IH in H. destruct H as [H|H]; [|right; right; exact H].
  destruct (p (fst kv)); [right; left; inversion H; reflexivity | left; exact H].
Qed.

Lemma lookup_by_in {A} p (l : list (key * A)) x : lookup_by p l = Some x -> In x (map snd l).
Proof. intros H. apply fold_lookup_in in H. destruct H as [H|H]; [discriminate | exact H]. Qed.

(* lookup_raw and lookup_str: an exact key, else default *)
Lemma lookup_or_in {A} p q (l : list (key * A)) x :
  match lookup_by p l with Some y => Some y | None => lookup_by q l end = Some x -> In x (map snd l).
Proof.
  destruct (lookup_by p l) as [y|] eqn:E; intros H; [inversion H; subst y|]; eapply lookup_by_in; eassumption.
Qed.

Lemma lookup_raw_str d c : no_int_keys d = true -> lookup_raw d c = lookup_str d c.
Proof.
  intros H. unfold no_int_keys in H. rewrite forallb_forall in H.
  assert (E : forall s, lookup_by (raw_is s) (d_responses d) = lookup_by (str_is s) (d_responses d)).
  { intros s. apply lookup_by_ext. intros [k x] Hin. specialize (H k (in_map fst _ _ Hin)).
    destruct k; [reflexivity | discriminate]. }
  unfold lookup_raw, lookup_str. rewrite !E. reflexivity.
Qed.

Lemma lookup_spec_str d c : no_wildcard_keys d = true -> lookup_spec d c = lookup_str d c.
Proof.
  intros H. unfold lookup_spec, lookup_str. destruct (lookup_by (str_is (dec c)) (d_responses d)); [reflexivity|].
  rewrite find_none_all; [reflexivity|]. intros [k x] Hin. cbn [fst].
  unfold no_wildcard_keys in H. rewrite forallb_forall in H. specialize (H k (in_map fst _ _ Hin)).
  destruct (is_default_key k); cbn in *; [rewrite andb_false_r; reflexivity|].
  destruct (is_extension_key k); cbn in *; [rewrite andb_false_r; reflexivity|].
  destruct (has_x k); [discriminate | reflexivity].
Qed.

Lemma resolve_fuel_inline f comps b : resolve_fuel f comps (RInline b) = RBody b.
Proof. destruct f; reflexivity. Qed.

Lemma resolve_agree d x : flat_refs d = true -> In x (map snd (d_responses d)) ->
  exists b, resolve_code d x = RBody b /\ resolve_spec d x = RBody b /\ In (RInline b) (all_defs d).
Proof.
  intros Hflat Hin. unfold flat_refs in Hflat. apply andb_true_iff in Hflat. destruct Hflat as [Hc Hr].
  rewrite forallb_forall in Hc, Hr. destruct x as [b|n].
  - exists b. split; [reflexivity|]. split; [apply resolve_fuel_inline|]. unfold all_defs. apply in_or_app. left. exact Hin.
  - specialize (Hr _ Hin). cbn in Hr. unfold assoc_mem in Hr.
    destruct (assoc_get n (d_components d)) as [y|] eqn:Ey; [|discriminate].
    pose proof (assoc_get_in _ _ _ Ey) as Hk'.
    specialize (Hc _ Hk'). cbn in Hc. destruct y as [b|]; [|discriminate].
    exists b. split; [cbn; rewrite Ey; reflexivity|]. split.
    + unfold resolve_spec. cbn [resolve_fuel]. rewrite Ey. apply resolve_fuel_inline.
    + unfold all_defs. apply in_or_app. right. apply (in_map snd _ _ Hk').
Qed.

Lemma def_ok_inline (p : rbody -> bool) d b : forallb (def_ok p) (all_defs d) = true -> In (RInline b) (all_defs d) -> p b = true.
Proof. intros H Hin. rewrite forallb_forall in H. apply (H _ Hin). Qed.

Lemma hdr_mask_irrelevant hv hs r : forallb (fun h => negb (h_is_ref h)) hs = true ->
  hdr_check_on true hv hs r = hdr_check_on false hv hs r.
Proof.
  intros H. rewrite forallb_forall in H. unfold hdr_check_on.
  rewrite (existsb_ext_in (hdr_missing true r) (hdr_missing false r)); [reflexivity|].
  intros h Hin. unfold hdr_missing. specialize (H h Hin). destruct (h_is_ref h); [discriminate | reflexivity].
Qed.

Lemma hdr_check_on_no_crash m hv hs r : ~ In FCrash (kinds (hdr_check_on m hv hs r)).
Proof.
  unfold hdr_check_on.
  destruct (existsb (hdr_missing m r) hs), (existsb (hdr_invalid hv r) hs); apply ok_no_crash; reflexivity.
Qed.

(* with one documented media type that the received one matches, the first schema is the matching one *)
Lemma media_agree v b r : (length (r_content b) <=? 1)%nat = true ->
  conforming (ct_check_on (map fst (r_content b)) r) = true ->
  schema_check_on false v (first_schema true b) r = schema_check_on false v (matching_schema true b r) r.
Proof.
  intros Hlen Hconf. unfold matching_schema, first_schema.
  destruct (r_content b) as [|[mt os] [|e2 rest]]; [| |cbn in Hlen; discriminate].
  - (* no documented media type: no schema on either side, whatever was received *)
    destruct (get_header s_content_type r) as [ct|]; [|reflexivity].
    destruct (parse ct) as [p|] eqn:Ep; cbn [find]; reflexivity.
  - (* one: conforming leaves only the case that it parses and matches the received type *)
    cbn [map fst ct_check_on] in Hconf.
    destruct (get_header s_content_type r) as [ct|] eqn:Eh; [|reflexivity].
    cbn [ct_loop] in Hconf.
    destruct (parse mt) as [e|] eqn:Em; [|discriminate].
    destruct (parse ct) as [p|] eqn:Ep; [|discriminate].
    destruct (media_match e p) eqn:Emm; [|discriminate].
    cbn [find fst snd]. rewrite Em, Emm. reflexivity.
Qed.

Lemma schema_check_on_no_crash v os r : ~ In FCrash (kinds (schema_check_on false v os r)).
Proof.
  unfold schema_check_on. destruct os as [s|]; [|intros []]. destruct (s_truthy s); cbn [negb]; [|intros []].
  destruct (get_header s_content_type r) as [[|c ct]|].
  - destruct (rbody_ r) as [| |did]; [| |destruct (v (s_id s) did)]; apply ok_no_crash; reflexivity.
  - destruct (parse (c :: ct)) as [p|]; [|intros []]. destruct (is_json p); [|intros []].
    destruct (rbody_ r) as [| |did]; [| |destruct (v (s_id s) did)]; apply ok_no_crash; reflexivity.
  - destruct (rbody_ r) as [| |did]; [| |destruct (v (s_id s) did)]; apply ok_no_crash; reflexivity.
Qed.

Lemma immaterial_of_no_int_keys hv d r : no_int_keys d = true -> int_keys_immaterial hv d r = true.
Proof.
  intros Hi. unfold int_keys_immaterial, content_type_check, content_type_check_str, headers_check, headers_check_str.
  rewrite (lookup_raw_str d _ Hi). apply andb_true_iff. split; apply outcome_eqb_eq; reflexivity.
Qed.

(* the shape of the coded checks that go by the response definition: content_type_check (3.x), headers_check,
   schema_check and the two _str checks are on_def of their lookup, by unfolding *)
Definition on_def (d : doc) (look : option rdef) (F : rbody -> outcome) : outcome :=
  match look with
  | None => Ok []
  | Some x => match resolve_code d x with RFail => Crash ERefResolution | RBody b => F b end
  end.

(* Inside the regions.  Each lemma depends on the hypotheses its proof names, and on no other; Properties_C04
   states four of them again with the hypotheses written out. *)
Section Regions.
Variables (v : N -> N -> bool) (hv : N -> str -> bool) (d : doc) (r : response).
Hypotheses (Hw : no_wildcard_keys d = true) (Hs : single_media_type d = true)
  (Hi : int_keys_immaterial hv d r = true) (Hk : keys_parse d = true) (Hf : flat_refs d = true)
  (Hh : no_header_refs d = true) (Hb : body_decodes r = true) (Hc : ct_wellformed r = true).

(* the definition validate_response finds and resolves is the documented one, whatever the type of the keys:
   a check that goes by it agrees with its documented counterpart once the two agree on every inline definition *)
Lemma on_def_agree (F G : rbody -> outcome) :
  (forall b, In (RInline b) (all_defs d) -> spec_def d r = Some b -> F b = G b) ->
  on_def d (lookup_str d (status r)) F = match spec_def d r with None => Ok [] | Some b => G b end.
Proof using Hw Hf.
  unfold on_def, spec_def. rewrite (lookup_spec_str d _ Hw).
  destruct (lookup_str d (status r)) as [x|] eqn:E; [|reflexivity].
  destruct (resolve_agree d x Hf (lookup_or_in _ _ _ _ E)) as [b [H1 [H2 H3]]].
  rewrite H1, H2. intros HFG. apply HFG; [exact H3 | reflexivity].
Qed.

Lemma ct_str_agree : content_type_check_str d r = spec_content_type_check d r.
Proof using Hw Hf.
  unfold content_type_check_str, spec_content_type_check. destruct (d_v30 d); [|reflexivity].
  apply (on_def_agree (fun b => ct_check_on (map fst (r_content b)) r) (fun b => ct_check_on (map fst (r_content b)) r)).
  reflexivity.
Qed.

Lemma hdr_str_agree : headers_check_str hv d r = spec_headers_check hv d r.
Proof using Hw Hf Hh.
  apply (on_def_agree (fun b => hdr_check_on true hv (r_headers b) r) (fun b => hdr_check_on false hv (r_headers b) r)).
  intros b Hin _. apply hdr_mask_irrelevant, (def_ok_inline _ d b Hh Hin).
Qed.

Lemma strict_irrelevant os : schema_check_on true v os r = schema_check_on false v os r.
Proof using Hb Hc.
  unfold body_decodes in Hb. unfold ct_wellformed in Hc. unfold schema_check_on.
  destruct os as [s|]; [|reflexivity]. destruct (s_truthy s); [|reflexivity]. cbn [negb].
  destruct (get_header s_content_type r) as [[|c ct]|].
  - destruct (rbody_ r); [discriminate | reflexivity | reflexivity].
  - destruct (parse (c :: ct)); [|discriminate]. destruct (is_json p); [|reflexivity].
    destruct (rbody_ r); [discriminate | reflexivity | reflexivity].
  - destruct (rbody_ r); [discriminate | reflexivity | reflexivity].
Qed.

Lemma schema_agree_any_keys : ct_conforms d r = true -> schema_check v d r = spec_schema_check v d r.
Proof using Hw Hs Hf Hb Hc.
  intros Hconf.
  apply (on_def_agree (fun b => schema_check_on true v (first_schema (d_v30 d) b) r)
                      (fun b => schema_check_on false v (matching_schema (d_v30 d) b r) r)).
  intros b Hin Hd. rewrite strict_irrelevant.
  destruct (d_v30 d) eqn:Ev; [|reflexivity].
  apply media_agree.
  - apply (def_ok_inline _ d b Hs Hin).
  - rewrite ct_conforms_eq in Hconf. unfold spec_content_type_check in Hconf. rewrite Ev, Hd in Hconf. exact Hconf.
Qed.

(* under int_keys_immaterial the raw lookup of get_content_types / get_headers gives the same outcomes *)
Lemma ct_agree : content_type_check d r = spec_content_type_check d r.
Proof using Hw Hi Hf.
  rewrite <- ct_str_agree. apply outcome_eqb_eq.
  unfold int_keys_immaterial in Hi. apply andb_true_iff in Hi. apply Hi.
Qed.

Lemma hdr_agree : headers_check hv d r = spec_headers_check hv d r.
Proof using Hw Hi Hf Hh.
  rewrite <- hdr_str_agree. apply outcome_eqb_eq.
  unfold int_keys_immaterial in Hi. apply andb_true_iff in Hi. apply Hi.
Qed.

Lemma verdict_eq_spec_int_keys : ct_conforms d r = true -> verdict v hv d r = spec_verdict v hv d r.
Proof using Hw Hs Hi Hk Hf Hh Hb Hc.
  intros Hconf. unfold verdict, spec_verdict.
  rewrite (status_agree d r Hk), ct_agree, hdr_agree, (schema_agree_any_keys Hconf). reflexivity.
Qed.

(* a failure is reported exactly when the documentation says the response deviates: where ct_conforms fails,
   the content type check reports on both sides *)
Lemma fails_iff_spec_int_keys : verdict v hv d r = [] <-> spec_verdict v hv d r = [].
Proof using Hw Hs Hi Hk Hf Hh Hb Hc.
  destruct (ct_conforms d r) eqn:Hconf.
  - rewrite (verdict_eq_spec_int_keys Hconf). tauto.
  - assert (Hne : kinds (spec_content_type_check d r) <> [])
      by (apply nonconforming_reports; rewrite <- ct_conforms_eq; exact Hconf).
    unfold verdict, spec_verdict. rewrite ct_agree.
    split; intros H; destruct (canon_second_nonempty _ _ _ _ Hne H).
Qed.

(* with flat references every definition found among the responses resolves *)
Lemma on_def_no_crash (look : option rdef) (F : rbody -> outcome) :
  (forall x, look = Some x -> In x (map snd (d_responses d))) -> (forall b, ~ In FCrash (kinds (F b))) ->
  ~ In FCrash (kinds (on_def d look F)).
Proof using Hf.
  intros Hin HF. unfold on_def. destruct look as [x|]; [|intros []].
  destruct (resolve_agree d x Hf (Hin x eq_refl)) as [b [H _]]. rewrite H. apply HF.
Qed.

(* neither wildcard nor integer keys can make a check raise *)
Lemma verdict_no_crash : ~ In FCrash (verdict v hv d r).
Proof using Hk Hf Hb Hc.
  apply no_crash_canon.
  - rewrite (status_agree d r Hk). apply spec_status_no_crash.
  - unfold content_type_check. destruct (d_v30 d); [|apply ct_check_on_no_crash].
    apply (on_def_no_crash (lookup_raw d (status r)) (fun b => ct_check_on (map fst (r_content b)) r));
      [intros x; apply lookup_or_in | intros b; apply ct_check_on_no_crash].
  - apply (on_def_no_crash (lookup_raw d (status r)) (fun b => hdr_check_on true hv (r_headers b) r));
      [intros x; apply lookup_or_in | intros b; apply hdr_check_on_no_crash].
  - apply (on_def_no_crash (lookup_str d (status r)) (fun b => schema_check_on true v (first_schema (d_v30 d) b) r));
      [intros x; apply lookup_or_in |].
    intros b. rewrite strict_irrelevant. apply schema_check_on_no_crash.
Qed.

End Regions.

Definition s_app_json : str := [97;112;112;108;105;99;97;116;105;111;110;47;106;115;111;110].
Definition s_problem_json : str := [97;112;112;108;105;99;97;116;105;111;110;47;112;114;111;98;108;101;109;43;106;115;111;110].
Definition s_text_plain : str := [116;101;120;116;47;112;108;97;105;110].

(* two truthy schemas, told apart by their ids; only_valid n: the judge under which exactly schema n accepts the body *)
Definition sch0 : sch := {| s_id := 0; s_truthy := true |}.
Definition sch1 : sch := {| s_id := 1; s_truthy := true |}.
Definition json_body : rbody := {| r_content := [(s_app_json, Some sch0)]; r_schema20 := None; r_headers := [] |}.
Definition no_body : rbody := {| r_content := []; r_schema20 := None; r_headers := [] |}.
Definition doc30 (rs : list (key * rdef)) (cs : list (str * rdef)) : doc :=
  {| d_v30 := true; d_responses := rs; d_components := cs; d_produces_op := []; d_produces_global := [] |}.
Definition resp (code : N) (ct : option str) (b : body) : response :=
  {| status := code; rheaders := match ct with Some c => [(s_content_type, c)] | None => [] end; rbody_ := b |}.
Definition none_valid : N -> N -> bool := fun _ _ => false.
Definition only_valid (n : N) : N -> N -> bool := fun sid _ => N.eqb sid n.
Definition hnone : N -> str -> bool := fun _ _ => false.

(* 200, no Content-Type, a body that is not JSON *)
Definition r_bare := resp 200 None NotJson.

(* {200: json object schema}: inside every region; also the document of the history example *)
Definition d_hist := doc30 [(KStr [50;48;48], RInline json_body)] [].

(* F1: responses = {4XX: json object schema}; 404 with a violating body is passed *)
Definition d_f1 := doc30 [(KStr [52;88;88], RInline json_body)] [].
Definition r_f1 := resp 404 (Some s_app_json) (Json 0).

(* F2: two media types with different schemas, the second one received: validated against the first *)
Definition d_f2 := doc30 [(KStr [50;48;48], RInline {| r_content := [(s_app_json, Some sch0); (s_problem_json, Some sch1)]; r_schema20 := None; r_headers := [] |})] [].
Definition r_f2 := resp 200 (Some s_problem_json) (Json 0).

(* F3: integer key 200: undocumented text/plain passes *)
Definition d_f3 := doc30 [(KInt 200, RInline json_body)] [].
Definition r_f3 := resp 200 (Some s_text_plain) (Json 0).

(* the same integer-keyed document with a JSON response, then with a default beside the key, then as 2.0 *)
Definition r_f3_json := resp 200 (Some s_app_json) (Json 0).
Definition d_f3_default := doc30 [(KInt 200, RInline json_body);
  (KStr s_default, RInline {| r_content := [(s_app_json, Some sch1)]; r_schema20 := None; r_headers := [] |})] [].
Definition d_f3_20 : doc :=
  {| d_v30 := false; d_responses := [(KInt 200, RInline {| r_content := []; r_schema20 := Some sch0; r_headers := [] |})];
     d_components := []; d_produces_op := []; d_produces_global := [s_app_json] |}.

(* F4: a specification extension next to 200; the rule before e29caab0 raised on it *)
Definition d_f4 := doc30 [(KStr [50;48;48], RInline no_body); (KStr [120;45;101;120;116], RInline no_body)] [].

(* F4b: a key that is neither a status code pattern nor an extension *)
Definition d_f4b := doc30 [(KStr [50;48;48], RInline no_body); (KStr [97;98;99], RInline no_body)] [].

(* F5: 200 -> $ref A -> $ref B -> json object schema *)
Definition d_f5 := doc30 [(KStr [50;48;48], RRef [65])] [([65], RRef [66]); ([66], RInline json_body)].

(* F6: a required header documented through $ref is missing *)
Definition d_f6 := doc30 [(KStr [50;48;48], RInline {| r_content := []; r_schema20 := None;
                          r_headers := [{| h_name := [88;45;65]; h_required := true; h_is_ref := true; h_id := 0 |}] |})] [].

(* F7: application/json body that is not UTF-8;  F8: Content-Type: json; both on d_hist *)
Definition r_f7 := resp 200 (Some s_app_json) BadUtf8.
Definition r_f8 := resp 200 (Some s_json) (Json 0).

(* inside every region: a referenced response, a default, a required header, Application/JSON; charset=utf-8 *)
Definition d_nv := {| d_v30 := true;
  d_responses := [(KStr [52;48;52], RRef [65]); (KStr s_default, RInline no_body)];
  d_components := [([65], RInline {| r_content := [(s_app_json, Some sch0)]; r_schema20 := None;
                     r_headers := [{| h_name := [88;45;65]; h_required := true; h_is_ref := false; h_id := 0 |}] |})];
  d_produces_op := []; d_produces_global := [] |}.
Definition r_nv := resp 404 (Some ([65;112;112;108;105;99;97;116;105;111;110;47;74;83;79;78;59;32;99;104;97;114;115;101;116;61;117;116;102;45;56])) (Json 0).

Lemma content_type_examples :
  parse [65;112;112;108;105;99;97;116;105;111;110;47;74;83;79;78;59;32;99;104;97;114;115;101;116;61;117;116;102;45;56]
    = Some (s_application, s_json)
  /\ ct_loop [s_text_plain; [42;47;42]] s_app_json = []
  /\ ct_loop [s_text_plain] s_app_json = [FUndefinedCT]
  /\ parse s_json = None.
Proof. vm_compute. repeat split. Qed.

Lemma touch_id st : touch st = st.
Proof.
  unfold touch. rewrite <- (map_id st) at 2. apply map_ext. intros [k s]. reflexivity.
Qed.

(* remove_first takes out one occurrence: hence nodupb *)
Lemma forallb_remove_first (f : str -> bool) w req : nodupb req = true ->
  forallb f (remove_first w req) = forallb (fun n => str_eqb n w || f n) req.
Proof.
  induction req as [|y r IH]; intros Hn; cbn [remove_first forallb]; [reflexivity|].
  cbn [nodupb] in Hn. apply andb_true_iff in Hn. destruct Hn as [Hy Hr].
  destruct (str_eqb w y) eqn:E.
  - rewrite (str_eqb_sym y w), E. cbn [orb andb].
    apply str_eqb_spec in E. subst y.
    apply forallb_ext_in. intros n Hin.
    destruct (str_eqb n w) eqn:En; [|reflexivity].
    apply str_eqb_spec in En. subst n. apply negb_true_iff in Hy.
    assert (existsb (str_eqb w) r = true) by (apply (existsb_eqb_in str_eqb str_eqb_spec), Hin).
    congruence.
  - rewrite (str_eqb_sym y w), E. cbn [orb forallb]. rewrite (IH Hr). reflexivity.
Qed.

(* to_json_schema_obj on a schema with no writeOnly property, and with one, w: required loses its w,
   and not {required: [w]} forbids it *)
Lemma jvalid_no_writeonly s p : wo_names s = [] -> jvalid (fst (to_json_schema_obj s)) p = ovalid s p.
Proof.
  intros E. unfold jvalid, ovalid, is_wo. cbn [fst to_json_schema_obj j_required j_forbidden]. rewrite E.
  cbn. rewrite andb_true_r. reflexivity.
Qed.

Lemma jvalid_one_writeonly s w p : wo_names s = [w] -> nodupb (o_required s) = true ->
  jvalid (fst (to_json_schema_obj s)) p = ovalid s p.
Proof.
  intros E Hn. unfold jvalid, ovalid, is_wo. cbn [fst to_json_schema_obj j_required j_forbidden]. rewrite E.
  cbn [fold_left forallb existsb]. rewrite (forallb_remove_first _ w _ Hn).
  rewrite !andb_true_r. rewrite andb_comm. f_equal.
  apply forallb_ext_in. intros n _. rewrite orb_false_r. reflexivity.
Qed.

(* F9: two writeOnly properties, one of them returned: accepted *)
Definition s_pw : str := [112;119].
Definition s_tok : str := [116;111;107].
Definition s_id_ : str := [105;100].
Definition o_two := {| o_props := [(s_id_, false); (s_pw, true); (s_tok, true)]; o_required := [s_id_] |}.

Definition o_one := {| o_props := [(s_id_, false); (s_pw, true)]; o_required := [s_id_; s_pw] |}.
Lemma writeonly_examples :
  single_writeonly o_one = true /\ nodupb (o_required o_one) = true
  /\ jvalid (fst (to_json_schema_obj o_one)) [s_id_] = true /\ jvalid (fst (to_json_schema_obj o_one)) [s_id_; s_pw] = false
  /\ jvalid (fst (to_json_schema_obj o_one)) [] = false.
Proof. vm_compute. repeat split. Qed.

(* a history on which the second validation rejects what the documentation forbids *)
Definition inst_hist (did : N) : list (list str) := if did =? 0 then [[s_id_]] else [[s_id_]; [s_id_; s_pw]].

Lemma in_bounds_iff lo hi z :
  in_bounds lo hi z = true <-> (forall l, lo = Some l -> (l <= z)%Z) /\ (forall h, hi = Some h -> (z <= h)%Z).
Proof.
  unfold in_bounds. rewrite andb_true_iff. split; intros [Hl Hh]; split.
  - intros l ->. apply Z.leb_le. exact Hl.
  - intros h ->. apply Z.leb_le. exact Hh.
  - destruct lo as [l|]; [apply Z.leb_le, Hl|]; reflexivity.
  - destruct hi as [h|]; [apply Z.leb_le, Hh|]; reflexivity.
Qed.

Lemma decimal_of_us : decimal_of 95 = None.
Proof. vm_compute. reflexivity. Qed.

Lemma udigits_snoc s : forall acc pd n, udigits_val s acc pd = Some n ->
  forall c d, decimal_of c = Some d ->
  udigits_val (s ++ [c]) acc pd = Some (n * 10 + d) /\ udigits_val (s ++ [95; c]) acc pd = Some (n * 10 + d).
Proof.
  induction s as [|a s IH]; intros acc pd n H c d Hd.
  - cbn [udigits_val] in H. destruct pd; [|discriminate]. inversion H; subst.
    cbn [app udigits_val]. rewrite Hd, decimal_of_us. rewrite N.eqb_refl. cbn [andb udigits_val]. rewrite ?Hd.
    split; reflexivity.
  - cbn [app udigits_val] in *. destruct (decimal_of a); [apply IH; assumption|].
    destruct ((a =? 95) && pd); [apply IH; assumption | discriminate].
Qed.

Lemma int_body_val s n : int_body s n -> udigits_val s 0 false = Some n.
Proof.
  induction 1 as [c d Hd | s n c d _ IH Hd | s n c d _ IH Hd].
  - cbn [udigits_val]. rewrite Hd. reflexivity.
  - exact (proj1 (udigits_snoc _ _ _ _ IH c d Hd)).
  - exact (proj2 (udigits_snoc _ _ _ _ IH c d Hd)).
Qed.

Lemma udigits_charset s : forall acc pd n, udigits_val s acc pd = Some n ->
  forall c, In c s -> decimal_of c <> None \/ c = 95.
Proof.
  induction s as [|a s IH]; intros acc pd n H c Hin; [destruct Hin|].
  cbn [udigits_val] in H. destruct Hin as [->|Hin].
  - destruct (decimal_of c) eqn:E; [left; discriminate|]. right.
    destruct (c =? 95) eqn:E2; [apply N.eqb_eq; exact E2 | cbn in H; discriminate].
  - destruct (decimal_of a); [eapply IH; eauto|].
    destruct ((a =? 95) && pd); [eapply IH; eauto | discriminate].
Qed.

Lemma ws_not_decimal : forallb (fun c => match decimal_of c with None => true | Some _ => false end) int_ws = true.
Proof. vm_compute. reflexivity. Qed.

Lemma decimal_not_ws c : decimal_of c <> None -> mem c int_ws = false.
Proof.
  intros Hd. destruct (mem c int_ws) eqn:E; [|reflexivity].
  apply mem_spec in E. pose proof (proj1 (forallb_forall _ _) ws_not_decimal c E) as H.
  cbv beta in H. destruct (decimal_of c); [discriminate H | contradiction].
Qed.

(* int() strips nothing off a literal, bare or with a sign x in front: no character of it is int() whitespace *)
Lemma int_body_strip s n : int_body s n ->
  strip int_ws s = s /\ forall x, mem x int_ws = false -> strip int_ws (x :: s) = x :: s.
Proof.
  intros Hb.
  assert (H : forall c, In c s -> mem c int_ws = false).
  { intros c Hc. destruct (udigits_charset _ _ _ _ (int_body_val _ _ Hb) c Hc) as [Hd | ->];
      [exact (decimal_not_ws c Hd) | reflexivity]. }
  split; [exact (strip_none _ _ H)|].
  intros x Hx. apply strip_none. intros c [<-|Hc]; [exact Hx | exact (H c Hc)].
Qed.

(* what int() read, when it read something: after the white space a digit string, bare or behind one sign *)
Lemma py_int_u_some s z : py_int_u s = Some z ->
  exists t n, udigits_val t 0 false = Some n
    /\ (strip int_ws s = t \/ strip int_ws s = 43 :: t \/ strip int_ws s = 45 :: t).
Proof.
  unfold py_int_u. destruct (strip int_ws s) as [|c r]; [discriminate|].
  destruct (c =? 43) eqn:E43; [|destruct (c =? 45) eqn:E45].
  - apply N.eqb_eq in E43. subst c. destruct (udigits_val r 0 false) as [n|] eqn:E; [|discriminate].
    intros _. exists r, n. auto.
  - apply N.eqb_eq in E45. subst c. destruct (udigits_val r 0 false) as [n|] eqn:E; [|discriminate].
    intros _. exists r, n. auto.
  - destruct (udigits_val (c :: r) 0 false) as [n|] eqn:E; [|discriminate].
    intros _. exists (c :: r), n. auto.
Qed.

(* witnesses for the through-float sentinel *)
Definition t_1e3 : str := [49;101;51].
Definition t_two53_plus1 : str := dec 9007199254740993.
Definition t_two53_plus3 : str := dec 9007199254740995.
