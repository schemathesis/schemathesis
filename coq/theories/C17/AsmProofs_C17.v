(* C17, case assembly with object identity (Model_C17 section 7): the allocating
   produce_combinations denotes the value-level one; one case (get_parameters_value, then
   serialize_components, examples.py:56-74: the explicit keys only, into a new dict),
   then the sequence of cases, as heaps that only grow; witnesses. *)
From Coq Require Import List NArith ZArith Bool PeanoNat Lia.
From Verif Require Import Common.Str Common.Json Common.Lists C17.Model_C17 C17.Proofs_C17.
Import ListNotations.

Lemma hget_app_l h x a : a < length h -> hget (h ++ x) a = hget h a.
Proof. intros H. unfold hget. apply app_nth1. exact H. Qed.

Lemma hget_middle base d r : hget (base ++ d :: r) (length base) = d.
Proof. unfold hget. apply nth_middle. Qed.

Lemma hget_seq : forall l pre post, map (hget (pre ++ l ++ post)) (seq (length pre) (length l)) = l.
Proof.
  induction l as [|d l IH]; intros pre post; [reflexivity|].
  cbn [length seq map app]. rewrite hget_middle. f_equal.
  specialize (IH (pre ++ [d]) post). rewrite last_length, <- app_assoc in IH. exact IH.
Qed.

Lemma hset_middle base d r d1 : hset (base ++ d :: r) (length base) d1 = base ++ d1 :: r.
Proof. induction base as [|x base IH]; cbn; [reflexivity | rewrite IH; reflexivity]. Qed.

Lemma gpv_copy new h a :
  gpv_ref CopyWhenDrawn (Some new) h a = (h ++ [merged (hget h a) new], Some (length h)).
Proof. unfold gpv_ref, merged. destruct (hget h a); reflexivity. Qed.

(* addresses handed out to the containers of one case: consecutive, new *)
Fixpoint fresh_refs (n : nat) (rc : rcombo) : case_refs :=
  match rc with [] => [] | ca :: r => (fst ca, Some n) :: fresh_refs (S n) r end.

(* the merged (not yet serialized) container of the idx-th case *)
Definition mval (draw : draw_fn) (h0 : heap) (idx : nat) (ca : str * nat) : dict :=
  merged (hget h0 (snd ca)) (strip (draw idx (fst ca) (hget h0 (snd ca)))).

Lemma gen_phase draw h0 idx : forall rc ext cr0,
  forallb (fun ca => Nat.ltb (snd ca) (length h0)) rc = true ->
  forallb (fun ca => is_some (draw idx (fst ca) (hget h0 (snd ca)))) rc = true ->
  fold_left (gen_step CopyWhenDrawn draw idx) rc (h0 ++ ext, cr0) =
  ((h0 ++ ext) ++ map (mval draw h0 idx) rc, cr0 ++ fresh_refs (length (h0 ++ ext)) rc).
Proof.
  induction rc as [|[c a] rc IH]; intros ext cr0 Hwf Hdr.
  - cbn. rewrite !app_nil_r. reflexivity.
  - cbn [forallb fst snd] in Hwf, Hdr.
    apply andb_true_iff in Hwf. destruct Hwf as [Ha Hwf]. apply Nat.ltb_lt in Ha.
    apply andb_true_iff in Hdr. destruct Hdr as [Hd Hdr].
    cbn [fold_left]. unfold gen_step at 2. cbn [fst snd].
    rewrite (hget_app_l h0 ext a Ha).
    destruct (draw idx c (hget h0 a)) as [new|] eqn:E; [|discriminate Hd].
    rewrite gpv_copy. cbn [fst snd]. rewrite (hget_app_l h0 ext a Ha).
    rewrite <- app_assoc. rewrite (IH (ext ++ [merged (hget h0 a) new]) _ Hwf Hdr).
    f_equal.
    + rewrite <- !app_assoc. cbn [map app]. unfold mval at 2. cbn [fst snd]. rewrite E. reflexivity.
    + rewrite <- app_assoc. f_equal. cbn [fresh_refs app fst].
      rewrite (app_assoc h0 ext), last_length. reflexivity.
Qed.

(* what alloc_param_combos produces: named_refs n l = the references of one combination
   whose containers l are allocated from address n on; cblocks / crefs = the heap and the
   references of a whole list of parameter combinations *)
Fixpoint named_refs (n : nat) (l : list (str * dict)) : rcombo :=
  match l with [] => [] | cd :: r => (fst cd, n) :: named_refs (S n) r end.

Lemma alloc_fold : forall l h rc0,
  fold_left alloc_container l (h, rc0) = (h ++ map snd l, rc0 ++ named_refs (length h) l).
Proof.
  induction l as [|[c d] l IH]; intros h rc0.
  - cbn. rewrite !app_nil_r. reflexivity.
  - cbn [fold_left]. unfold alloc_container at 2. cbn [fst snd]. rewrite IH. f_equal.
    + rewrite <- app_assoc. reflexivity.
    + rewrite <- app_assoc. f_equal. cbn [named_refs app fst]. rewrite last_length. reflexivity.
Qed.

Lemma deref_named : forall l pre post,
  deref (pre ++ map snd l ++ post) (named_refs (length pre) l) = l.
Proof.
  induction l as [|[c d] l IH]; intros pre post; [reflexivity|].
  unfold deref. cbn [named_refs map fst snd app]. rewrite hget_middle. f_equal.
  specialize (IH (pre ++ [d]) post). rewrite last_length, <- app_assoc in IH. exact IH.
Qed.

Fixpoint cblocks (pcs : list combo) : heap :=
  match pcs with [] => [] | c :: r => map snd (containers c) ++ cblocks r end.
Fixpoint crefs (n : nat) (pcs : list combo) : list rcombo :=
  match pcs with
  | [] => []
  | c :: r => named_refs n (containers c) :: crefs (n + length (containers c)) r
  end.

Lemma alloc_combos_fold : forall pcs h rcs0,
  fold_left alloc_step pcs (h, rcs0) = (h ++ cblocks pcs, rcs0 ++ crefs (length h) pcs).
Proof.
  induction pcs as [|c pcs IH]; intros h rcs0.
  - cbn. rewrite !app_nil_r. reflexivity.
  - cbn [fold_left]. unfold alloc_step at 2, alloc_param_combo. cbn [fst snd].
    rewrite alloc_fold. cbn [fst snd app]. rewrite IH. cbn [cblocks crefs]. f_equal.
    + rewrite <- app_assoc. reflexivity.
    + rewrite <- app_assoc. cbn [app]. rewrite app_length, map_length. reflexivity.
Qed.

Lemma deref_crefs : forall pcs pre post,
  map (deref (pre ++ cblocks pcs ++ post)) (crefs (length pre) pcs) = map containers pcs.
Proof.
  induction pcs as [|c pcs IH]; intros pre post; [reflexivity|].
  cbn [cblocks crefs map]. f_equal.
  - rewrite <- app_assoc. apply deref_named.
  - specialize (IH (pre ++ map snd (containers c)) post).
    rewrite app_length, map_length, <- !app_assoc in IH. rewrite <- app_assoc. exact IH.
Qed.

Lemma named_refs_lt n l m : n + length l <= m ->
  forallb (fun ca : str * nat => Nat.ltb (snd ca) m) (named_refs n l) = true.
Proof.
  revert n. induction l as [|x l IH]; intros n H; [reflexivity|].
  cbn [named_refs length forallb snd] in *. apply andb_true_iff. split.
  - apply Nat.ltb_lt. lia.
  - apply IH. lia.
Qed.

Lemma crefs_wf : forall pcs n m, n + length (cblocks pcs) <= m ->
  forallb (fun rc => forallb (fun ca : str * nat => Nat.ltb (snd ca) m) rc) (crefs n pcs) = true.
Proof.
  induction pcs as [|c pcs IH]; intros n m H; [reflexivity|].
  cbn [cblocks crefs forallb] in *. rewrite app_length, map_length in H.
  apply andb_true_iff. split; [apply named_refs_lt; lia | apply IH; lia].
Qed.

Lemma alloc_deref pcs :
  map (deref (fst (alloc_param_combos pcs))) (snd (alloc_param_combos pcs)) = map containers pcs /\
  wf_refs (fst (alloc_param_combos pcs)) (snd (alloc_param_combos pcs)) = true /\
  length (snd (alloc_param_combos pcs)) = length pcs.
Proof.
  unfold alloc_param_combos. rewrite alloc_combos_fold. cbn [fst snd app length]. repeat split.
  - pose proof (deref_crefs pcs [] []) as D. rewrite app_nil_r in D. exact D.
  - unfold wf_refs. apply crefs_wf. lia.
  - generalize 0. induction pcs as [|c pcs IH]; intros n; [reflexivity|]. cbn [crefs length]. rewrite IH. reflexivity.
Qed.

Lemma cyc_map {A B} (f : A -> B) d l i : cyc (f d) (map f l) i = f (cyc d l i).
Proof. unfold cyc. rewrite map_length. apply map_nth. Qed.

Lemma containers_app a b : containers (a ++ b) = containers a ++ containers b.
Proof. unfold containers. apply flat_map_app. Qed.

Lemma containers_body_combos b c : In c (body_combos b) -> containers c = [] /\ keys c = [s_media_type; s_body].
Proof.
  intros H. apply In_body_combos in H. destruct H as (mt & vs & v & _ & _ & E).
  subst. split; reflexivity.
Qed.

Lemma containers_cyc_body b j :
  containers (cyc [] (body_combos b) j) = [] /\
  forall k, In k (keys (cyc [] (body_combos b) j)) -> k = s_media_type \/ k = s_body.
Proof.
  destruct (cyc_cases (@nil (str * kwval)) (body_combos b) j) as [[_ E]|Hin].
  - rewrite E. split; [reflexivity | intros k []].
  - apply containers_body_combos in Hin. destruct Hin as [E1 E2]. split; [exact E1|].
    rewrite E2. intros k [H|[H|[]]]; auto.
Qed.

(* {**body, **params}: the containers are those of the parameter combination *)
Lemma containers_merge (pc bc : combo) :
  good_keys pc -> containers bc = [] -> (forall k, In k (keys bc) -> k = s_media_type \/ k = s_body) ->
  containers (assoc_update bc pc) = containers pc.
Proof.
  intros G C K. rewrite assoc_update_disjoint; [rewrite containers_app, C; reflexivity | apply G |].
  intros k Hk Hb. exact (good_keys_body pc k G (K k Hb) Hk).
Qed.

Lemma ref_grouped_sound p b : good_keys p ->
  map (deref (fst (ref_grouped p b))) (snd (ref_grouped p b)) = map containers (produce_grouped p b) /\
  wf_refs (fst (ref_grouped p b)) (snd (ref_grouped p b)) = true.
Proof.
  intros G. unfold ref_grouped, produce_grouped.
  destruct b as [|b0 b1]; [destruct p as [|p0 p1]|destruct p as [|p0 p1]].
  - split; reflexivity.
  - destruct (alloc_deref (param_combos (p0 :: p1))) as (D & W & _). split; assumption.
  - cbn [fst snd]. split.
    + rewrite map_map. apply map_ext_in. intros c Hin.
      apply containers_body_combos in Hin. destruct Hin as [E _]. rewrite E. reflexivity.
    + unfold wf_refs. rewrite forallb_forall. intros rc Hin. apply in_map_iff in Hin.
      destruct Hin as [c [<- _]]. reflexivity.
  - set (p := p0 :: p1) in *. set (b := b0 :: b1) in *.
    destruct (alloc_deref (param_combos p)) as (D & W & L). cbn [fst snd].
    split.
    + unfold combine. rewrite !map_map. rewrite L. apply map_ext. intros idx.
      destruct (containers_cyc_body b idx) as [C K]. rewrite (containers_merge _ _ (good_keys_cyc p idx G) C K).
      etransitivity;
        [symmetry; apply (cyc_map (deref (fst (alloc_param_combos (param_combos p)))) []
                                  (snd (alloc_param_combos (param_combos p))) idx)|].
      rewrite D. apply (cyc_map containers [] (param_combos p) idx).
    + unfold wf_refs in *. rewrite forallb_forall in *. intros rc Hin. apply in_map_iff in Hin.
      destruct Hin as [idx [<- _]].
      destruct (cyc_cases (@nil (str * nat)) (snd (alloc_param_combos (param_combos p))) idx) as [[_ E]|Hin].
      * rewrite E. reflexivity.
      * apply W. exact Hin.
Qed.

(* case_addrs (Model_C17) for one case *)
Definition addrs_of (cr : case_refs) : list nat :=
  flat_map (fun co : str * option nat => match snd co with Some a => [a] | None => [] end) cr.

Lemma addrs_of_cons c o cr :
  addrs_of ((c, o) :: cr) = match o with Some a => a :: addrs_of cr | None => addrs_of cr end.
Proof. destruct o; reflexivity. Qed.

Lemma case_addrs_cons cr crs : case_addrs (cr :: crs) = addrs_of cr ++ case_addrs crs.
Proof. reflexivity. Qed.

Lemma wire_ext F Z : forall cr,
  (forall a, In a (addrs_of cr) -> a < length F) -> wire (F ++ Z) cr = wire F cr.
Proof.
  induction cr as [|[c o] cr IH]; intros H; [reflexivity|].
  rewrite addrs_of_cons in H. unfold wire in *. cbn [map fst snd]. f_equal.
  - destruct o as [a|]; [|reflexivity]. rewrite hget_app_l; [reflexivity|]. apply H. left. reflexivity.
  - apply IH. intros a Ha. apply H. destruct o; [right|]; exact Ha.
Qed.

(* one round for a container whose case object is at n: the heap grows by at most
   one object; the case keeps its object or holds the new one *)
Lemma ser_one_spec smap ser h c0 e c n :
  exists X a,
    ser_one SerExplicitOnly smap ser h ((c0, e), (c, Some n)) = (h ++ X, (c, Some a)) /\
    hget (h ++ X) a = sval smap ser c (hget h e) (hget h n) /\
    (a = n \/ length h <= a < length (h ++ X)).
Proof.
  unfold ser_one, sval. cbn [fst snd].
  assert (Keep : exists X a, (h, (c, Some n)) = (h ++ X, (c, Some a)) /\
            hget (h ++ X) a = hget h n /\ (a = n \/ length h <= a < length (h ++ X))).
  { exists [], n. rewrite app_nil_r. auto. }
  destruct (smap c); [destruct (is_nil (hget h n))|]; cbn [andb negb]; try exact Keep.
  exists [ser_new ser c (hget h e) (hget h n)], (length h). split; [reflexivity|]. split.
  - apply hget_middle.
  - right. rewrite last_length. lia.
Qed.

(* all rounds of one case, from any heap h that holds the explicit objects and, at
   n, n+1, ..., the objects D ca the case holds: objects are only added, so every
   round reads what it would have read in h *)
Lemma ser_phase_spec smap ser (D : str * nat -> dict) : forall rc n h,
  (forall ca, In ca rc -> snd ca < length h) ->
  n + length rc <= length h ->
  map (hget h) (seq n (length rc)) = map D rc ->
  exists X cr,
    ser_phase SerExplicitOnly smap ser h (List.combine rc (fresh_refs n rc)) = (h ++ X, cr) /\
    wire (h ++ X) cr = map (fun ca => (fst ca, Some (sval smap ser (fst ca) (hget h (snd ca)) (D ca)))) rc /\
    (forall a, In a (addrs_of cr) -> n <= a < n + length rc \/ length h <= a < length (h ++ X)) /\
    NoDup (addrs_of cr).
Proof.
  induction rc as [|[c e] rc IH]; intros n h Hex Hn HD.
  - exists [], []. rewrite app_nil_r. repeat split; [intros a [] | constructor].
  - cbn [length seq map] in Hn, HD. injection HD as Hd HD.
    destruct (ser_one_spec smap ser h c e c n) as (X1 & a1 & E1 & W1 & R1). rewrite Hd in W1.
    destruct (IH (S n) (h ++ X1)) as (X2 & cr & E2 & W2 & R2 & N2).
    { intros ca Hca. specialize (Hex ca (or_intror Hca)). rewrite app_length. lia. }
    { rewrite app_length. lia. }
    { rewrite <- HD. apply map_ext_in. intros a Ha. apply in_seq in Ha. apply hget_app_l. lia. }
    rewrite !app_length in *.
    exists (X1 ++ X2), ((c, Some a1) :: cr). cbn [fresh_refs List.combine ser_phase fst]. rewrite E1. cbn [fst snd].
    rewrite E2. cbn [fst snd]. rewrite app_assoc. split; [reflexivity|]. split; [|split].
    + unfold wire in *. cbn [map fst snd]. rewrite W2, hget_app_l, W1 by (rewrite app_length; lia). f_equal.
      apply map_ext_in. intros ca Hca. rewrite (hget_app_l h X1) by (apply Hex; right; exact Hca). reflexivity.
    + rewrite addrs_of_cons, !app_length. cbn [length]. intros a [<-|Ha]; [|apply R2 in Ha]; lia.
    + rewrite addrs_of_cons. constructor; [|exact N2]. intros Hin. apply R2 in Hin. lia.
Qed.

Lemma build_case_spec draw smap ser h0 idx rc ext :
  forallb (fun ca => Nat.ltb (snd ca) (length h0)) rc = true ->
  forallb (fun ca => is_some (draw idx (fst ca) (hget h0 (snd ca)))) rc = true ->
  exists Y cr,
    build_case CopyWhenDrawn SerExplicitOnly draw smap ser idx (h0 ++ ext) rc = ((h0 ++ ext) ++ Y, cr) /\
    wire ((h0 ++ ext) ++ Y) cr = case_value draw smap ser h0 idx rc /\
    (forall a, In a (addrs_of cr) -> length (h0 ++ ext) <= a < length ((h0 ++ ext) ++ Y)) /\
    NoDup (addrs_of cr).
Proof.
  intros Hwf Hdr. unfold build_case. cbv zeta.
  (* the ascription folds gen_case: rewrite does not see through the types of its pair *)
  rewrite (gen_phase draw h0 idx rc ext [] Hwf Hdr : gen_case _ _ _ _ _ = _). cbn [fst snd app].
  set (G := map (mval draw h0 idx) rc).
  assert (LG : length G = length rc) by apply map_length.
  assert (Hex : forall ca, In ca rc -> snd ca < length h0).
  { intros ca Hca. rewrite forallb_forall in Hwf. apply Nat.ltb_lt, Hwf, Hca. }
  destruct (ser_phase_spec smap ser (mval draw h0 idx) rc (length (h0 ++ ext)) ((h0 ++ ext) ++ G))
    as (X & cr & E & W & R & ND).
  - intros ca Hca. apply Hex in Hca. rewrite <- app_assoc, app_length. lia.
  - rewrite (app_length _ G). lia.
  - rewrite <- LG, <- (app_nil_r G) at 1. apply hget_seq.
  - exists (G ++ X), cr. rewrite app_assoc, E. split; [reflexivity|]. split; [|split].
    + rewrite W. apply map_ext_in. intros ca Hca.
      rewrite <- app_assoc, hget_app_l by (apply Hex, Hca). reflexivity.
    + intros a Ha. apply R in Ha. rewrite !app_length in *. lia.
    + exact ND.
Qed.

Lemma NoDup_app_lt (l1 l2 : list nat) m :
  NoDup l1 -> NoDup l2 -> (forall a, In a l1 -> a < m) -> (forall a, In a l2 -> m <= a) -> NoDup (l1 ++ l2).
Proof.
  induction l1 as [|x l1 IH]; intros N1 N2 H1 H2; [exact N2|].
  cbn [app]. inversion N1 as [|y l Hx N1']; subst. constructor.
  - intros Hin. apply in_app_or in Hin. destruct Hin as [Hin|Hin]; [exact (Hx Hin)|].
    specialize (H1 x (or_introl eq_refl)). specialize (H2 x Hin). lia.
  - apply IH; [exact N1' | exact N2 | intros a Ha; apply H1; right; exact Ha | exact H2].
Qed.

(* the whole sequence, from any heap h that extends the source heap h0 *)
Lemma assemble_spec draw smap ser h0 : forall rcs idx h,
  (exists ext, h = h0 ++ ext) ->
  wf_refs h0 rcs = true -> all_drawn draw h0 idx rcs = true ->
  exists Y crs,
    assemble_from CopyWhenDrawn SerExplicitOnly draw smap ser idx h rcs = (h ++ Y, crs) /\
    map (wire (h ++ Y)) crs = values_from draw smap ser h0 idx rcs /\
    (forall a, In a (case_addrs crs) -> length h <= a < length (h ++ Y)) /\
    NoDup (case_addrs crs).
Proof.
  induction rcs as [|rc rcs IH]; intros idx h [ext ->] Hwf Hdr.
  - exists [], []. cbn. rewrite app_nil_r. split; [reflexivity|]. split; [reflexivity|]. split; [intros a [] | constructor].
  - cbn [wf_refs forallb] in Hwf. apply andb_true_iff in Hwf. destruct Hwf as [Hw1 Hwf].
    cbn [all_drawn] in Hdr. apply andb_true_iff in Hdr. destruct Hdr as [Hd1 Hdr].
    destruct (build_case_spec draw smap ser h0 idx rc ext Hw1 Hd1) as (Y1 & cr & E1 & W1 & R1 & N1).
    destruct (IH (S idx) ((h0 ++ ext) ++ Y1)) as (Y2 & crs & E2 & W2 & R2 & N2);
      [exists (ext ++ Y1); symmetry; apply app_assoc | exact Hwf | exact Hdr |].
    set (h := h0 ++ ext) in *.
    exists (Y1 ++ Y2), (cr :: crs). cbn [assemble_from]. rewrite E1. cbn [fst snd]. rewrite E2. cbn [fst snd].
    rewrite app_assoc. split; [reflexivity|]. rewrite (app_length (h ++ Y1)) in *. split; [|split].
    + cbn [map values_from]. rewrite W2, wire_ext, W1; [reflexivity|]. intros a Ha. apply R1, Ha.
    + intros a Ha. rewrite case_addrs_cons in Ha. apply in_app_or in Ha.
      destruct Ha as [Ha|Ha]; [apply R1 in Ha | apply R2 in Ha]; rewrite app_length in *; lia.
    + rewrite case_addrs_cons. apply (NoDup_app_lt _ _ (length (h ++ Y1))); [exact N1 | exact N2 | |].
      * intros a Ha. apply R1, Ha.
      * intros a Ha. apply R2, Ha.
Qed.

Lemma cases_independent draw smap ser h0 rcs :
  wf_refs h0 rcs = true -> all_drawn draw h0 0 rcs = true ->
  wires CopyWhenDrawn SerExplicitOnly draw smap ser h0 rcs = values_from draw smap ser h0 0 rcs /\
  firstn (length h0) (fst (assemble CopyWhenDrawn SerExplicitOnly draw smap ser h0 rcs)) = h0 /\
  NoDup (case_addrs (snd (assemble CopyWhenDrawn SerExplicitOnly draw smap ser h0 rcs))) /\
  (forall a, In a (case_addrs (snd (assemble CopyWhenDrawn SerExplicitOnly draw smap ser h0 rcs))) -> length h0 <= a).
Proof.
  intros Hwf Hdr. unfold wires, assemble.
  destruct (assemble_spec draw smap ser h0 rcs 0 h0) as (Y & crs & E & W & R & ND);
    [exists []; symmetry; apply app_nil_r | exact Hwf | exact Hdr |].
  rewrite E. cbn [fst snd]. repeat split.
  - exact W.
  - rewrite firstn_app, Nat.sub_diag, firstn_all. cbn [firstn]. apply app_nil_r.
  - exact ND.
  - intros a Ha. apply R, Ha.
Qed.

Lemma nodup_strs_NoDup l : nodup_strs l = true -> NoDup l.
Proof.
  induction l as [|k l IH]; intros H; [constructor|].
  cbn [nodup_strs] in H. apply andb_true_iff in H. destruct H as [H1 H2]. constructor; [|apply IH; exact H2].
  intros Hin. apply in_strs_In in Hin. unfold in_strs in Hin. rewrite Hin in H1. discriminate H1.
Qed.

Lemma filter_all {A} (f : A -> bool) l : (forall x, In x l -> f x = true) -> filter f l = l.
Proof.
  induction l as [|x l IH]; intros H; [reflexivity|]. cbn [filter]. rewrite (H x (or_introl eq_refl)).
  f_equal. apply IH. intros y Hy. apply H. right. exact Hy.
Qed.

(* own / generated split a container by the keys of the explicit one *)
Lemma own_generated_disjoint (v new : dict) : (forall k, In k (keys new) -> ~ In k (keys v)) ->
  own v (v ++ new) = v /\ generated v (v ++ new) = new.
Proof.
  intros Dis.
  assert (Hv : forall kv, In kv v -> assoc_mem (fst kv) v = true).
  { intros kv H. apply assoc_mem_In, (in_map fst), H. }
  assert (Hn : forall kv, In kv new -> assoc_mem (fst kv) v = false).
  { intros kv H. destruct (assoc_mem (fst kv) v) eqn:E; [|reflexivity].
    apply assoc_mem_In in E. destruct (Dis _ (in_map fst _ _ H) E). }
  unfold own, generated. rewrite !filter_app, (filter_all _ v Hv), (filter_none _ new Hn).
  rewrite (filter_none _ v), (filter_all _ new).
  - rewrite app_nil_r. split; reflexivity.
  - intros kv H. rewrite (Hn kv H). reflexivity.
  - intros kv H. rewrite (Hv kv H). reflexivity.
Qed.

Lemma sval_disjoint smap ser c (v new : dict) :
  draw_ok v (Some new) = true ->
  sval smap ser c v (merged v new) = assoc_update (ser1 smap ser c v) new.
Proof.
  unfold draw_ok. intros H. apply andb_true_iff in H. destruct H as [H Hdis].
  apply andb_true_iff in H. destruct H as [Hne Hnd]. apply nodup_strs_NoDup in Hnd.
  rewrite forallb_forall in Hdis.
  assert (Dis : forall k, In k (keys new) -> ~ In k (keys v)).
  { intros k Hk Hv. apply Hdis in Hk. apply assoc_mem_In in Hv. rewrite Hv in Hk. discriminate Hk. }
  destruct v as [|x v0]; [discriminate Hne|]. set (v := x :: v0) in *.
  assert (M : merged v new = v ++ new) by (apply assoc_update_disjoint; assumption).
  unfold sval, ser1. rewrite M. destruct (smap c); cbn [andb is_nil negb app].
  - unfold ser_new. destruct (own_generated_disjoint v new Dis) as [-> ->]. reflexivity.
  - symmetry. exact M.
Qed.

Lemma fill_ok_all_drawn draw h0 : forall rcs idx,
  fill_ok draw h0 idx rcs = true -> all_drawn draw h0 idx rcs = true.
Proof.
  induction rcs as [|rc rcs IH]; intros idx H; [reflexivity|].
  cbn [fill_ok all_drawn] in *. apply andb_true_iff in H. destruct H as [H1 H2].
  apply andb_true_iff. split; [|apply IH; exact H2].
  rewrite forallb_forall in *. intros ca Hin. specialize (H1 ca Hin).
  destruct (draw idx (fst ca) (hget h0 (snd ca))); [reflexivity | discriminate H1].
Qed.

Lemma nothing_to_fill_fill_ok draw h0 : forall rcs idx,
  nothing_to_fill draw h0 idx rcs = true -> fill_ok draw h0 idx rcs = true.
Proof.
  induction rcs as [|rc rcs IH]; intros idx H; [reflexivity|].
  cbn [nothing_to_fill fill_ok] in *. apply andb_true_iff in H. destruct H as [H1 H2].
  apply andb_true_iff. split; [|apply IH; exact H2].
  rewrite forallb_forall in *. intros ca Hin. specialize (H1 ca Hin).
  apply andb_true_iff in H1. destruct H1 as [Hne H1].
  destruct (draw idx (fst ca) (hget h0 (snd ca))) as [[|]|]; try discriminate H1.
  unfold draw_ok. rewrite Hne. reflexivity.
Qed.

Lemma values_fill_ok draw smap ser h0 : forall rcs idx,
  fill_ok draw h0 idx rcs = true ->
  values_from draw smap ser h0 idx rcs = once_from draw smap ser idx (map (deref h0) rcs).
Proof.
  induction rcs as [|rc rcs IH]; intros idx H; [reflexivity|].
  cbn [fill_ok] in H. apply andb_true_iff in H. destruct H as [H1 H2].
  cbn [values_from map once_from]. f_equal; [|apply IH; exact H2].
  unfold case_value, once_case, deref. rewrite map_map. apply map_ext_in. intros ca Hin. cbn [fst snd].
  rewrite forallb_forall in H1. specialize (H1 ca Hin).
  destruct (draw idx (fst ca) (hget h0 (snd ca))) as [new|]; [|discriminate H1].
  cbn [strip]. rewrite (sval_disjoint smap ser (fst ca) _ _ H1). reflexivity.
Qed.

Lemma serialized_once draw smap ser h0 rcs :
  wf_refs h0 rcs = true -> fill_ok draw h0 0 rcs = true ->
  wires CopyWhenDrawn SerExplicitOnly draw smap ser h0 rcs = once_from draw smap ser 0 (map (deref h0) rcs).
Proof.
  intros Hwf Hn.
  destruct (cases_independent draw smap ser h0 rcs Hwf (fill_ok_all_drawn draw h0 rcs 0 Hn)) as [W _].
  rewrite W. apply values_fill_ok. exact Hn.
Qed.

(* nothing to fill in and a serializer for every container (the input class of seed
   C17_c): once_from is examples_serialized_once *)
Lemma once_nothing_to_fill draw ser h0 : forall rcs idx,
  nothing_to_fill draw h0 idx rcs = true ->
  once_from draw smap_all ser idx (map (deref h0) rcs) = examples_serialized_once ser h0 rcs.
Proof.
  induction rcs as [|rc rcs IH]; intros idx H; [reflexivity|].
  cbn [nothing_to_fill] in H. apply andb_true_iff in H. destruct H as [H1 H2].
  unfold examples_serialized_once in *. cbn [map once_from]. f_equal; [|apply IH; exact H2].
  unfold once_case, deref. rewrite map_map. apply map_ext_in. intros ca Hin. cbn [fst snd].
  rewrite forallb_forall in H1. specialize (H1 ca Hin). apply andb_true_iff in H1. destruct H1 as [_ H1].
  destruct (draw idx (fst ca) (hget h0 (snd ca))) as [[|]|]; try discriminate H1. reflexivity.
Qed.

Lemma example_serialized_once_nothing_to_fill draw ser h0 rcs :
  wf_refs h0 rcs = true -> nothing_to_fill draw h0 0 rcs = true ->
  wires CopyWhenDrawn SerExplicitOnly draw smap_all ser h0 rcs = examples_serialized_once ser h0 rcs.
Proof.
  intros Hwf Hn. rewrite (serialized_once draw smap_all ser h0 rcs Hwf (nothing_to_fill_fill_ok draw h0 rcs 0 Hn)).
  apply once_nothing_to_fill. exact Hn.
Qed.

Definition s_path_parameters : str := [112;97;116;104;95;112;97;114;97;109;101;116;101;114;115]%N.
Definition s_id : str := [105;100]%N.
Definition s_json_mt : str := [97;112;112;108;105;99;97;116;105;111;110;47;106;115;111;110]%N.
(* one path parameter with one example (the string 5), three body examples *)
Definition exs_shared : list example :=
  [PEx s_path_parameters s_id (JStr [53%N]);
   BEx (JInt 1) s_json_mt; BEx (JInt 2) s_json_mt; BEx (JInt 3) s_json_mt].
Definition draw_nothing : draw_fn := fun _ _ _ => Some [].

(* the one parameter combination is handed out three times: one object *)
Lemma exs_shared_refs :
  ref_combinations exs_shared =
  ([[(s_id, JStr [53%N])]], [[(s_path_parameters, 0)]; [(s_path_parameters, 0)]; [(s_path_parameters, 0)]]).
Proof. vm_compute. reflexivity. Qed.

(* witness of finding F7 (notes/C17.md; the rule before commit cedd1977): a = 5 explicit, b = 3 drawn by a strategy
   that applies the style serializer itself (draw_of_strategy ser_matrix post_id raw_fill_b) *)
Definition s_a : str := [97]%N.
Definition s_b : str := [98]%N.
Definition raw_fill_b : draw_fn := fun _ _ _ => Some [(s_b, JStr [51%N])].
Definition post_id : ser_fn := fun _ d => d.

(* what goes out for the witness: the code a = ;a=5, b = ;b=3 (each once);
   the whole-container rule a = ;a=5 (once), b = ;b=;b=3 (twice) *)
Lemma fill_in_witness_value :
  wires CopyWhenDrawn SerExplicitOnly (draw_of_strategy ser_matrix post_id raw_fill_b) smap_all ser_matrix
        [[(s_a, JStr [53%N])]] [[(s_path_parameters, 0)]]
  = [[(s_path_parameters, Some [(s_a, JStr [59;97;61;53]%N); (s_b, JStr [59;98;61;51]%N)])]] /\
  wires CopyWhenDrawn SerWholeContainer (draw_of_strategy ser_matrix post_id raw_fill_b) smap_all ser_matrix
        [[(s_a, JStr [53%N])]] [[(s_path_parameters, 0)]]
  = [[(s_path_parameters, Some [(s_a, JStr [59;97;61;53]%N); (s_b, JStr [59;98;61;59;98;61;51]%N)])]].
Proof. split; vm_compute; reflexivity. Qed.

(* two parameter combinations cycled over three bodies *)
Definition exs_two : list example :=
  [PEx s_path_parameters s_id (JStr [53%N]); PEx s_path_parameters s_id (JStr [54%N]);
   BEx (JInt 1) s_json_mt; BEx (JInt 2) s_json_mt; BEx (JInt 3) s_json_mt].

