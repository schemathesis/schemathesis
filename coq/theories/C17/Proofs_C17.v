(* C17: lemmas about the model of the examples phase (Model_C17 sections 1-6), in this order:
   association lists; group, read by lookup and by invariants of its entries; the cycled
   combinations and produce_grouped; the strategy schema and draw_location; add_examples;
   the extraction functions on a schema and on a whole node; at the end the witnesses.
   The property theorems are in Properties_C17. *)
From Coq Require Import List NArith ZArith Bool PeanoNat Lia.
From Verif Require Import Common.Str Common.Json C17.Model_C17.
Import ListNotations.

Lemma assoc_get_keys {A} k (x : A) l : assoc_get k l = Some x -> In k (keys l).
Proof. intros H. apply assoc_get_in in H. apply (in_map fst) in H. exact H. Qed.

Lemma assoc_get_None {A} k (l : list (str * A)) : ~ In k (keys l) -> assoc_get k l = None.
Proof.
  intros N. destruct (assoc_get k l) as [x|] eqn:E; [destruct N; exact (assoc_get_keys k x l E) | reflexivity].
Qed.

Lemma In_NoDup_assoc_get {A} k (x : A) l : NoDup (keys l) -> In (k, x) l -> assoc_get k l = Some x.
Proof.
  induction l as [|[k' v'] r IH]; cbn; [intros _ []|].
  intros ND [H|H].
  - inversion H; subst. rewrite str_eqb_refl. reflexivity.
  - inversion ND as [|? ? Hn ND']; subst.
    destruct (str_eqb k k') eqn:E.
    + apply str_eqb_spec in E; subst. exfalso; apply Hn. apply (in_map fst) in H. exact H.
    + apply IH; assumption.
Qed.

Lemma assoc_mem_set {A} k k' (v : A) l : assoc_mem k (assoc_set k' v l) = str_eqb k k' || assoc_mem k l.
Proof.
  unfold assoc_mem. destruct (str_eqb k k') eqn:E.
  - apply str_eqb_spec in E; subst. rewrite assoc_get_set_same. reflexivity.
  - rewrite assoc_get_set_other by exact E. reflexivity.
Qed.

Lemma assoc_mem_update {A} k (u : list (str * A)) : forall b,
  assoc_mem k (assoc_update b u) = assoc_mem k b || in_strs k (keys u).
Proof.
  unfold assoc_update.
  induction u as [|[k1 v1] u IH]; intros b; cbn; [rewrite orb_false_r; reflexivity|].
  rewrite IH, assoc_mem_set. destruct (str_eqb k k1), (assoc_mem k b); reflexivity.
Qed.

Lemma in_strs_In k l : in_strs k l = true <-> In k l.
Proof.
  unfold in_strs. rewrite existsb_exists. split.
  - intros [x [Hx E]]. apply str_eqb_spec in E; subst. exact Hx.
  - intros H. exists k. split; [exact H | apply str_eqb_refl].
Qed.

Lemma assoc_mem_In {A} k (l : list (str * A)) : assoc_mem k l = true <-> In k (keys l).
Proof.
  unfold assoc_mem. split.
  - destruct (assoc_get k l) eqn:E; [intros _; eapply assoc_get_keys; exact E | discriminate].
  - intros H. destruct (assoc_get k l) eqn:E; [reflexivity|].
    exfalso. induction l as [|[k' v'] r IH]; [destruct H|].
    cbn in E, H. destruct (str_eqb k k') eqn:E'; [discriminate|].
    destruct H as [H|H]; [subst; rewrite str_eqb_refl in E'; discriminate | auto].
Qed.

Lemma assoc_set_fresh {A} k (v : A) l : ~ In k (keys l) -> assoc_set k v l = l ++ [(k, v)].
Proof.
  induction l as [|[k1 v1] l IH]; intros N; [reflexivity|].
  cbn [assoc_set]. destruct (str_eqb k k1) eqn:E.
  - apply str_eqb_spec in E. subst. exfalso. apply N. left. reflexivity.
  - cbn [app]. f_equal. apply IH. intros H. apply N. right. exact H.
Qed.

Lemma assoc_update_disjoint {A} : forall (u b : list (str * A)),
  NoDup (keys u) -> (forall k, In k (keys u) -> ~ In k (keys b)) -> assoc_update b u = b ++ u.
Proof.
  unfold assoc_update.
  induction u as [|[k v] u IH]; intros b ND Dis; [cbn; rewrite app_nil_r; reflexivity|].
  cbn [fold_left fst snd]. inversion ND as [|x l Hk ND1]; subst.
  rewrite assoc_set_fresh; [|apply Dis; left; reflexivity].
  rewrite IH; [rewrite <- app_assoc; reflexivity | exact ND1 |].
  intros k1 Hin H. unfold keys in H. rewrite map_app, in_app_iff in H. destruct H as [H|[H|[]]].
  - exact (Dis k1 (or_intror Hin) H).
  - cbn in H. subst. exact (Hk Hin).
Qed.

(* d.get(k, []) on the grouped dictionaries, and the list they are specified by: the
   values of the examples of parameter (c, n) / of media type mt, in the order of the list *)
Definition getl {A} (k : str) (l : list (str * list A)) : list A :=
  match assoc_get k l with Some v => v | None => [] end.
Definition get2 (c n : str) (p : pgroups) : list json := getl n (getl c p).

Definition pvals (c n : str) (exs : list example) : list json :=
  flat_map (fun e => match e with
                     | PEx c' n' v => if str_eqb c c' && str_eqb n n' then [v] else []
                     | BEx _ _ => [] end) exs.
Definition bvals (mt : str) (exs : list example) : list json :=
  flat_map (fun e => match e with
                     | BEx v mt' => if str_eqb mt mt' then [v] else []
                     | PEx _ _ _ => [] end) exs.

Lemma getl_push_val k k' v l :
  getl k (push_val k' v l) = getl k l ++ (if str_eqb k k' then [v] else []).
Proof.
  unfold getl. induction l as [|[k2 vs] r IH]; cbn.
  - destruct (str_eqb k k'); reflexivity.
  - destruct (str_eqb k' k2) eqn:E2; cbn.
    + apply str_eqb_spec in E2; subst k2.
      destruct (str_eqb k k') eqn:E; [reflexivity|]. rewrite app_nil_r. reflexivity.
    + destruct (str_eqb k k2) eqn:E; [|exact IH].
      apply str_eqb_spec in E; subst k2. rewrite (str_eqb_sym k k'), E2, app_nil_r. reflexivity.
Qed.

Lemma getl_push_param c c' n' v p :
  getl c (push_param c' n' v p) = if str_eqb c c' then push_val n' v (getl c p) else getl c p.
Proof.
  unfold getl. induction p as [|[c2 m] r IH]; cbn.
  - destruct (str_eqb c c'); reflexivity.
  - destruct (str_eqb c' c2) eqn:E2; cbn.
    + apply str_eqb_spec in E2; subst c2. destruct (str_eqb c c'); reflexivity.
    + destruct (str_eqb c c2) eqn:E; [|exact IH].
      apply str_eqb_spec in E; subst c2. rewrite (str_eqb_sym c c'), E2. reflexivity.
Qed.

Lemma get2_push_param c n c' n' v p :
  get2 c n (push_param c' n' v p) = get2 c n p ++ (if str_eqb c c' && str_eqb n n' then [v] else []).
Proof.
  unfold get2. rewrite getl_push_param. destruct (str_eqb c c'); cbn [andb].
  - apply getl_push_val.
  - symmetry. apply app_nil_r.
Qed.

Lemma group_snoc exs e : group (exs ++ [e]) = group_step (group exs) e.
Proof. unfold group. rewrite fold_left_app. reflexivity. Qed.

Lemma get2_group c n exs : get2 c n (fst (group exs)) = pvals c n exs.
Proof.
  induction exs as [|e exs IH] using rev_ind; [reflexivity|].
  rewrite group_snoc. unfold pvals. rewrite flat_map_app. fold (pvals c n exs). rewrite <- IH. cbn [flat_map]. rewrite app_nil_r.
  destruct e as [c' n' v | v mt]; cbn [group_step fst snd]; [apply get2_push_param | symmetry; apply app_nil_r].
Qed.

Lemma getl_group mt exs : getl mt (snd (group exs)) = bvals mt exs.
Proof.
  induction exs as [|e exs IH] using rev_ind; [reflexivity|].
  rewrite group_snoc. unfold bvals. rewrite flat_map_app. fold (bvals mt exs). rewrite <- IH. cbn [flat_map]. rewrite app_nil_r.
  destruct e as [c' n' v | v mt']; cbn [group_step fst snd]; [symmetry; apply app_nil_r | apply getl_push_val].
Qed.

Lemma In_pvals c n v exs : In v (pvals c n exs) <-> In (PEx c n v) exs.
Proof.
  unfold pvals. rewrite in_flat_map. split.
  - intros [e [He Hv]]. destruct e as [c' n' v' | ? ?]; [|destruct Hv].
    destruct (str_eqb c c') eqn:E1; [|destruct Hv]. destruct (str_eqb n n') eqn:E2; [|destruct Hv].
    apply str_eqb_spec in E1, E2; subst. destruct Hv as [<-|[]]. exact He.
  - intros H. exists (PEx c n v). split; [exact H|]. rewrite !str_eqb_refl. left; reflexivity.
Qed.

Lemma In_bvals mt v exs : In v (bvals mt exs) <-> In (BEx v mt) exs.
Proof.
  unfold bvals. rewrite in_flat_map. split.
  - intros [e [He Hv]]. destruct e as [? ? ? | v' mt']; [destruct Hv|].
    destruct (str_eqb mt mt') eqn:E1; [|destruct Hv].
    apply str_eqb_spec in E1; subst. destruct Hv as [<-|[]]. exact He.
  - intros H. exists (BEx v mt). split; [exact H|]. rewrite str_eqb_refl. left; reflexivity.
Qed.

Lemma length_pvals c n exs : length (pvals c n exs) = length (filter (same_key c n) exs).
Proof.
  induction exs as [|e exs IH]; [reflexivity|].
  cbn [pvals flat_map filter]. fold (pvals c n exs). rewrite app_length, IH.
  destruct e as [c' n' v | ? ?]; cbn [same_key]; [|reflexivity].
  destruct (str_eqb c c' && str_eqb n n'); reflexivity.
Qed.

Lemma get2_found c n v p : In v (get2 c n p) ->
  exists m vs, assoc_get c p = Some m /\ assoc_get n m = Some vs /\ vs = get2 c n p.
Proof.
  unfold get2, getl. intros H.
  destruct (assoc_get c p) as [m|] eqn:E1; [|destruct H].
  destruct (assoc_get n m) as [vs|] eqn:E2; [|destruct H].
  exists m, vs. auto.
Qed.

Lemma keys_push_val k v l :
  keys (push_val k v l) = if in_strs k (keys l) then keys l else keys l ++ [k].
Proof.
  unfold keys, in_strs. induction l as [|[k2 vs] r IH]; cbn; [reflexivity|].
  destruct (str_eqb k k2) eqn:E; cbn; [reflexivity|].
  rewrite IH. destruct (existsb (str_eqb k) (map fst r)); reflexivity.
Qed.

Lemma keys_push_param c n v p :
  keys (push_param c n v p) = if in_strs c (keys p) then keys p else keys p ++ [c].
Proof.
  unfold keys, in_strs. induction p as [|[c2 m] r IH]; cbn; [reflexivity|].
  destruct (str_eqb c c2) eqn:E; cbn; [reflexivity|].
  rewrite IH. destruct (existsb (str_eqb c) (map fst r)); reflexivity.
Qed.

(* the keys of the parameters dictionary are pairwise different and inherit any property
   P of the containers of the examples *)
Lemma keys_group (P : str -> Prop) exs : (forall c n v, In (PEx c n v) exs -> P c) ->
  NoDup (keys (fst (group exs))) /\ Forall P (keys (fst (group exs))).
Proof.
  induction exs as [|e exs IH] using rev_ind; intros H; [split; constructor|].
  destruct IH as [ND F]; [intros c n v Hin; apply (H c n v), in_or_app; left; exact Hin|].
  rewrite group_snoc. destruct e as [c n v | v mt]; cbn [group_step fst snd]; [|split; assumption].
  rewrite keys_push_param. destruct (in_strs c (keys (fst (group exs)))) eqn:E; [split; assumption|]. split.
  - apply (NoDup_Add (Add_app c _ [])). rewrite app_nil_r. split; [exact ND|].
    intros Hc. apply in_strs_In in Hc. congruence.
  - apply Forall_app. split; [exact F|]. constructor; [|constructor].
    apply (H c n v), in_or_app. right. left. reflexivity.
Qed.

(* the keys of a dictionary of containers: distinct, none is media_type / body *)
Definition good_keys {A} (p : list (str * A)) : Prop :=
  NoDup (keys p) /\ Forall (fun k => container_ok k = true) (keys p).

Lemma good_keys_group exs : containers_ok exs = true -> good_keys (fst (group exs)).
Proof.
  intros H. apply keys_group. intros c n v Hin.
  unfold containers_ok in H. rewrite forallb_forall in H. exact (H _ Hin).
Qed.

Lemma cyc_small {A} (d : A) l i : i < length l -> cyc d l i = nth i l d.
Proof. intros H. unfold cyc. rewrite Nat.mod_small by exact H. reflexivity. Qed.

Lemma cyc_In {A} (d : A) l i : l <> [] -> In (cyc d l i) l.
Proof.
  intros N. unfold cyc. apply nth_In. apply Nat.mod_upper_bound.
  destruct l; [contradiction | cbn; lia].
Qed.

Lemma cyc_cases {A} (d : A) l i : (l = [] /\ cyc d l i = d) \/ In (cyc d l i) l.
Proof.
  destruct l as [|x l]; [left; split; [reflexivity|]|right; apply cyc_In; discriminate].
  unfold cyc. cbn. destruct i; reflexivity.
Qed.

Lemma In_le_list_max x l : In x l -> x <= list_max l.
Proof.
  intros H. assert (F : Forall (fun k => k <= list_max l) l) by (apply list_max_le; lia).
  rewrite Forall_forall in F. apply F. exact H.
Qed.

Lemma length_get2_le_max c n p : length (get2 c n p) <= max_len p.
Proof.
  destruct (get2 c n p) as [|v l] eqn:E; [apply Nat.le_0_l|]. rewrite <- E.
  destruct (get2_found c n v p) as (m & vs & H1 & H2 & <-); [rewrite E; left; reflexivity|].
  apply In_le_list_max. unfold max_len. rewrite in_flat_map.
  exists (c, m). split; [apply assoc_get_in; exact H1|].
  cbn. apply (in_map (fun nv => length (snd nv)) _ (n, vs)). apply assoc_get_in. exact H2.
Qed.

Lemma length_param_combos p : length (param_combos p) = max_len p.
Proof. unfold param_combos. rewrite map_length, seq_length. reflexivity. Qed.

Lemma param_combo_get c p i :
  assoc_get c (param_combo p i) =
  option_map (fun m => KCont (map (fun nv => (fst nv, cyc JNull (snd nv) i)) m)) (assoc_get c p).
Proof. unfold param_combo. apply (assoc_get_map (fun m => KCont (map (fun nv => (fst nv, cyc JNull (snd nv) i)) m))). Qed.

Lemma keys_param_combo p i : keys (param_combo p i) = keys p.
Proof. unfold param_combo, keys. rewrite map_map. reflexivity. Qed.

Lemma param_combo_carries c n p i : i < length (get2 c n p) ->
  carries (param_combo p i) (PEx c n (nth i (get2 c n p) JNull)).
Proof.
  intros Hi. destruct (get2_found c n _ p (nth_In _ JNull Hi)) as (m & vs & E1 & E2 & Evs).
  cbn [carries]. eexists. split.
  - rewrite param_combo_get, E1. cbn [option_map]. reflexivity.
  - rewrite (assoc_get_map (fun vs0 => cyc JNull vs0 i)), E2. cbn [option_map].
    rewrite Evs, cyc_small by exact Hi. reflexivity.
Qed.

Definition AllV (Q : str -> list json -> Prop) (m : list (str * list json)) : Prop :=
  forall n vs, In (n, vs) m -> Q n vs.
Definition AllG (Q : str -> str -> list json -> Prop) (p : pgroups) : Prop :=
  forall c m n vs, In (c, m) p -> In (n, vs) m -> Q c n vs.

(* an invariant of the entries along one push: the entries left alone weaken Q to Q', the
   entry pushed to steps, a new entry starts *)
Lemma AllV_push (Q Q' : str -> list json -> Prop) n' v m :
  AllV Q m -> (forall n vs, Q n vs -> Q' n vs) ->
  (forall vs, Q n' vs -> Q' n' (vs ++ [v])) -> Q' n' [v] ->
  AllV Q' (push_val n' v m).
Proof.
  intros HA Hmono Hstep Hnew. induction m as [|[k2 vs2] r IH]; cbn.
  - intros n vs [H|[]]. inversion H; subst. exact Hnew.
  - destruct (str_eqb n' k2) eqn:E.
    + apply str_eqb_spec in E; subst k2. intros n vs [H|H].
      * inversion H; subst. apply Hstep. apply (HA n vs2). left; reflexivity.
      * apply Hmono. apply (HA n vs). right; exact H.
    + intros n vs [H|H].
      * inversion H; subst. apply Hmono. apply (HA n vs). left; reflexivity.
      * apply IH; [|exact H]. intros n0 vs0 H0. apply (HA n0 vs0). right; exact H0.
Qed.

Lemma AllG_push (Q Q' : str -> str -> list json -> Prop) c' n' v p :
  AllG Q p -> (forall c n vs, Q c n vs -> Q' c n vs) ->
  (forall vs, Q c' n' vs -> Q' c' n' (vs ++ [v])) -> Q' c' n' [v] ->
  AllG Q' (push_param c' n' v p).
Proof.
  intros HA Hmono Hstep Hnew. induction p as [|[c2 m2] r IH]; cbn.
  - intros c m n vs [H|[]] Hn. inversion H; subst. destruct Hn as [Hn|[]]. inversion Hn; subst. exact Hnew.
  - destruct (str_eqb c' c2) eqn:E.
    + apply str_eqb_spec in E; subst c2. intros c m n vs [H|H] Hn.
      * inversion H; subst. revert n vs Hn.
        apply (AllV_push (Q c) (Q' c) n' v m2); auto.
        intros n vs Hn. apply (HA c m2 n vs); [left; reflexivity | exact Hn].
      * apply Hmono. apply (HA c m n vs); [right; exact H | exact Hn].
    + intros c m n vs [H|H] Hn.
      * inversion H; subst. apply Hmono. apply (HA c m n vs); [left; reflexivity | exact Hn].
      * apply (IH (fun c0 m0 n0 vs0 H0 => HA c0 m0 n0 vs0 (or_intror H0)) c m n vs H Hn).
Qed.

(* the default of cyc is never taken: no grouped list is empty *)
Lemma group_nonempty exs : AllG (fun _ _ vs => vs <> []) (fst (group exs)).
Proof.
  induction exs as [|e exs IH] using rev_ind; [intros c m n vs []|].
  rewrite group_snoc. destruct e as [c n v | v mt]; cbn [group_step fst snd]; [|exact IH].
  apply (AllG_push (fun _ _ vs => vs <> []) (fun _ _ vs => vs <> [])); auto.
  - intros vs _ H. destruct vs; discriminate.
  - discriminate.
Qed.

Lemma bnonempty_fold exs : forall p b, AllV (fun _ vs => vs <> []) b ->
  AllV (fun _ vs => vs <> []) (snd (fold_left group_step exs (p, b))).
Proof.
  induction exs as [|e exs IH]; intros p b G; cbn [fold_left]; [exact G|].
  destruct e as [c n v | v mt]; cbn [group_step fst snd]; apply IH; [exact G|].
  apply (AllV_push (fun _ vs => vs <> []) (fun _ vs => vs <> [])); auto.
  - intros vs _ H. destruct vs; discriminate.
  - discriminate.
Qed.

Lemma param_combo_carries_inv c n v p i : AllG (fun _ _ vs => vs <> []) p ->
  carries (param_combo p i) (PEx c n v) -> In v (get2 c n p).
Proof.
  intros NE. cbn [carries]. intros (m & H1 & H2).
  rewrite param_combo_get in H1. destruct (assoc_get c p) as [m0|] eqn:E1; [|discriminate].
  cbn [option_map] in H1. inversion H1; subst m. clear H1.
  rewrite (assoc_get_map (fun vs0 => cyc JNull vs0 i)) in H2.
  destruct (assoc_get n m0) as [vs|] eqn:E2; [|discriminate].
  cbn [option_map] in H2. inversion H2; subst v. clear H2.
  unfold get2, getl. rewrite E1, E2.
  apply cyc_In. apply (NE c m0 n vs); apply assoc_get_in; assumption.
Qed.

Lemma s_media_body : str_eqb s_body s_media_type = false.
Proof. reflexivity. Qed.

Lemma In_body_combos c0 b : In c0 (body_combos b) <->
  exists mt vs v, In (mt, vs) b /\ In v vs /\ c0 = [(s_media_type, KStr mt); (s_body, KVal v)].
Proof.
  unfold body_combos. rewrite in_flat_map. split.
  - intros [[mt vs] [H1 H2]]. cbn in H2. apply in_map_iff in H2. destruct H2 as [v [<- Hv]].
    exists mt, vs, v. auto.
  - intros (mt & vs & v & H1 & H2 & ->). exists (mt, vs). split; [exact H1|].
    cbn. apply in_map_iff. exists v. auto.
Qed.

Lemma body_combo_carries mt v : carries [(s_media_type, KStr mt); (s_body, KVal v)] (BEx v mt).
Proof. split; reflexivity. Qed.

Lemma getl_found {A} k (v : A) l : In v (getl k l) -> In (k, getl k l) l.
Proof.
  unfold getl. destruct (assoc_get k l) eqn:E; [|intros []]. intros _. apply assoc_get_in. exact E.
Qed.

Lemma bodies_sound_group exs :
  AllV (fun mt vs => forall v, In v vs -> In (BEx v mt) exs) (snd (group exs)).
Proof.
  induction exs as [|e exs IH] using rev_ind; [intros mt vs []|].
  rewrite group_snoc. destruct e as [c n v | v mt]; cbn [group_step fst snd].
  - intros mt vs H v0 Hv. apply in_or_app. left. exact (IH mt vs H v0 Hv).
  - apply (AllV_push (fun mt0 vs0 => forall v0, In v0 vs0 -> In (BEx v0 mt0) exs)); [exact IH | | |].
    + intros mt0 vs0 H v0 Hv. apply in_or_app. left. auto.
    + intros vs0 H v0 Hv. apply in_app_iff in Hv. apply in_or_app.
      destruct Hv as [Hv|[<-|[]]]; [left; auto | right; left; reflexivity].
    + intros v0 [<-|[]]. apply in_or_app. right. left. reflexivity.
Qed.

Lemma container_ok_neq c : container_ok c = true -> c <> s_media_type /\ c <> s_body.
Proof.
  unfold container_ok. intros H. apply andb_true_iff in H. destruct H as [H1 H2].
  apply negb_true_iff in H1, H2. split; apply str_eqb_false; assumption.
Qed.

Lemma good_keys_body {A} (pc : list (str * A)) k :
  good_keys pc -> k = s_media_type \/ k = s_body -> ~ In k (keys pc).
Proof.
  intros [_ F] Hk Hin. rewrite Forall_forall in F. apply F, container_ok_neq in Hin.
  destruct Hin, Hk; subst; contradiction.
Qed.

Lemma carries_nil e : ~ carries [] e.
Proof. destruct e; cbn; [intros (m & H & _) | intros [H _]]; discriminate. Qed.

Lemma carriesb_spec c e : carriesb c e = true <-> carries c e.
Proof.
  split; destruct e as [cn n v | v mt]; cbn.
  - destruct (assoc_get cn c) as [[s|b|m]|] eqn:E1; try discriminate.
    destruct (assoc_get n m) as [v'|] eqn:E2; try discriminate.
    intros H. apply json_eqb_eq in H. subst v'. exists m. split; [reflexivity | exact E2].
  - destruct (assoc_get s_media_type c) as [[mt'|b|m]|] eqn:E1; try discriminate.
    destruct (assoc_get s_body c) as [[s|v'|m]|] eqn:E2; try discriminate.
    intros H. apply andb_true_iff in H. destruct H as [H1 H2].
    apply str_eqb_spec in H1. apply json_eqb_eq in H2. subst. split; reflexivity.
  - intros [m [H1 H2]]. rewrite H1, H2. apply json_eqb_refl.
  - intros [H1 H2]. rewrite H1, H2. rewrite str_eqb_refl, json_eqb_refl. reflexivity.
Qed.

Lemma carries_merge_param (pc bc : combo) c n v :
  good_keys pc -> carries pc (PEx c n v) -> carries (assoc_update bc pc) (PEx c n v).
Proof.
  intros G (m & H1 & H2). exists m. split; [|exact H2].
  rewrite assoc_update_get, H1 by apply G. reflexivity.
Qed.

Lemma carries_merge_body (pc bc : combo) v mt :
  good_keys pc -> carries bc (BEx v mt) -> carries (assoc_update bc pc) (BEx v mt).
Proof.
  intros G H. cbn [carries]. rewrite !assoc_update_other by (apply assoc_get_None, (good_keys_body pc); auto). exact H.
Qed.

Lemma carries_merge_inv (pc bc : combo) e :
  good_keys pc -> carries (assoc_update bc pc) e -> carries pc e \/ carries bc e.
Proof.
  intros G. destruct e as [cn n v | v mt]; cbn [carries].
  - intros (m & H1 & H2). rewrite assoc_update_get in H1 by apply G.
    destruct (assoc_get cn pc); [left | right]; exists m; split; assumption.
  - intros H. right. rewrite !assoc_update_other in H by (apply assoc_get_None, (good_keys_body pc); auto). exact H.
Qed.

Lemma cyc_param_combos p i :
  cyc [] (param_combos p) i = [] \/ exists i0, cyc [] (param_combos p) i = param_combo p i0.
Proof.
  destruct (cyc_cases [] (param_combos p) i) as [[_ H]|H]; [left; exact H | right].
  unfold param_combos in H at 2. apply in_map_iff in H. destruct H as (i0 & H & _).
  exists i0. symmetry. exact H.
Qed.

Lemma cyc_param_combo p i : i < max_len p -> cyc [] (param_combos p) i = param_combo p i.
Proof.
  intros H. rewrite cyc_small by (rewrite length_param_combos; exact H). unfold param_combos.
  rewrite (nth_indep _ [] (param_combo p 0)) by (rewrite map_length, seq_length; exact H).
  rewrite map_nth, seq_nth by exact H. reflexivity.
Qed.

Lemma good_keys_cyc p i : good_keys p -> good_keys (cyc [] (param_combos p) i).
Proof.
  intros G. destruct (cyc_param_combos p i) as [->|[i0 ->]]; [split; constructor|].
  unfold good_keys. rewrite keys_param_combo. exact G.
Qed.

Lemma combine_nth pc bc i : i < Nat.max (length pc) (length bc) ->
  In (assoc_update (cyc [] bc i) (cyc [] pc i)) (combine pc bc).
Proof.
  intros H. unfold combine. apply in_map_iff. exists i. split; [reflexivity|]. apply in_seq. split; [apply Nat.le_0_l | exact H].
Qed.

(* produce_grouped, whichever of its four cases applies: the parameter combination of
   every index below max_len and every body combination are carried by a member, and
   a member carries only what a parameter combination or a body combination carries *)
Lemma produce_grouped_param p b i : good_keys p -> i < max_len p ->
  exists c0, In c0 (produce_grouped p b) /\
    forall c n v, carries (param_combo p i) (PEx c n v) -> carries c0 (PEx c n v).
Proof.
  intros G Hi.
  assert (Hin : In (param_combo p i) (param_combos p)) by (apply in_map, in_seq; lia).
  unfold produce_grouped. destruct b as [|b0 br]; destruct p as [|p0 pr]; try (cbn in Hi; lia).
  - exists (param_combo (p0 :: pr) i). split; [exact Hin | auto].
  - exists (assoc_update (cyc [] (body_combos (b0 :: br)) i) (cyc [] (param_combos (p0 :: pr)) i)). split.
    + apply combine_nth. rewrite length_param_combos. lia.
    + intros c n v H. apply carries_merge_param; [apply good_keys_cyc, G|].
      rewrite cyc_param_combo by exact Hi. exact H.
Qed.

Lemma produce_grouped_body p b bc v mt : good_keys p -> In bc (body_combos b) -> carries bc (BEx v mt) ->
  exists c0, In c0 (produce_grouped p b) /\ carries c0 (BEx v mt).
Proof.
  intros G Hin Hc. unfold produce_grouped. destruct b as [|b0 br]; [destruct Hin|].
  destruct p as [|p0 pr]; [exists bc; auto|].
  destruct (In_nth _ _ [] Hin) as (j & Hj & Hnj).
  exists (assoc_update (cyc [] (body_combos (b0 :: br)) j) (cyc [] (param_combos (p0 :: pr)) j)). split.
  - apply combine_nth. eapply Nat.lt_le_trans; [exact Hj | apply Nat.le_max_r].
  - apply carries_merge_body; [apply good_keys_cyc, G|]. rewrite cyc_small, Hnj by exact Hj. exact Hc.
Qed.

Lemma produce_grouped_inv p b c0 x : good_keys p -> In c0 (produce_grouped p b) -> carries c0 x ->
  (exists i, carries (param_combo p i) x) \/ (exists bc, In bc (body_combos b) /\ carries bc x).
Proof.
  intros G Hc Hx. unfold produce_grouped in Hc. destruct b as [|b0 br]; destruct p as [|p0 pr].
  - destruct Hc.
  - apply in_map_iff in Hc. destruct Hc as (i & <- & _). left. exists i. exact Hx.
  - right. exists c0. auto.
  - apply in_map_iff in Hc. destruct Hc as (i & <- & _).
    apply carries_merge_inv in Hx; [|apply good_keys_cyc, G]. destruct Hx as [Hx|Hx].
    + destruct (cyc_param_combos (p0 :: pr) i) as [E|[i0 E]]; rewrite E in Hx;
        [destruct (carries_nil _ Hx) | left; exists i0; exact Hx].
    + destruct (cyc_cases [] (body_combos (b0 :: br)) i) as [[_ E]|H];
        [rewrite E in Hx; destruct (carries_nil _ Hx) | right; eexists; split; [exact H | exact Hx]].
Qed.

Lemma body_combo_inv exs c0 x : In c0 (body_combos (snd (group exs))) -> carries c0 x -> In x exs.
Proof.
  intros Hc Hx. apply In_body_combos in Hc. destruct Hc as (mt & vs & v & H1 & H2 & ->).
  destruct x as [cn n v' | v' mt'].
  - destruct Hx as (m & Hm & _). cbn in Hm.
    destruct (str_eqb cn s_media_type); [discriminate|]. destruct (str_eqb cn s_body); discriminate.
  - destruct Hx as [Hmt Hb]. cbn in Hmt, Hb.
    inversion Hmt; inversion Hb; subst. eapply bodies_sound_group; eassumption.
Qed.

Lemma length_body_combos_push mt v b :
  length (body_combos (push_val mt v b)) = S (length (body_combos b)).
Proof.
  unfold body_combos. induction b as [|[k2 vs] r IH]; cbn; [reflexivity|].
  destruct (str_eqb mt k2); cbn.
  - rewrite !app_length, !map_length, app_length. cbn. lia.
  - rewrite !app_length. rewrite <- Nat.add_succ_r. f_equal. exact IH.
Qed.

Lemma length_body_group exs : length (body_combos (snd (group exs))) = n_bodies exs.
Proof.
  unfold n_bodies. induction exs as [|e exs IH] using rev_ind; [reflexivity|].
  rewrite group_snoc, filter_app, app_length, <- IH.
  destruct e as [c n v | v mt]; cbn [group_step fst snd is_body filter length]; [lia|].
  rewrite length_body_combos_push. lia.
Qed.

(* every grouped list is accounted for by examples of that key.  (The entries of an inner
   dictionary are not known to have distinct keys, so an entry need not be the list a
   lookup returns: get2_group does not bound the entries, this invariant does.) *)
Definition counted (seen : list example) (c n : str) (vs : list json) : Prop :=
  (exists v0, In (PEx c n v0) seen) /\ length vs <= length (filter (same_key c n) seen).

Lemma counted_group exs : AllG (counted exs) (fst (group exs)).
Proof.
  induction exs as [|e exs IH] using rev_ind; [intros c m n vs []|].
  assert (Hmono : forall c n vs, counted exs c n vs -> counted (exs ++ [e]) c n vs).
  { intros c n vs [[v0 H0] Hl]. split; [exists v0; apply in_or_app; left; exact H0|].
    rewrite filter_app, app_length. lia. }
  rewrite group_snoc. destruct e as [c' n' v | v mt]; cbn [group_step fst snd].
  - apply (AllG_push (counted exs) (counted (exs ++ [PEx c' n' v]))); [exact IH | exact Hmono | |].
    + intros vs [_ Hl]. split; [exists v; apply in_or_app; right; left; reflexivity|].
      rewrite filter_app, !app_length. cbn. rewrite !str_eqb_refl. cbn. lia.
    + split; [exists v; apply in_or_app; right; left; reflexivity|].
      rewrite filter_app, app_length. cbn. rewrite !str_eqb_refl. cbn. lia.
  - intros c m n vs H1 H2. apply Hmono. eapply IH; eassumption.
Qed.

Lemma max_len_group exs : max_len (fst (group exs)) = list_max (map (n_same exs) exs).
Proof.
  apply Nat.le_antisymm.
  - unfold max_len. apply list_max_le. apply Forall_forall. intros x Hx.
    apply in_flat_map in Hx. destruct Hx as ([c m] & H1 & H2). cbn in H2.
    apply in_map_iff in H2. destruct H2 as ([n vs] & <- & H2). cbn.
    destruct (counted_group exs c m n vs H1 H2) as [[v0 H0] Hl].
    etransitivity; [exact Hl|]. apply In_le_list_max.
    apply in_map_iff. exists (PEx c n v0). split; [reflexivity | exact H0].
  - apply list_max_le. apply Forall_forall. intros x Hx. apply in_map_iff in Hx.
    destruct Hx as (e & <- & He). destruct e as [c n v | v mt]; cbn [n_same]; [|lia].
    rewrite <- length_pvals, <- get2_group. apply length_get2_le_max.
Qed.

Lemma length_produce_grouped p b :
  length (produce_grouped p b) = Nat.max (max_len p) (length (body_combos b)).
Proof.
  unfold produce_grouped. destruct b as [|b0 br].
  - destruct p as [|p0 pr]; [reflexivity|]. rewrite length_param_combos. cbn [body_combos flat_map length]. lia.
  - destruct p as [|p0 pr].
    + cbn [max_len flat_map list_max]. reflexivity.
    + unfold combine. rewrite map_length, seq_length, length_param_combos. reflexivity.
Qed.

Lemma keys_assoc_remove {A} k name (l : list (str * A)) :
  In k (keys (assoc_remove name l)) <-> In k (keys l) /\ k <> name.
Proof.
  unfold keys. induction l as [|[k2 v2] r IH]; cbn; [tauto|].
  destruct (str_eqb name k2) eqn:E.
  - apply str_eqb_spec in E; subst k2. rewrite IH. split.
    + intros [H N]. auto.
    + intros [[H|H] N]; [subst; contradiction | auto].
  - apply str_eqb_false in E. cbn. rewrite IH. split.
    + intros [H|[H N]]; [subst; split; [left; reflexivity | congruence] | auto].
    + intros [[H|H] N]; auto.
Qed.

Lemma In_remove_first k name l : k <> name -> In k l -> In k (remove_first name l).
Proof.
  intros N. induction l as [|x r IH]; cbn; [auto|].
  destruct (str_eqb name x) eqn:E.
  - apply str_eqb_spec in E; subst x. intros [H|H]; [congruence | exact H].
  - intros [H|H]; [left; exact H | right; auto].
Qed.

Lemma strategy_schema_props props req ex k :
  In k (keys (fst (strategy_schema props req ex))) <-> In k (keys props) /\ ~ In k ex.
Proof.
  unfold strategy_schema. revert props req.
  induction ex as [|name ex IH]; intros props req; cbn [fold_left]; [cbn; tauto|].
  unfold exclude_step at 2. cbn [fst snd]. rewrite IH, keys_assoc_remove. cbn [In]. split.
  - intros [[H N] N']. split; [exact H|]. intros [E|E]; [symmetry in E; contradiction | contradiction].
  - intros [H N]. split; [split; [exact H|] |].
    + intros ->. apply N. left. reflexivity.
    + intros E. apply N. right. exact E.
Qed.

Lemma strategy_schema_required props req ex k :
  In k req -> ~ In k ex -> In k (snd (strategy_schema props req ex)).
Proof.
  unfold strategy_schema. revert props req.
  induction ex as [|name ex IH]; intros props req H N; cbn [fold_left]; [exact H|].
  unfold exclude_step at 2. cbn [fst snd]. apply IH.
  - apply In_remove_first; [|exact H]. intros ->. apply N. left. reflexivity.
  - intros E. apply N. right. exact E.
Qed.

Lemma draw_location_contract gen hp props req ex new : gen_contract gen ->
  draw_location gen hp props req ex = Some new ->
  (forall k, In k (keys new) -> In k (keys props) /\ ~ In k ex) /\
  (forall k, In k req -> In k (keys props) -> ~ In k ex -> In k (keys new)).
Proof.
  intros contract E. unfold draw_location in E. destruct hp; [|discriminate].
  destruct (contract _ _ _ E) as [Hsub Hreq]. split.
  - intros k Hk. apply (strategy_schema_props props req ex k), Hsub, Hk.
  - intros k Hr Hp N. apply Hreq; [apply strategy_schema_required | apply strategy_schema_props]; auto.
Qed.

Lemma filter_negb_short {A} (f : A -> bool) l :
  length (filter (fun x => negb (f x)) l) < length l -> existsb f l = true.
Proof.
  induction l as [|x l IH]; cbn; [lia|].
  destruct (f x); cbn; [reflexivity|]. intros H. apply IH. lia.
Qed.

(* when generation raises, add_examples attaches nothing; three exception classes set a
   mark, EOther propagates, the two classes of silent_exn do neither *)
Lemma raises_added e n : n_added (add_examples (GenRaises e n)) = 0.
Proof. destruct e; reflexivity. Qed.

Lemma raises_reported e n : reported (add_examples (GenRaises e n)) = negb (silent_exn (GenRaises e n)).
Proof. destruct e; reflexivity. Qed.

Lemma silent_unreported g : silent_exn g = true ->
  n_added (add_examples g) = 0 /\ reported (add_examples g) = false.
Proof.
  destruct g as [cs | e n]; [discriminate|]. intros H.
  rewrite raises_added, raises_reported, H. split; reflexivity.
Qed.

Lemma dropped_is_reported_refuted_invalid_schema :
  n_added (add_examples (GenRaises EInvalidSchema 1)) < intended (GenRaises EInvalidSchema 1) /\
  reported (add_examples (GenRaises EInvalidSchema 1)) = false.
Proof. destruct (silent_unreported (GenRaises EInvalidSchema 1) eq_refl) as [-> ->]. split; [cbn; lia | reflexivity]. Qed.

Lemma all_added cs : existsb header_bad cs = false ->
  add_examples (GenCases cs) = Added cs [].
Proof.
  intros H. cbn. rewrite H. f_equal.
  induction cs as [|c cs IH]; [reflexivity|]. cbn in H |- *. apply orb_false_iff in H. destruct H as [H1 H2].
  rewrite H1. cbn. f_equal. apply IH. exact H2.
Qed.

Lemma singles_In efs subs s ef v :
  In s subs -> In ef efs -> obj_get ef s = Some v -> In v (singles efs subs).
Proof.
  intros Hs He Hv. unfold singles. apply in_flat_map. exists s. split; [exact Hs|].
  apply in_flat_map. exists ef. split; [exact He|]. rewrite Hv. left. reflexivity.
Qed.

(* the expanded subschemas of an object schema: the schema itself, its anyOf and its
   oneOf branches, then (when there is an allOf) the merged allOf members *)
Lemma expand_res_obj d subs : expand_res (JObj d) = Ok subs ->
  exists a o rest, branch_list s_anyOf d = Ok a /\ branch_list s_oneOf d = Ok o /\
                   subs = JObj d :: a ++ o ++ rest.
Proof.
  unfold expand_res. destruct (branch_list s_anyOf d) as [a|]; [|discriminate].
  destruct (branch_list s_oneOf d) as [o|]; [|discriminate]. cbn [bind]. intros H. exists a, o.
  destruct (assoc_get s_allOf d) as [xl|]; [destruct xl as [| | | |[|first rest]|]; try discriminate|].
  - destruct (fold_left merge_sub rest (Some first)) as [merged|]; [|discriminate].
    exists [merged]. injection H as <-. auto.
  - exists []. injection H as <-. rewrite app_nil_r. auto.
Qed.

Lemma self_in_expand d subs : expand_res (JObj d) = Ok subs -> In (JObj d) subs.
Proof. intros H. apply expand_res_obj in H. destruct H as (a & o & rest & _ & _ & ->). left. reflexivity. Qed.

Lemma branch_in_expand d key l b subs :
  key = s_anyOf \/ key = s_oneOf ->
  assoc_get key d = Some (JArr l) -> In b l -> expand_res (JObj d) = Ok subs -> In b subs.
Proof.
  intros Hkey Hget Hb H. apply expand_res_obj in H. destruct H as (a & o & rest & Ha & Ho & ->).
  unfold branch_list in Ha, Ho. right. rewrite !in_app_iff.
  destruct Hkey as [-> | ->]; [rewrite Hget in Ha; injection Ha as <- | rewrite Hget in Ho; injection Ho as <-]; auto.
Qed.

(* extract_top_level on a schema: when it does not raise, the schema was expanded and
   every keyword of the list present on any expanded subschema gives an extracted value *)
Lemma top_keyword_extracted efs esf schema vs : top_values_res efs esf schema = Ok vs ->
  exists subs, expand_res schema = Ok subs /\
    forall s ef v, In s subs -> In ef efs -> obj_get ef s = Some v -> In v vs.
Proof.
  unfold top_values_res. destruct (expand_res schema) as [subs|]; [|discriminate]. cbn [bind].
  destruct (fold_left (multi_step esf) subs (Ok [])) as [multi|]; [|discriminate]. cbn [bind].
  intros [= <-]. exists subs. split; [reflexivity|].
  intros s ef v Hs He Hv. apply in_or_app. left. eapply singles_In; eassumption.
Qed.

Lemma node_defs_self node defs : node_defs_res node = Ok defs -> In node defs.
Proof.
  unfold node_defs_res. destruct (obj_get s_schema node) as [sch|].
  - destruct (expand_res sch); [|discriminate]. intros [= <-]. left. reflexivity.
  - intros [= <-]. left. reflexivity.
Qed.

Lemma node_defs_schema node sch defs : obj_get s_schema node = Some sch -> node_defs_res node = Ok defs ->
  exists subs, expand_res sch = Ok subs /\ defs = node :: subs.
Proof.
  unfold node_defs_res. intros ->. destruct (expand_res sch) as [subs|]; [|discriminate].
  intros [= <-]. exists subs. auto.
Qed.

(* the whole node, for any selection of single values: the result begins with the
   selection from the definitions of the node *)
Lemma node_values_gen_pick pick esf node unresolved vs :
  node_values_gen pick esf node unresolved = Ok vs ->
  exists defs rest, node_defs_res node = Ok defs /\ vs = pick defs ++ rest.
Proof.
  intros H. unfold node_values_gen in H.
  destruct (node_defs_res node) as [defs|e]; [|discriminate]. cbn [bind] in H.
  destruct (match obj_get esf node with Some x => inner_res x unresolved | None => Ok [] end) as [inner|e]; [|discriminate].
  cbn [bind] in H.
  destruct (match obj_get s_schema node with
            | Some sch => bind (expand_res sch) (fun subs => fold_left (multi_step esf) subs (Ok []))
            | None => Ok [] end) as [multi|e]; [|discriminate].
  cbn [bind] in H. inversion H. exists defs, (inner ++ multi). split; reflexivity.
Qed.

(* under the rule of the code: every keyword of the list present on any definition of
   the node gives an extracted value *)
Lemma node_def_keyword_extracted efs esf node unresolved vs :
  node_values_res efs esf node unresolved = Ok vs ->
  exists defs, node_defs_res node = Ok defs /\
    forall s ef v, In s defs -> In ef efs -> obj_get ef s = Some v -> In v vs.
Proof.
  intros H. apply node_values_gen_pick in H. destruct H as (defs & rest & Hd & ->).
  exists defs. split; [exact Hd|]. intros s ef v Hs He Hv. apply in_or_app. left. eapply singles_In; eassumption.
Qed.

(* seven examples over two containers and one media type; a generator honouring gen_contract *)
Definition s_query : str := [113;117;101;114;121]%N.
Definition s_headers : str := [104;101;97;100;101;114;115]%N.
Definition s_json_mt : str := [97;112;112;108;105;99;97;116;105;111;110;47;106;115;111;110]%N.
Definition exs_demo : list example :=
  [ PEx s_query [113]%N (JInt 1); BEx (JStr [97]%N) s_json_mt; PEx s_query [113]%N (JInt 2);
    PEx s_headers [120]%N (JStr [104]%N); PEx s_query [113]%N (JInt 3); BEx JNull s_json_mt;
    PEx s_query [114]%N (JBool true) ].

Definition gen_demo (props : list (str * json)) (req : list str) : option (list (str * json)) :=
  Some (filter (fun kv => in_strs (fst kv) req) props).

Lemma gen_demo_contract : gen_contract gen_demo.
Proof.
  intros props req new H. inversion H; subst new. clear H. split.
  - intros k Hk. unfold keys in *. apply in_map_iff in Hk. destruct Hk as ([k' x] & <- & Hk).
    apply filter_In in Hk. destruct Hk as [Hk _]. apply (in_map fst) in Hk. exact Hk.
  - intros k Hr Hp. unfold keys in *. apply in_map_iff in Hp. destruct Hp as ([k' x] & <- & Hp).
    apply in_map_iff. exists (k', x). split; [reflexivity|]. apply filter_In. split; [exact Hp|].
    apply in_strs_In. exact Hr.
Qed.

(* schemas: examples on allOf members (read with the 2.0 and with the 3.0 keywords), x-example
   on allOf members (only the last survives the merge), a property example inside an allOf member *)
Definition sch_allof_20 : json :=
  JObj [(s_allOf, JArr [JObj [(s_example, JInt 1)]; JObj [(s_example, JInt 2)]])].

Definition sch_allof_x : json :=
  JObj [(s_allOf, JArr [JObj [(s_x_example, JInt 1)]; JObj [(s_x_example, JInt 2)]])].
Lemma allof_x_example_refuted :
  top_values [s_example; s_x_example] s_x_examples sch_allof_x = XOk [JInt 2].
Proof. reflexivity. Qed.

Definition sch_prop_in_branch : json :=
  JObj [(s_allOf, JArr [JObj [(s_properties, JObj [([97]%N, JObj [(s_example, JInt 1)])])]])].

(* property examples directly under the schema, one with branches: extracted *)
Definition sch_prop : json :=
  JObj [(s_properties, JObj [([97]%N, JObj [(s_example, JInt 1)]);
                             ([98]%N, JObj [(s_anyOf, JArr [JObj [(s_example, JInt 2)]; JObj [(s_examples, JArr [JInt 3])]])])])].
Lemma property_examples_demo :
  extract_from_schema 5 JNull s_example s_examples sch_prop
  = XOk [JObj [([97]%N, JInt 1); ([98]%N, JInt 2)]; JObj [([97]%N, JInt 1); ([98]%N, JInt 3)]].
Proof. reflexivity. Qed.

Lemma branch_demo :
  top_values [s_example] s_examples
    (JObj [(s_oneOf, JArr [JObj [(s_example, JInt 1)]; JObj [(s_examples, JArr [JInt 2; JInt 3])]])])
  = XOk [JInt 1; JInt 2; JInt 3].
Proof. reflexivity. Qed.

(* a 2.0 query parameter, and a 2.0 body parameter with its schema and a branch, each
   with both x-example and example *)
Definition s_type : str := [116;121;112;101]%N.
Definition node_both_query : json :=
  JObj [(s_name, JStr [113]%N); (s_in, JStr s_query); (s_type, JStr [115;116;114;105;110;103]%N);
        (s_x_example, JStr [120]%N); (s_example, JStr [101]%N)].
Definition node_both_body : json :=
  JObj [(s_name, JStr [98]%N); (s_in, JStr s_body);
        (s_x_example, JInt 1); (s_example, JInt 2);
        (s_schema, JObj [(s_x_example, JInt 3); (s_example, JInt 4);
                         (s_anyOf, JArr [JObj [(s_example, JInt 5); (s_x_example, JInt 6)]])])].

(* header id without examples listed before query id with examples *)
Definition s_id : str := [105;100]%N.
Definition s_header : str := [104;101;97;100;101;114]%N.
Definition p_header_id : json := JObj [(s_name, JStr s_id); (s_in, JStr s_header)].
Definition d_examples : json := JObj [([97]%N, JObj [(s_value, JStr [81;49]%N)])].
Definition p_query_id : json := JObj [(s_name, JStr s_id); (s_in, JStr s_query); (s_examples, d_examples)].

