(* C17, add_examples on cases with their real header dictionaries (Model_C17 section 8):
   the loop under the rule of the code in closed form, which cases are attached and what
   the mark holds; witnesses. *)
From Coq Require Import List NArith ZArith Bool PeanoNat Lia.
From Verif Require Import Common.Str Common.Json C17.Model_C17 C17.Proofs_C17.
Import ListNotations.

Lemma sent_sentb r e : sent r e <-> sentb r e = true.
Proof.
  unfold sent, sentb. rewrite existsb_exists.
  split; intros [c [H1 H2]]; exists c; (split; [exact H1 | apply carriesb_spec; exact H2]).
Qed.

(* what case_invalid and case_bad say about the headers of a case *)
Lemma In_case_invalid c nv :
  In nv (case_invalid c) <-> exists hs, hc_headers c = Some hs /\ In nv hs /\ header_invalid nv = true.
Proof.
  unfold case_invalid, find_invalid_headers. destruct (hc_headers c) as [hs|].
  - rewrite filter_In. split.
    + intros [H1 H2]. exists hs. auto.
    + intros (hs' & [= <-] & H1 & H2). auto.
  - split; [intros [] | intros (hs & H & _); discriminate H].
Qed.

Lemma case_bad_false c : case_bad c = false <-> case_invalid c = [].
Proof. unfold case_bad. destruct (case_invalid c); split; (reflexivity || discriminate). Qed.

Lemma case_bad_true c : case_bad c = true <-> case_invalid c <> [].
Proof. unfold case_bad. destruct (case_invalid c); split; (discriminate || congruence). Qed.

Lemma step_own_good st c : case_bad c = false ->
  add_step OwnHeaders st c = hs_add st c.
Proof.
  unfold case_bad, case_invalid, add_step. destruct (hc_headers c) as [hs|]; [|reflexivity].
  destruct (find_invalid_headers hs); [reflexivity | discriminate].
Qed.

Lemma step_own_bad st c : case_bad c = true ->
  add_step OwnHeaders st c =
  {| hs_added := hs_added st; hs_mark := Some (case_invalid c); hs_acc := hs_acc st |}.
Proof.
  unfold case_bad, case_invalid, add_step. destruct (hc_headers c) as [hs|]; [|discriminate].
  destruct (find_invalid_headers hs); [discriminate | reflexivity].
Qed.

Lemma last_opt_cons {A} (x : A) l : last_opt (x :: l) = match last_opt l with Some y => Some y | None => Some x end.
Proof.
  revert x. induction l as [|y l IH]; intros x; [reflexivity|].
  change (last_opt (x :: y :: l)) with (last_opt (y :: l)). rewrite (IH y).
  destruct (last_opt l); reflexivity.
Qed.

Lemma last_opt_in {A} (l : list A) x : last_opt l = Some x -> In x l.
Proof.
  induction l as [|y l IH]; [discriminate|]. rewrite last_opt_cons.
  destruct (last_opt l) as [z|] eqn:E.
  - intros H. injection H as ->. right. apply IH. reflexivity.
  - intros H. injection H as ->. left. reflexivity.
Qed.

Lemma last_opt_none {A} (l : list A) : last_opt l = None -> l = [].
Proof. destruct l as [|y l]; [reflexivity|]. rewrite last_opt_cons. destruct (last_opt l); discriminate. Qed.

(* the loop from any state: the cases without an invalid header of their own are
   appended in order; the mark becomes the invalid headers of the LAST case that has
   some (Mark.set overwrites), and stays what it was when there is none *)
Lemma fold_own cs : forall st,
  fold_left (add_step OwnHeaders) cs st =
  {| hs_added := hs_added st ++ filter (fun c => negb (case_bad c)) cs;
     hs_mark := match last_opt (filter case_bad cs) with Some c => Some (case_invalid c) | None => hs_mark st end;
     hs_acc := hs_acc st |}.
Proof.
  induction cs as [|c cs IH]; intros st.
  - cbn. rewrite app_nil_r. destruct st; reflexivity.
  - cbn [fold_left filter]. rewrite IH. destruct (case_bad c) eqn:B; cbn [negb].
    + rewrite (step_own_bad _ _ B). cbn [hs_added hs_mark hs_acc]. f_equal.
      rewrite last_opt_cons. destruct (last_opt (filter case_bad cs)); reflexivity.
    + rewrite (step_own_good _ _ B). unfold hs_add. cbn [hs_added hs_mark hs_acc].
      rewrite <- app_assoc. reflexivity.
Qed.

Lemma add_examples_h_own cs :
  add_examples_h OwnHeaders cs =
  {| hr_added := filter (fun c => negb (case_bad c)) cs;
     hr_mark := match last_opt (filter case_bad cs) with Some c => Some (case_invalid c) | None => None end |}.
Proof. unfold add_examples_h. rewrite fold_own. reflexivity. Qed.

Lemma attached_iff cs c :
  In c (hr_added (add_examples_h OwnHeaders cs)) <-> In c cs /\ case_bad c = false.
Proof. rewrite add_examples_h_own. cbn [hr_added]. rewrite filter_In, negb_true_iff. reflexivity. Qed.

Lemma some_bad_marked cs c : In c cs -> case_bad c = true -> hr_mark (add_examples_h OwnHeaders cs) <> None.
Proof.
  intros Hin Hb. rewrite add_examples_h_own. cbn [hr_mark].
  destruct (last_opt (filter case_bad cs)) eqn:E; [discriminate|].
  apply last_opt_none in E. assert (H : In c (filter case_bad cs)) by (apply filter_In; split; assumption).
  rewrite E in H. destruct H.
Qed.

Lemma mark_of_bad_case cs inv : hr_mark (add_examples_h OwnHeaders cs) = Some inv ->
  exists c, In c cs /\ case_bad c = true /\ inv = case_invalid c.
Proof.
  rewrite add_examples_h_own. cbn [hr_mark].
  destruct (last_opt (filter case_bad cs)) as [c|] eqn:E; [|discriminate].
  intros [= <-]. apply last_opt_in, filter_In in E. exists c. destruct E. auto.
Qed.

(* the abstraction of Model_C17 section 4 (a case as two booleans) commutes with the
   filter and with the test for a bad case *)
Lemma header_bad_abs c : header_bad (abs_case c) = case_bad c.
Proof.
  unfold header_bad, abs_case, case_bad, case_invalid. cbn.
  destruct (hc_headers c); reflexivity.
Qed.

Lemma filter_abs cs :
  map abs_case (filter (fun c => negb (case_bad c)) cs) = filter (fun c => negb (header_bad c)) (map abs_case cs).
Proof.
  induction cs as [|c cs IH]; [reflexivity|]. cbn [filter map]. rewrite header_bad_abs.
  destruct (case_bad c); cbn [negb map]; rewrite IH; reflexivity.
Qed.

Lemma existsb_abs cs : existsb header_bad (map abs_case cs) = match filter case_bad cs with [] => false | _ => true end.
Proof.
  induction cs as [|c cs IH]; [reflexivity|]. cbn [map existsb filter]. rewrite header_bad_abs.
  destruct (case_bad c); [reflexivity | exact IH].
Qed.

(* generate_one as the foreign function f: the cases built from a list of combinations *)
Lemma in_imap_intro {A B} (f : nat -> A -> B) l : forall i x, In x l -> exists k, In (f k x) (imap f i l).
Proof.
  induction l as [|y l IH]; intros i x H; [destruct H|]. destruct H as [-> | H].
  - exists i. left. reflexivity.
  - destruct (IH (S i) x H) as [k Hk]. exists k. right. exact Hk.
Qed.

Lemma in_imap {A B} (f : nat -> A -> B) l : forall i y, In y (imap f i l) -> exists k x, In x l /\ y = f k x.
Proof.
  induction l as [|x l IH]; intros i y H; [destruct H|]. destruct H as [<- | H].
  - exists i, x. split; [left; reflexivity | reflexivity].
  - destruct (IH (S i) y H) as [k [x' [H1 H2]]]. exists k, x'. split; [right; exact H1 | exact H2].
Qed.

Lemma filter_single {A} (f : A -> bool) l x :
  length (filter f l) <= 1 -> In x l -> f x = true -> last_opt (filter f l) = Some x.
Proof.
  intros Hlen Hin Hf. assert (H : In x (filter f l)) by (apply filter_In; split; assumption).
  destruct (filter f l) as [|y [|z r]]; [destruct H | | cbn in Hlen; lia].
  destruct H as [-> | []]. reflexivity.
Qed.

(* two cases with an invalid header each: Mark.set overwrites, the invalid header of
   the first is neither sent nor named (finding F8) *)
Definition s_xa : str := [88;45;65]%N.    (* X-A *)
Definition s_xb : str := [88;45;66]%N.    (* X-B *)
Definition v_bad_nl : hval := HStr [97;10;98]%N.       (* a, line feed, b *)
Definition v_bad_cyr : hval := HStr [1046]%N.          (* not latin-1 *)
Definition v_ok1 : hval := HStr [111;107]%N.
Definition cs_two_bad : list hcase :=
  [ {| hc_id := 0; hc_combo := []; hc_headers := Some [(s_xa, v_bad_nl); (s_xb, v_ok1)] |};
    {| hc_id := 1; hc_combo := []; hc_headers := Some [(s_xa, v_ok1); (s_xb, v_bad_cyr)] |} ].

(* header examples a / b LF c / g with query examples 1 / 2 / 3 *)
Definition s_hdrs : str := [104;101;97;100;101;114;115]%N.    (* headers *)
Definition s_qry : str := [113;117;101;114;121]%N.            (* query *)
Definition s_tag : str := [88;45;84;97;103]%N.                (* X-Tag *)
Definition s_q : str := [113]%N.
Definition exs_acc : list example :=
  [ PEx s_hdrs s_tag (JStr [97]%N); PEx s_hdrs s_tag (JStr [98;10;99]%N); PEx s_hdrs s_tag (JStr [103]%N);
    PEx s_qry s_q (JInt 1); PEx s_qry s_q (JInt 2); PEx s_qry s_q (JInt 3) ].
(* the case built from a combination: its headers are the header container (all strings here) *)
Definition mk_plain (i : nat) (c : combo) : hcase :=
  {| hc_id := i; hc_combo := c;
     hc_headers := match assoc_get s_hdrs c with
                   | Some (KCont m) => Some (map (fun kv => (fst kv, match snd kv with JStr s => HStr s | _ => HNonStr 0 end)) m)
                   | _ => None end |}.
Definition cases_acc : list hcase := imap mk_plain 0 (produce_combinations exs_acc).

