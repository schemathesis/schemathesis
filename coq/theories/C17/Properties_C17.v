(* C17: the property theorems, each followed by Print Assumptions.  The lemmas they rest
   on are in Proofs_C17 (sections 1-6 of the model), AsmProofs_C17 (section 7: case assembly
   with object identity) and HdrProofs_C17 (section 8: add_examples on cases with their real
   header dictionaries).  "Finding Fn" and "seed C17_x" are those of notes/C17.md; a SENTINEL
   is a rule the code does not (or no longer does) follow, modelled for a refutation witness.
   In the witness proofs `split` on a conjunction of closed equations closes each equation
   itself, by conversion; only the conjuncts of another shape are left as goals. *)
From Coq Require Import List NArith ZArith Bool PeanoNat Lia.
From Verif Require Import Common.Str Common.Json C17.Model_C17 C17.Proofs_C17 C17.AsmProofs_C17 C17.HdrProofs_C17.
Import ListNotations.

(* every example of the extracted list occurs unchanged in some combination
   handed to openapi_cases, whatever the mix of parameters / media types and
   however many examples each has *)
Theorem C17_every_example_used : forall exs e,
  containers_ok exs = true -> In e exs ->
  exists c, In c (produce_combinations exs) /\ carries c e.
Proof.
  intros exs e Hok Hin. unfold produce_combinations.
  pose proof (good_keys_group exs Hok) as G.
  destruct e as [c n v | v mt].
  - (* a parameter example: the combination whose index is its position in its group *)
    assert (Hv : In v (get2 c n (fst (group exs)))) by (rewrite get2_group; apply In_pvals; exact Hin).
    destruct (In_nth _ _ JNull Hv) as (i & Hi & <-).
    pose proof (length_get2_le_max c n (fst (group exs))) as Hlen.
    destruct (produce_grouped_param _ (snd (group exs)) i G) as (c0 & Hc0 & K); [lia|].
    exists c0. split; [exact Hc0|]. apply K, param_combo_carries, Hi.
  - (* a body example: its body combination *)
    assert (Hv : In v (getl mt (snd (group exs)))) by (rewrite getl_group; apply In_bvals; exact Hin).
    apply (produce_grouped_body _ _ [(s_media_type, KStr mt); (s_body, KVal v)]);
      [exact G | | apply body_combo_carries].
    apply In_body_combos. exists mt, (getl mt (snd (group exs))), v.
    split; [eapply getl_found; exact Hv | auto].
Qed.
Print Assumptions C17_every_example_used.

(* ... and a combination carries nothing but examples of the list *)
Theorem C17_nothing_invented : forall exs c x,
  containers_ok exs = true -> In c (produce_combinations exs) -> carries c x -> In x exs.
Proof.
  intros exs c0 x Hok Hc Hx. pose proof (good_keys_group exs Hok) as G.
  destruct (produce_grouped_inv _ _ c0 x G Hc Hx) as [[i H]|[bc [Hbc H]]].
  - destruct x as [cn n v | v mt].
    + apply param_combo_carries_inv in H; [|apply group_nonempty]. rewrite get2_group in H. apply In_pvals, H.
    + destruct H as [H _]. apply assoc_get_keys in H. rewrite keys_param_combo in H.
      exfalso. revert H. apply good_keys_body; auto.
  - exact (body_combo_inv exs bc x Hbc H).
Qed.
Print Assumptions C17_nothing_invented.

(* the number of combinations is the largest number of examples any single
   parameter has, or the number of body examples, whichever is larger *)
Theorem C17_count_is_max : forall exs,
  length (produce_combinations exs) = expected_count exs.
Proof.
  intros exs. unfold produce_combinations, expected_count.
  rewrite length_produce_grouped, max_len_group, length_body_group. reflexivity.
Qed.
Print Assumptions C17_count_is_max.

(* no examples <-> no examples-phase cases *)
Theorem C17_no_examples_no_cases : forall exs, produce_combinations exs = [] <-> exs = [].
Proof.
  intros exs. split.
  - intros H. apply (f_equal (@length _)) in H. rewrite C17_count_is_max in H. cbn in H.
    destruct exs as [|e exs]; [reflexivity|]. exfalso. unfold expected_count in H.
    destruct e as [c n v | v mt].
    + assert (H1 : n_same (PEx c n v :: exs) (PEx c n v)
                   <= list_max (map (n_same (PEx c n v :: exs)) (PEx c n v :: exs)))
        by (apply In_le_list_max; left; reflexivity).
      assert (H2 : 1 <= n_same (PEx c n v :: exs) (PEx c n v))
        by (cbn [n_same filter same_key]; rewrite !str_eqb_refl; cbn; lia).
      lia.
    + unfold n_bodies in H. cbn in H. lia.
  - intros ->. reflexivity.
Qed.
Print Assumptions C17_no_examples_no_cases.

(* the round-robin never falls back on its default: no grouped list is empty *)
Theorem C17_groups_nonempty : forall exs c m n vs,
  In (c, m) (fst (group exs)) -> In (n, vs) m -> vs <> [].
Proof. exact group_nonempty. Qed.
Print Assumptions C17_groups_nonempty.

(* the fill-in of a partly explicit container keeps every explicit value and
   only adds declared names (gen = the foreign generator, under its contract) *)
Theorem C17_explicit_not_overwritten : forall gen, gen_contract gen ->
  forall hp props req v r,
  v <> [] -> get_parameters_value gen hp props req (Some v) = Some r ->
  (forall k x, assoc_get k v = Some x -> assoc_get k r = Some x) /\
  (forall k, assoc_mem k r = true -> assoc_mem k v = true \/ In k (keys props)).
Proof.
  intros gen contract hp props req v r Hne H. unfold get_parameters_value in H. destruct v as [|kv v']; [contradiction|].
  set (v := kv :: v') in *.
  destruct (draw_location gen hp props req (keys v)) as [new|] eqn:E.
  - (* something was drawn: r is v updated with it, and its keys are none of v *)
    injection H as <-. destruct (draw_location_contract _ _ _ _ _ _ contract E) as [Hnew _]. split.
    + intros k x Hx. rewrite assoc_update_other; [exact Hx|].
      apply assoc_get_None. intros Hk. apply Hnew in Hk. destruct Hk as [_ N]. apply N. eapply assoc_get_keys. exact Hx.
    + intros k Hk. rewrite assoc_mem_update in Hk. apply orb_true_iff in Hk.
      destruct Hk as [Hk|Hk]; [left; exact Hk | right]. apply in_strs_In in Hk. apply Hnew, Hk.
  - (* st.none(): r is v itself *)
    injection H as <-. split; [auto | intros k Hk; left; exact Hk].
Qed.
Print Assumptions C17_explicit_not_overwritten.

(* ... and required names without an example are present after the fill-in *)
Theorem C17_required_filled : forall gen, gen_contract gen ->
  forall props req v new,
  draw_location gen true props req (keys v) = Some new ->
  forall k, In k req -> In k (keys props) -> assoc_mem k (assoc_update v new) = true.
Proof.
  intros gen contract props req v new E k Hreq Hprop. rewrite assoc_mem_update. apply orb_true_iff.
  destruct (assoc_mem k v) eqn:Ev; [left; reflexivity | right].
  assert (N : ~ In k (keys v)) by (intros H; apply assoc_mem_In in H; congruence).
  destruct (draw_location_contract _ _ _ _ _ _ contract E) as [_ Hdrawn].
  apply in_strs_In, Hdrawn; assumption.
Qed.
Print Assumptions C17_required_filled.

(* an example case that is not added to the test is reported, except when the
   generation raised one of the two exception classes that set no mark *)
Theorem C17_dropped_is_reported_partial : forall g,
  silent_exn g = false ->
  n_added (add_examples g) < intended g -> reported (add_examples g) = true.
Proof.
  intros [cs | e n] Hs H.
  - (* cases were generated: one was filtered out, so one has an invalid header *)
    cbn in H |- *. apply filter_negb_short in H. rewrite H. reflexivity.
  - rewrite raises_reported, Hs. reflexivity.
Qed.
Print Assumptions C17_dropped_is_reported_partial.

Theorem C17_dropped_is_reported_refuted : exists g,
  n_added (add_examples g) < intended g /\ reported (add_examples g) = false.
Proof.
  exists (GenRaises ERefResolution 1).
  destruct (silent_unreported (GenRaises ERefResolution 1) eq_refl) as [-> ->]. split; [cbn; lia | reflexivity].
Qed.
Print Assumptions C17_dropped_is_reported_refuted.

(* extraction: an example written on the schema itself or on one of its anyOf /
   oneOf branches is among the extracted top-level values (when extraction does
   not raise) *)
Theorem C17_branch_examples_extracted : forall d key l b ef efs esf v vs,
  key = s_anyOf \/ key = s_oneOf ->
  assoc_get key d = Some (JArr l) -> In b l -> In ef efs -> obj_get ef b = Some v ->
  top_values_res efs esf (JObj d) = Ok vs -> In v vs.
Proof.
  intros d key l b ef efs esf v vs Hkey Hget Hb He Hv H.
  destruct (top_keyword_extracted _ _ _ _ H) as (subs & Hx & K).
  apply (K b ef); [eapply branch_in_expand; eassumption | exact He | exact Hv].
Qed.
Print Assumptions C17_branch_examples_extracted.

Theorem C17_self_example_extracted : forall d ef efs esf v vs,
  In ef efs -> assoc_get ef d = Some v ->
  top_values_res efs esf (JObj d) = Ok vs -> In v vs.
Proof.
  intros d ef efs esf v vs He Hv H.
  destruct (top_keyword_extracted _ _ _ _ H) as (subs & Hx & K).
  apply (K (JObj d) ef); [apply self_in_expand; exact Hx | exact He | exact Hv].
Qed.
Print Assumptions C17_self_example_extracted.

(* the WHOLE node of extract_top_level (parameter object / media type object /
   OpenAPI 2.0 body parameter object, followed by the expanded subschemas of its
   schema): every declared single example of the node is extracted - every
   keyword of the list (example; x-example for OpenAPI 2.0) present on the node
   itself ... *)
Theorem C17_node_keyword_extracted : forall efs esf node unresolved ef v vs,
  In ef efs -> obj_get ef node = Some v ->
  node_values_res efs esf node unresolved = Ok vs -> In v vs.
Proof.
  intros efs esf node unresolved ef v vs He Hv H.
  destruct (node_def_keyword_extracted _ _ _ _ _ H) as (defs & Hd & K).
  apply (K node ef); [apply node_defs_self; exact Hd | exact He | exact Hv].
Qed.
Print Assumptions C17_node_keyword_extracted.

(* ... and on every expanded subschema of its schema *)
Theorem C17_node_schema_keyword_extracted : forall efs esf node unresolved sch subs s ef v vs,
  obj_get s_schema node = Some sch -> expand_res sch = Ok subs -> In s subs ->
  In ef efs -> obj_get ef s = Some v ->
  node_values_res efs esf node unresolved = Ok vs -> In v vs.
Proof.
  intros efs esf node unresolved sch subs s ef v vs Hs Hx Hin He Hv H.
  destruct (node_def_keyword_extracted _ _ _ _ _ H) as (defs & Hd & K).
  destruct (node_defs_schema _ _ _ Hs Hd) as (subs' & Hx' & ->). rewrite Hx in Hx'. injection Hx' as <-.
  apply (K s ef); [right; exact Hin | exact He | exact Hv].
Qed.
Print Assumptions C17_node_schema_keyword_extracted.

(* OpenAPI 2.0 nodes that carry BOTH keywords: both values are extracted, for the
   node itself and for its schema *)
Theorem C17_both_keywords_extracted : forall esf node unresolved v w vs,
  obj_get s_example node = Some v -> obj_get s_x_example node = Some w ->
  node_values_res [s_example; s_x_example] esf node unresolved = Ok vs -> In v vs /\ In w vs.
Proof.
  intros esf node unresolved v w vs Hv Hw H. split.
  - eapply C17_node_keyword_extracted; [|exact Hv|exact H]. left. reflexivity.
  - eapply C17_node_keyword_extracted; [|exact Hw|exact H]. right. left. reflexivity.
Qed.
Print Assumptions C17_both_keywords_extracted.

Theorem C17_both_keywords_of_schema_extracted : forall esf node unresolved d v w vs,
  obj_get s_schema node = Some (JObj d) ->
  assoc_get s_example d = Some v -> assoc_get s_x_example d = Some w ->
  node_values_res [s_example; s_x_example] esf node unresolved = Ok vs -> In v vs /\ In w vs.
Proof.
  intros esf node unresolved d v w vs Hs Hv Hw H.
  destruct (node_def_keyword_extracted _ _ _ _ _ H) as (defs & Hd & K).
  destruct (node_defs_schema _ _ _ Hs Hd) as (subs & Hx & ->). pose proof (self_in_expand d subs Hx) as Hin.
  split.
  - apply (K (JObj d) s_example); [right; exact Hin | left; reflexivity | exact Hv].
  - apply (K (JObj d) s_x_example); [right; exact Hin | right; left; reflexivity | exact Hw].
Qed.
Print Assumptions C17_both_keywords_of_schema_extracted.

(* the first-keyword-only rule (x-example has precedence; a sentinel, not the
   code) loses the plain example of a 2.0 query parameter and of a 2.0 body
   parameter, its schema and a branch of it; the rule of the code gives all *)
Theorem C17_first_keyword_only_refuted : exists q b,
  obj_get s_example q = Some (JStr [101]%N) /\ obj_get s_x_example q = Some (JStr [120]%N) /\
  node_values [s_example; s_x_example] s_x_examples q q = XOk [JStr [101]%N; JStr [120]%N] /\
  node_values_first_only [s_x_example; s_example] s_x_examples q q = XOk [JStr [120]%N] /\
  node_values [s_example; s_x_example] s_x_examples b b = XOk [JInt 2; JInt 1; JInt 4; JInt 3; JInt 5; JInt 6] /\
  node_values_first_only [s_x_example; s_example] s_x_examples b b = XOk [JInt 1; JInt 3; JInt 6].
Proof.
  exists node_both_query, node_both_body. repeat split.
Qed.
Print Assumptions C17_first_keyword_only_refuted.

(* the hypotheses of the two both-keywords theorems hold on a witness *)
Theorem C17_both_keywords_hypotheses_satisfiable : exists node,
  obj_get s_example node = Some (JInt 2) /\ obj_get s_x_example node = Some (JInt 1) /\
  (exists d, obj_get s_schema node = Some (JObj d) /\
             assoc_get s_example d = Some (JInt 4) /\ assoc_get s_x_example d = Some (JInt 3)) /\
  exists vs, node_values_res [s_example; s_x_example] s_x_examples node node = Ok vs.
Proof.
  exists node_both_body. repeat split; try reflexivity.
  - eexists. repeat split; reflexivity.
  - eexists. reflexivity.
Qed.
Print Assumptions C17_both_keywords_hypotheses_satisfiable.

(* an example on a later allOf member of an OpenAPI 2.0 schema (fields example / x-example /
   x-examples) is not extracted: the same schema read with the 3.0 fields gives both *)
Theorem C17_allof_examples_20_refuted : exists schema first second,
  schema = JObj [(s_allOf, JArr [first; second])] /\ obj_get s_example second = Some (JInt 2) /\
  top_values [s_example; s_x_example] s_x_examples schema = XOk [JInt 1] /\
  top_values [s_example] s_examples schema = XOk [JInt 1; JInt 2].
Proof.
  exists sch_allof_20, (JObj [(s_example, JInt 1)]), (JObj [(s_example, JInt 2)]).
  repeat split.
Qed.
Print Assumptions C17_allof_examples_20_refuted.

(* an example inside a branch of a branch is not extracted *)
Theorem C17_nested_branch_refuted : exists inner,
  obj_get s_example inner = Some (JInt 1) /\
  top_values [s_example] s_examples (JObj [(s_anyOf, JArr [JObj [(s_anyOf, JArr [inner])]])]) = XOk [].
Proof.
  exists (JObj [(s_example, JInt 1)]). split; reflexivity.
Qed.
Print Assumptions C17_nested_branch_refuted.

(* an example on a property of an object schema that is itself an allOf member is not extracted *)
Theorem C17_property_in_branch_refuted : exists schema, forall fuel g,
  extract_from_schema (S fuel) g s_example s_examples schema = XOk [] /\
  top_values [s_example] s_examples schema = XOk [].
Proof.
  exists sch_prop_in_branch. intros fuel g. split; reflexivity.
Qed.
Print Assumptions C17_property_in_branch_refuted.

(* the unresolved examples definition of a parameter is the one of the first raw
   parameter with the same name AND location, whatever same-named parameters of
   other locations (with or without examples) are listed before or after it *)
Theorem C17_examples_lookup_by_location : forall pre p post name loc field x,
  forallb (fun q => has_name q && negb (name_is name q && in_is loc q)) pre = true ->
  name_is name p = true -> in_is loc p = true -> obj_get field p = Some x ->
  find_param_examples (pre ++ p :: post) name loc field = Ok x.
Proof.
  intros pre p post name loc field x Hpre Hn Hl Hf. induction pre as [|q pre IH]; cbn [app find_param_examples].
  - assert (Hh : has_name p = true).
    { unfold name_is in Hn. unfold has_name. destruct (obj_get s_name p); [reflexivity | discriminate]. }
    rewrite Hh, Hn, Hl, Hf. reflexivity.
  - cbn [forallb] in Hpre. apply andb_true_iff in Hpre. destruct Hpre as [Hq Hpre].
    apply andb_true_iff in Hq. destruct Hq as [Hh Hm]. apply negb_true_iff in Hm.
    rewrite Hh, Hm. apply IH. exact Hpre.
Qed.
Print Assumptions C17_examples_lookup_by_location.

(* SENTINEL: the rule before commit b8949ae5 (match by name only) raises on a header `id`
   without examples listed before a query `id` with examples; the rule of the code
   finds the definition and its example is extracted *)
Theorem C17_examples_lookup_by_name_only_refuted : exists params name field d v,
  find_param_examples_by_name_only params name field = Err Raised /\
  find_param_examples params name s_query field = Ok d /\
  extract_inner_examples d d = XOk [v].
Proof.
  exists [p_header_id; p_query_id], s_id, s_examples, d_examples, (JStr [81;49]%N).
  repeat split.
Qed.
Print Assumptions C17_examples_lookup_by_name_only_refuted.

(* hypotheses are satisfiable by non-trivial inputs *)
Theorem C17_hypotheses_satisfiable :
  (exists exs, containers_ok exs = true /\ length (produce_combinations exs) = 3 /\
     forallb (fun e => existsb (fun c => carriesb c e) (produce_combinations exs)) exs = true) /\
  (exists gen, gen_contract gen /\
     get_parameters_value gen true [([113]%N, JNull); ([114]%N, JNull)] [[114]%N; [113]%N] (Some [([113]%N, JInt 7)])
     = Some [([113]%N, JInt 7); ([114]%N, JNull)]).
Proof.
  split.
  - exists exs_demo. vm_compute. auto.
  - exists gen_demo. split; [exact gen_demo_contract | reflexivity].
Qed.
Print Assumptions C17_hypotheses_satisfiable.

(* The sequence [generate_one(strategy) for strategy in get_strategies_from_examples()] over a heap of dict
   objects - get_parameters_value on the container OBJECT of the combination, then serialize_components
   building a new dict {**map_func(own), **generated} from the keys of the explicit container, one case after
   the other - equals the pure per-case value (sval: the explicit keys of the merged container through the
   serializer, the other keys as generated), whatever the serializer, the set of containers that have one,
   the draws, the number of cases and the sharing of container objects between the combinations; the source
   objects keep their contents; the containers of the cases are new and pairwise distinct objects. *)
Theorem C17_cases_independent : forall draw smap ser h0 rcs,
  wf_refs h0 rcs = true -> all_drawn draw h0 0 rcs = true ->
  wires CopyWhenDrawn SerExplicitOnly draw smap ser h0 rcs = values_from draw smap ser h0 0 rcs /\
  firstn (length h0) (fst (assemble CopyWhenDrawn SerExplicitOnly draw smap ser h0 rcs)) = h0 /\
  NoDup (case_addrs (snd (assemble CopyWhenDrawn SerExplicitOnly draw smap ser h0 rcs))) /\
  (forall a, In a (case_addrs (snd (assemble CopyWhenDrawn SerExplicitOnly draw smap ser h0 rcs))) -> length h0 <= a).
Proof. exact cases_independent. Qed.
Print Assumptions C17_cases_independent.

(* the identity-level produce_combinations (which objects are shared between the combinations) denotes the
   value-level one of the theorems above *)
Theorem C17_ref_combinations_sound : forall exs, containers_ok exs = true ->
  map (deref (fst (ref_combinations exs))) (snd (ref_combinations exs)) = map containers (produce_combinations exs) /\
  wf_refs (fst (ref_combinations exs)) (snd (ref_combinations exs)) = true.
Proof.
  intros exs H. apply ref_grouped_sound, good_keys_group, H.
Qed.
Print Assumptions C17_ref_combinations_sound.

(* serialize_components (examples.py:56-74): for ALL draws that honour the contract of the fill-in (fill_ok:
   something is drawn, its keys are distinct and none is an explicit key - exclude = value.keys()), every case
   of the sequence carries, for
   every container, the example container serialized exactly ONCE (ser1: the identity where the operation has
   no serializer for the location) and the fill-in exactly as its strategy delivered it *)
Theorem C17_serialized_once : forall draw smap ser h0 rcs,
  wf_refs h0 rcs = true -> fill_ok draw h0 0 rcs = true ->
  wires CopyWhenDrawn SerExplicitOnly draw smap ser h0 rcs = once_from draw smap ser 0 (map (deref h0) rcs).
Proof. exact serialized_once. Qed.
Print Assumptions C17_serialized_once.

(* ... with the strategy of get_parameters_strategy, which maps the raw drawn object through the same style
   serializer (draw_of_strategy): explicit values and generated values each pass through it once *)
Theorem C17_fill_in_serialized_once : forall ser post raw smap h0 rcs,
  wf_refs h0 rcs = true -> fill_ok (draw_of_strategy ser post raw) h0 0 rcs = true ->
  wires CopyWhenDrawn SerExplicitOnly (draw_of_strategy ser post raw) smap ser h0 rcs =
  once_from (fun idx c v => match raw idx c v with Some r => Some (post c (ser c r)) | None => None end)
            smap ser 0 (map (deref h0) rcs).
Proof.
  intros ser post raw smap h0 rcs. exact (C17_serialized_once (draw_of_strategy ser post raw) smap ser h0 rcs).
Qed.
Print Assumptions C17_fill_in_serialized_once.

(* ... stated on example lists, through produce_combinations *)
Theorem C17_examples_serialized_once : forall exs draw smap ser, containers_ok exs = true ->
  fill_ok draw (fst (ref_combinations exs)) 0 (snd (ref_combinations exs)) = true ->
  wires CopyWhenDrawn SerExplicitOnly draw smap ser (fst (ref_combinations exs)) (snd (ref_combinations exs)) =
  once_from draw smap ser 0 (map containers (produce_combinations exs)).
Proof.
  intros exs draw smap ser Hc Hn. destruct (C17_ref_combinations_sound exs Hc) as [D W].
  rewrite (C17_serialized_once draw smap ser _ _ W Hn), D. reflexivity.
Qed.
Print Assumptions C17_examples_serialized_once.

(* SENTINEL: the rule before commit cedd1977, setattr(case, container, map_func(value)) on the whole merged
   container (finding F7).  The fill-in strategy already maps the drawn object through the style serializer,
   that rule applies it again: the generated parameter goes out serialized twice (witness: a = 5 explicit,
   b = 3 generated, matrix style: a = ;a=5 but b = ;b=;b=3); the rule of the code serializes both once *)
Theorem C17_whole_container_serializer_refuted : exists ser post raw h0 rcs,
  wf_refs h0 rcs = true /\ fill_ok (draw_of_strategy ser post raw) h0 0 rcs = true /\
  wires CopyWhenDrawn SerWholeContainer (draw_of_strategy ser post raw) smap_all ser h0 rcs
    <> once_from (draw_of_strategy ser post raw) smap_all ser 0 (map (deref h0) rcs) /\
  wires CopyWhenDrawn SerExplicitOnly (draw_of_strategy ser post raw) smap_all ser h0 rcs
    = once_from (draw_of_strategy ser post raw) smap_all ser 0 (map (deref h0) rcs).
Proof.
  exists ser_matrix, post_id, raw_fill_b, [[(s_a, JStr [53%N])]], [[(s_path_parameters, 0)]].
  split; [reflexivity|]. split; [reflexivity|]. split; [|reflexivity].
  (* the whole-container rule differs from once_from *)
  vm_compute. discriminate.
Qed.
Print Assumptions C17_whole_container_serializer_refuted.

(* SENTINEL rule, not the code (seed C17_c: if not new: return value): one path parameter with one example and
   three body examples - get_parameters_value hands the ONE object of the combination to the three cases (an
   address below length of the source heap among the generated objects; never under the rule of the code).
   Under the whole-container serializer (the rule before cedd1977) the three cases hold one dict serialized
   three times; the serializer of the code builds a new dict per case, so the wire is that of the examples
   serialized once and the sharing shows only in the object identities *)
Theorem C17_shared_container_refuted : exists exs ser draw,
  let hr := ref_combinations exs in
  wf_refs (fst hr) (snd hr) = true /\ nothing_to_fill draw (fst hr) 0 (snd hr) = true /\
  (exists a, a < length (fst hr) /\
     In a (case_addrs (gen_refs_from ShareWhenNothingNew SerExplicitOnly draw smap_all ser 0 (fst hr) (snd hr)))) /\
  (forall a, In a (case_addrs (gen_refs_from CopyWhenDrawn SerExplicitOnly draw smap_all ser 0 (fst hr) (snd hr))) ->
     length (fst hr) <= a) /\
  wires ShareWhenNothingNew SerWholeContainer draw smap_all ser (fst hr) (snd hr) <> examples_serialized_once ser (fst hr) (snd hr) /\
  wires CopyWhenDrawn SerWholeContainer draw smap_all ser (fst hr) (snd hr) = examples_serialized_once ser (fst hr) (snd hr) /\
  ~ NoDup (case_addrs (snd (assemble ShareWhenNothingNew SerWholeContainer draw smap_all ser (fst hr) (snd hr)))) /\
  wires ShareWhenNothingNew SerExplicitOnly draw smap_all ser (fst hr) (snd hr) = examples_serialized_once ser (fst hr) (snd hr) /\
  wires CopyWhenDrawn SerExplicitOnly draw smap_all ser (fst hr) (snd hr) = examples_serialized_once ser (fst hr) (snd hr).
Proof.
  exists exs_shared, ser_matrix, draw_nothing. cbv zeta.
  split; [reflexivity|]. split; [reflexivity|].
  split. { (* share rule: address 0, a source object, is handed to a case *)
    exists 0. split; vm_compute; [lia | left; reflexivity]. }
  split. { (* copy rule: every object handed to a case is new *)
    vm_compute. intros a H. repeat (destruct H as [<-|H]; [lia|]). destruct H. }
  split. { (* share rule + whole-container serializer: not the examples serialized once *)
    vm_compute. discriminate. }
  split; [reflexivity|].
  split. { (* ... and the three cases hold the same address *)
    vm_compute. intros H. inversion H as [|x l Hin ND]. apply Hin. left. reflexivity. }
  split; reflexivity.
Qed.
Print Assumptions C17_shared_container_refuted.

(* non-vacuity: two parameter combinations cycled over three bodies; a fill-in next to the example (each
   serialized once); without a serializer the case keeps the object get_parameters_value returned *)
Theorem C17_assembly_hypotheses_satisfiable :
  let hr := ref_combinations exs_two in
  length (snd hr) = 3 /\ wf_refs (fst hr) (snd hr) = true /\
  all_drawn raw_fill_b (fst hr) 0 (snd hr) = true /\
  fill_ok (draw_of_strategy ser_matrix post_id raw_fill_b) (fst hr) 0 (snd hr) = true /\
  nothing_to_fill draw_nothing (fst hr) 0 (snd hr) = true /\
  wires CopyWhenDrawn SerExplicitOnly draw_nothing smap_all ser_matrix (fst hr) (snd hr) =
    [[(s_path_parameters, Some [(s_id, JStr [59;105;100;61;53]%N)])];
     [(s_path_parameters, Some [(s_id, JStr [59;105;100;61;54]%N)])];
     [(s_path_parameters, Some [(s_id, JStr [59;105;100;61;53]%N)])]] /\
  wires CopyWhenDrawn SerExplicitOnly (draw_of_strategy ser_matrix post_id raw_fill_b) smap_all ser_matrix (fst hr) (snd hr) =
    [[(s_path_parameters, Some [(s_id, JStr [59;105;100;61;53]%N); (s_b, JStr [59;98;61;51]%N)])];
     [(s_path_parameters, Some [(s_id, JStr [59;105;100;61;54]%N); (s_b, JStr [59;98;61;51]%N)])];
     [(s_path_parameters, Some [(s_id, JStr [59;105;100;61;53]%N); (s_b, JStr [59;98;61;51]%N)])]] /\
  snd (assemble CopyWhenDrawn SerExplicitOnly draw_nothing (smap_of []) ser_matrix (fst hr) (snd hr)) =
    gen_refs_from CopyWhenDrawn SerExplicitOnly draw_nothing (smap_of []) ser_matrix 0 (fst hr) (snd hr).
Proof.
  cbv zeta. repeat split.
Qed.
Print Assumptions C17_assembly_hypotheses_satisfiable.

(* the loop of add_examples in closed form, for all case lists: attached are exactly the cases without an
   invalid header of their OWN, in order; the mark holds the invalid headers of the last case that has some *)
Theorem C17_add_examples_per_case : forall cs,
  add_examples_h OwnHeaders cs =
  {| hr_added := filter (fun c => negb (case_bad c)) cs;
     hr_mark := match last_opt (filter case_bad cs) with Some c => Some (case_invalid c) | None => None end |}.
Proof. exact add_examples_h_own. Qed.
Print Assumptions C17_add_examples_per_case.

(* the two-boolean model of section 4 (filter / existsb) is the abstraction of this loop *)
Theorem C17_add_examples_refines : forall cs,
  abs_result (add_examples_h OwnHeaders cs) = add_examples (GenCases (map abs_case cs)).
Proof.
  intros cs. rewrite add_examples_h_own. unfold abs_result. cbn [hr_added hr_mark add_examples].
  rewrite filter_abs, existsb_abs. f_equal.
  destruct (filter case_bad cs) as [|x l]; [reflexivity|]. rewrite last_opt_cons. destruct (last_opt l); reflexivity.
Qed.
Print Assumptions C17_add_examples_refines.

(* an example is dropped only if EVERY case that carries it has an invalid header of its own, and then the
   mark is set (run_test reports an error for the operation) - all case lists, all examples *)
Theorem C17_dropped_only_with_own_invalid_header : forall cs e,
  ~ sent (add_examples_h OwnHeaders cs) e ->
  forall c, In c cs -> carries (hc_combo c) e ->
    case_bad c = true /\ hr_mark (add_examples_h OwnHeaders cs) <> None.
Proof.
  intros cs e.
  intros Hns c Hin Hc. destruct (case_bad c) eqn:B.
  - split; [reflexivity | apply (some_bad_marked cs c Hin B)].
  - exfalso. apply Hns. exists c. split; [apply attached_iff; split; assumption | exact Hc].
Qed.
Print Assumptions C17_dropped_only_with_own_invalid_header.

(* the same over all example lists, through produce_combinations; generate_one is the foreign function mk,
   assumed only to keep the combination it is given: every example of the list is carried by an attached case,
   or every case carrying it (there is one) has an invalid header of its own and the mark is set *)
Theorem C17_example_sent_or_own_case_invalid : forall exs (mk : nat -> combo -> hcase) e,
  (forall i c, hc_combo (mk i c) = c) ->
  containers_ok exs = true -> In e exs ->
  let cases := imap mk 0 (produce_combinations exs) in
  sent (add_examples_h OwnHeaders cases) e \/
  ((exists c, In c cases /\ carries (hc_combo c) e) /\
   (forall c, In c cases -> carries (hc_combo c) e -> case_bad c = true) /\
   hr_mark (add_examples_h OwnHeaders cases) <> None).
Proof.
  intros exs mk e.
  intros Hmk Hok Hin cases.
  destruct (sentb (add_examples_h OwnHeaders cases) e) eqn:S.
  - left. apply sent_sentb. exact S.
  - right. assert (Hns : ~ sent (add_examples_h OwnHeaders cases) e).
    { intros H. apply sent_sentb in H. rewrite H in S. discriminate. }
    destruct (C17_every_example_used exs e Hok Hin) as [c0 [Hc0 Hcar]].
    destruct (in_imap_intro mk (produce_combinations exs) 0 c0 Hc0) as [k Hk].
    assert (Hcar' : carries (hc_combo (mk k c0)) e) by (rewrite Hmk; exact Hcar).
    split; [exists (mk k c0); split; [exact Hk | exact Hcar']|].
    split.
    + intros c H1 H2. apply (C17_dropped_only_with_own_invalid_header cases e Hns c H1 H2).
    + apply (C17_dropped_only_with_own_invalid_header cases e Hns (mk k c0) Hk Hcar').
Qed.
Print Assumptions C17_example_sent_or_own_case_invalid.

(* no attached case has an invalid header *)
Theorem C17_sent_case_valid : forall cs c nv hs,
  In c (hr_added (add_examples_h OwnHeaders cs)) -> hc_headers c = Some hs -> In nv hs -> header_invalid nv = false.
Proof.
  intros cs c nv hs H Hh Hin. apply attached_iff in H. destruct H as [_ Hg]. apply case_bad_false in Hg.
  destruct (header_invalid nv) eqn:E; [|reflexivity].
  assert (Hf : In nv (case_invalid c)) by (apply In_case_invalid; exists hs; auto).
  rewrite Hg in Hf. destruct Hf.
Qed.
Print Assumptions C17_sent_case_valid.

(* the reported error blames nothing valid: the mark is not empty, and it is the set of invalid headers of one
   dropped case *)
Theorem C17_mark_sound : forall cs inv,
  hr_mark (add_examples_h OwnHeaders cs) = Some inv ->
  inv <> [] /\ exists c, In c cs /\ case_bad c = true /\ inv = case_invalid c /\
                         forall nv, In nv inv -> header_invalid nv = true.
Proof.
  intros cs inv H. destruct (mark_of_bad_case cs inv H) as (c & Hin & Hb & ->).
  split; [apply case_bad_true, Hb|].
  exists c. split; [exact Hin|]. split; [exact Hb|]. split; [reflexivity|].
  intros nv Hnv. apply In_case_invalid in Hnv. destruct Hnv as (hs & _ & _ & Hi). exact Hi.
Qed.
Print Assumptions C17_mark_sound.

(* every invalid header of every dropped case is named by the error - when at most one case is invalid *)
Theorem C17_dropped_reason_named_partial : forall cs, single_bad_case cs = true ->
  forall c nv, In c cs -> In nv (case_invalid c) -> named (add_examples_h OwnHeaders cs) nv.
Proof.
  intros cs Hs c nv Hin Hnv. unfold single_bad_case in Hs. apply Nat.leb_le in Hs.
  assert (Hb : case_bad c = true) by (apply case_bad_true; intros E; rewrite E in Hnv; destruct Hnv).
  exists (case_invalid c). split; [|exact Hnv].
  rewrite add_examples_h_own. cbn [hr_mark]. rewrite (filter_single case_bad cs c Hs Hin Hb). reflexivity.
Qed.
Print Assumptions C17_dropped_reason_named_partial.

(* ... refuted beyond: Mark.set overwrites, with two invalid cases the invalid header of the first is neither
   sent nor named (finding F8) *)
Theorem C17_dropped_reason_named_refuted :
  exists cs c nv, In c cs /\ In nv (case_invalid c) /\ ~ named (add_examples_h OwnHeaders cs) nv.
Proof.
  exists cs_two_bad, {| hc_id := 0; hc_combo := []; hc_headers := Some [(s_xa, v_bad_nl); (s_xb, v_ok1)] |},
    (s_xa, v_bad_nl).
  split; [left; reflexivity|]. split; [left; reflexivity|].
  intros [inv [H1 H2]]. vm_compute in H1. injection H1 as <-.
  destruct H2 as [H | []]. discriminate.
Qed.
Print Assumptions C17_dropped_reason_named_refuted.

(* SENTINEL rule, not the code (seed C17_d: one dict accumulated over all cases, tested per case): header
   examples a / b-LF-c / g with query examples 1 / 2 / 3 - the third case has no invalid header, carries the
   header example g, and is dropped (one case attached instead of two); the rule of the code sends it *)
Theorem C17_accumulated_headers_refuted :
  exists exs mk c e,
    (forall i x, hc_combo (mk i x) = x) /\ containers_ok exs = true /\ In e exs /\
    In c (imap mk 0 (produce_combinations exs)) /\ carries (hc_combo c) e /\ case_bad c = false /\
    ~ sent (add_examples_h AccumulatedHeaders (imap mk 0 (produce_combinations exs))) e /\
    sent (add_examples_h OwnHeaders (imap mk 0 (produce_combinations exs))) e /\
    length (hr_added (add_examples_h AccumulatedHeaders (imap mk 0 (produce_combinations exs)))) = 1 /\
    length (hr_added (add_examples_h OwnHeaders (imap mk 0 (produce_combinations exs)))) = 2.
Proof.
  exists exs_acc, mk_plain,
    (mk_plain 2 (nth 2 (produce_combinations exs_acc) [])), (PEx s_hdrs s_tag (JStr [103]%N)).
  split; [intros i x; reflexivity|]. split; [reflexivity|]. split; [cbn; auto|].
  split; [right; right; left; reflexivity|].
  split; [apply carriesb_spec; vm_compute; reflexivity|]. split; [vm_compute; reflexivity|].
  split; [intros H; apply sent_sentb in H; vm_compute in H; discriminate|].
  split; [apply sent_sentb; vm_compute; reflexivity|].
  split; vm_compute; reflexivity.
Qed.
Print Assumptions C17_accumulated_headers_refuted.

(* non-vacuity: three cases, the middle one invalid; the validity predicate separates the classes *)
Theorem C17_header_hypotheses_satisfiable :
  map hc_id (hr_added (add_examples_h OwnHeaders cases_acc)) = [0; 2] /\
  hr_mark (add_examples_h OwnHeaders cases_acc) = Some [(s_tag, HStr [98;10;99]%N)] /\
  single_bad_case cases_acc = true /\
  map (sentb (add_examples_h OwnHeaders cases_acc)) exs_acc = [true; false; true; true; false; true] /\
  single_bad_case cs_two_bad = false /\
  map header_invalid [(s_tag, HStr [97;32]%N); (s_tag, HStr []); (s_tag, HStr [32;97]%N); (s_tag, HStr [97;13]%N);
                      (s_tag, HStr [97;10;32;98]%N); (s_tag, HStr [160;97]%N); (s_tag, HStr [97;160]%N);
                      (s_tag, HStr [256]%N); (s_tag, HNonStr 5); ([88;58]%N, HStr [97]%N)]
  = [false; false; true; true; true; true; false; true; true; true].
Proof.
  vm_compute. repeat split.
Qed.
Print Assumptions C17_header_hypotheses_satisfiable.
