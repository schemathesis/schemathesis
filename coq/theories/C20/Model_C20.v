(* C20 - generated GraphQL requests are valid for the schema and target their field.

   Executable model (definitions only) of the part of the property that is schemathesis code:

     src/schemathesis/specs/graphql/schemas.py   GraphQLSchema.get_all_operations (:174), _build_operation (:198),
                                                 _should_skip (:190), _measure_statistic (:149),
                                                 _get_operation_map (:101), FieldMap._init_operation / __getitem__
                                                 (:297, :309), graphql_cases (:321, the call of the strategy factory)
     src/schemathesis/specs/graphql/_cache.py    OperationCache (operations keyed by type name + field name since fe80b0ba)
     src/schemathesis/specs/graphql/scalars.py   scalar (:15), get_extra_scalar_strategies (:33), the merged table
     src/schemathesis/filters.py                 Matcher / Filter / FilterSet.match as used by _should_skip
     src/schemathesis/transport/prepare.py       prepare_body (:48) for a GraphQL schema

   Foreign code appears as data or as a stated contract, never as a proof:
     - graphql-core build_client_schema: [build_client] below is the CONTRACT assumed about it (a dictionary
       comprehension over the introspected types: the last type of a name wins; a dictionary comprehension over the
       fields of a type: one entry per field name at the position of its first occurrence; a root type that is
       missing, not an OBJECT, or has fields = null raises).  It is compared with the real function on every run.
     - hypothesis-graphql queries / mutations: only the CALL is modelled ([strategy_call]) together with the two
       argument checks it performs before generating ([hg_accepts]: the root type exists, fields is non-empty and
       contains only fields of that root type).  What it generates is covered by the oracle stage only.
     - re.search of a name_regex filter: a predicate carried by the matcher.

   The code is modelled AS IT IS:
     - _measure_statistic walks the RAW introspection JSON (every entry of types whose name equals the root type
       name, every entry of its fields list) while get_all_operations walks the CLIENT schema built from it;
     - _measure_statistic hands the filters a dummy operation whose definition is None ([c_def = None]);
     - the operation cache used by schema[type][field] is keyed by the string type.field (fe80b0ba); the earlier
       field-name-only key is kept as a labelled sentinel ([lookup_fk]). *)
From Coq Require Import List NArith ZArith Bool.
From Verif Require Import Common.Str.
Import ListNotations.

(* ------------------------------------------------------------------------------------------------ *)
(* string constants                                                                                  *)
Definition s_POST : str := [80;79;83;84]%N.
Definition s_query : str := [113;117;101;114;121]%N.
Definition dot : N := 46%N.

Fixpoint mem_str (s : str) (l : list str) : bool :=
  match l with [] => false | x :: r => str_eqb s x || mem_str s r end.

(* ------------------------------------------------------------------------------------------------ *)
(* the raw introspection result  (raw_schema[__schema])                                              *)
Inductive root := RQuery | RMutation.
Definition root_eqb (a b : root) : bool :=
  match a, b with RQuery, RQuery | RMutation, RMutation => true | _, _ => false end.

Inductive kind := KObject | KOther.
(* rt_fields = None is JSON null (what introspection returns for scalars, enums, unions, input objects) *)
Record rtype := { rt_name : str; rt_kind : kind; rt_fields : option (list str) }.
Record raw := { r_query : option str; r_mutation : option str; r_types : list rtype }.

(* ------------------------------------------------------------------------------------------------ *)
(* graphql.build_client_schema (contract, see the header)                                            *)
Fixpoint find_last (n : str) (ts : list rtype) : option rtype :=
  match ts with
  | [] => None
  | t :: r => match find_last n r with
              | Some t' => Some t'
              | None => if str_eqb (rt_name t) n then Some t else None
              end
  end.

(* keys of {f[name]: ... for f in fields}: first occurrence keeps the position *)
Fixpoint dedup_aux (seen : list str) (l : list str) : list str :=
  match l with
  | [] => []
  | x :: r => if mem_str x seen then dedup_aux seen r else x :: dedup_aux (x :: seen) r
  end.
Definition dedup (l : list str) : list str := dedup_aux [] l.

Record ctype := { ct_name : str; ct_fields : list str }.
Record client := { c_query : option ctype; c_mutation : option ctype }.

Inductive build_res (A : Type) := BOk (x : A) | BRaises.
Arguments BOk {A} x.
Arguments BRaises {A}.

Definition build_root (ts : list rtype) (name : option str) : build_res (option ctype) :=
  match name with
  | None => BOk None
  | Some n =>
      match find_last n ts with
      | None => BRaises                                     (* unknown type *)
      | Some t =>
          match rt_kind t, rt_fields t with
          | KObject, Some fs => BOk (Some {| ct_name := rt_name t; ct_fields := dedup fs |})
          | _, _ => BRaises                                 (* not an object type / missing fields *)
          end
      end
  end.

Definition build_client (r : raw) : build_res client :=
  match build_root (r_types r) (r_query r), build_root (r_types r) (r_mutation r) with
  | BOk q, BOk m => BOk {| c_query := q; c_mutation := m |}
  | _, _ => BRaises
  end.

(* ------------------------------------------------------------------------------------------------ *)
(* operations: schemas.py:198 _build_operation                                                       *)
Record op := { o_root : root; o_type : str; o_field : str }.
Definition op_eqb (a b : op) : bool :=
  root_eqb (o_root a) (o_root b) && str_eqb (o_type a) (o_type b) && str_eqb (o_field a) (o_field b).
(* label = f[{operation_type.name}.{field_name}] *)
Definition mk_label (type_name field : str) : str := type_name ++ dot :: field.
Definition label (o : op) : str := mk_label (o_type o) (o_field o).

(* ------------------------------------------------------------------------------------------------ *)
(* filters.py as seen from a GraphQL operation                                                       *)
(* the context: SimpleNamespace(operation=...).  c_def = None is the dummy operation of
   _measure_statistic (definition=None); path is schema.base_path, the same for every operation *)
Record ctx := { c_label : str; c_path : str; c_def : option op }.

(* attributes a matcher can look at.  tag: APIOperation.tags -> schema.get_tags(...) = None for GraphQL
   (schemas.py:271), so every tag matcher is False.  operation_id is NOT in the model: for a GraphQL operation
   get_operation_attribute raises AttributeError (definition.raw is a GraphQLField / definition is None) in
   get_all_operations and in _measure_statistic alike. *)
Inductive attr := ALabel | AMethod | APath | ATag.

Definition attr_value (c : ctx) (a : attr) : option str :=
  match a with
  | ALabel => Some (c_label c)
  | AMethod => Some (upper_ascii s_POST)     (* method=POST on both the real and the dummy operation *)
  | APath => Some (c_path c)
  | ATag => None
  end.

(* filters.py:90 / 99 / 108 *)
Definition by_value (v : option str) (expected : str) : bool :=
  match v with None => false | Some s => str_eqb s expected end.
Definition by_value_list (v : option str) (expected : list str) : bool :=
  match v with None => false | Some s => mem_str s expected end.
Definition by_regex (v : option str) (search : str -> bool) : bool :=
  match v with None => false | Some s => search s end.

Inductive matcher :=
| MValue (a : attr) (expected : str)
| MList (a : attr) (expected : list str)
| MRegex (a : attr) (search : str -> bool)
| MFunc (f : ctx -> bool).

Definition matcher_match (m : matcher) (c : ctx) : bool :=
  match m with
  | MValue a e => by_value (attr_value c a) e
  | MList a es => by_value_list (attr_value c a) es
  | MRegex a p => by_regex (attr_value c a) p
  | MFunc f => f c
  end.

(* filters.py:118 Filter.match: all matchers *)
Definition flt := list matcher.
Definition filter_match (f : flt) (c : ctx) : bool := forallb (fun m => matcher_match m c) f.

(* filters.py:138 FilterSet (Python sets; C07_match_perm in C07 shows the order is irrelevant) *)
Record filter_set := { fs_includes : list flt; fs_excludes : list flt }.

(* filters.py:157 FilterSet.match *)
Definition fs_match (fs : filter_set) (c : ctx) : bool :=
  if existsb (fun f => filter_match f c) (fs_excludes fs) then false
  else match fs_includes fs with
       | [] => true
       | _ => existsb (fun f => filter_match f c) (fs_includes fs)
       end.

(* schemas.py:190 _should_skip *)
Definition should_skip (fs : filter_set) (c : ctx) : bool := negb (fs_match fs c).

Definition is_func (m : matcher) : bool := match m with MFunc _ => true | _ => false end.
(* region predicate: the filter set has no custom-function matcher (name / method / path / tag filters only) *)
Definition fs_no_func (fs : filter_set) : bool :=
  forallb (fun f => forallb (fun m => negb (is_func m)) f) (fs_includes fs ++ fs_excludes fs).

(* ------------------------------------------------------------------------------------------------ *)
(* schemas.py:174 get_all_operations, written as the two nested loops of the source                  *)
Definition real_ctx (path : str) (o : op) : ctx := {| c_label := label o; c_path := path; c_def := Some o |}.

Fixpoint offered_fields (path : str) (fs : filter_set) (r : root) (tname : str) (fields : list str) : list op :=
  match fields with
  | [] => []
  | f :: rest =>
      let operation := {| o_root := r; o_type := tname; o_field := f |} in
      if should_skip fs (real_ctx path operation) then offered_fields path fs r tname rest
      else operation :: offered_fields path fs r tname rest
  end.

Definition offered_root (path : str) (fs : filter_set) (r : root) (t : option ctype) : list op :=
  match t with
  | None => []                                               (* if operation_type is None: continue *)
  | Some ct => offered_fields path fs r (ct_name ct) (ct_fields ct)
  end.

Definition offered (path : str) (fs : filter_set) (c : client) : list op :=
  offered_root path fs RQuery (c_query c) ++ offered_root path fs RMutation (c_mutation c).

(* the specification side: the root fields of the schema, query type first, in schema order *)
Definition fields_of_root (r : root) (t : option ctype) : list op :=
  match t with
  | None => []
  | Some ct => map (fun f => {| o_root := r; o_type := ct_name ct; o_field := f |}) (ct_fields ct)
  end.
Definition root_fields (c : client) : list op :=
  fields_of_root RQuery (c_query c) ++ fields_of_root RMutation (c_mutation c).

(* list(schema.get_all_operations()) starting from the raw introspection result *)
Definition offered_raw (path : str) (fs : filter_set) (r : raw) : build_res (list op) :=
  match build_client r with BOk c => BOk (offered path fs c) | BRaises => BRaises end.

(* ------------------------------------------------------------------------------------------------ *)
(* schemas.py:149 _measure_statistic on the RAW introspection result                                 *)
Definition dummy_ctx (path : str) (lbl : str) : ctx := {| c_label := lbl; c_path := path; c_def := None |}.

(* for field in type_def[fields]: total += 1; label = ...; if not skip: selected += 1 *)
Fixpoint count_fields (path : str) (fs : filter_set) (tname : str) (fields : list str) (acc : N * N) : N * N :=
  match fields with
  | [] => acc
  | f :: rest =>
      let '(total, selected) := acc in
      let sel := if should_skip fs (dummy_ctx path (mk_label tname f)) then selected else (selected + 1)%N in
      count_fields path fs tname rest ((total + 1)%N, sel)
  end.

(* for type_def in raw_schema.get(types, []): if type_def[name] == query_type_name: ...
   None = TypeError (iterating fields = null) *)
Fixpoint count_types (path : str) (fs : filter_set) (tname : str) (ts : list rtype) (acc : N * N) : option (N * N) :=
  match ts with
  | [] => Some acc
  | t :: rest =>
      if str_eqb (rt_name t) tname then
        match rt_fields t with
        | None => None
        | Some fields => count_types path fs tname rest (count_fields path fs tname fields acc)
        end
      else count_types path fs tname rest acc
  end.

Definition count_root (path : str) (fs : filter_set) (ts : list rtype) (name : option str) (acc : N * N) : option (N * N) :=
  match name with
  | None => Some acc
  | Some n => count_types path fs n ts acc
  end.

(* (total, selected) *)
Definition measure (path : str) (fs : filter_set) (r : raw) : option (N * N) :=
  match count_root path fs (r_types r) (r_query r) (0%N, 0%N) with
  | None => None
  | Some acc => count_root path fs (r_types r) (r_mutation r) acc
  end.

(* region predicates of the counting theorem: a well-formed introspection result.
   wf_root: exactly one type carries the root name, it is an object with a fields list without duplicates *)
Fixpoint count_named (n : str) (ts : list rtype) : nat :=
  match ts with [] => 0%nat | t :: r => ((if str_eqb (rt_name t) n then 1 else 0) + count_named n r)%nat end.
Fixpoint nodup_str (l : list str) : bool :=
  match l with [] => true | x :: r => negb (mem_str x r) && nodup_str r end.
Definition wf_root (ts : list rtype) (name : option str) : bool :=
  match name with
  | None => true
  | Some n =>
      Nat.eqb (count_named n ts) 1 &&
      match find_last n ts with
      | Some t => match rt_kind t, rt_fields t with KObject, Some fs => nodup_str fs | _, _ => false end
      | None => false
      end
  end.
Definition wf_raw (r : raw) : bool := wf_root (r_types r) (r_query r) && wf_root (r_types r) (r_mutation r).

(* ------------------------------------------------------------------------------------------------ *)
(* schemas.py:321 graphql_cases: the call of the hypothesis-graphql strategy factory                 *)
Inductive factory := Queries | Mutations.
Record gen_config := { g_allow_x00 : bool; g_allow_null : bool; g_codec : option str }.
Record strategy_args := {
  sc_factory : factory; sc_fields : list str; sc_scalars : list str;
  sc_allow_x00 : bool; sc_allow_null : bool; sc_codec : option str }.

(* strategy_factory = {QUERY: queries, MUTATION: mutations}[definition.root_type] *)
Definition factory_of (r : root) : factory := match r with RQuery => Queries | RMutation => Mutations end.

Definition strategy_call (cfg : gen_config) (scalar_names : list str) (o : op) : strategy_args :=
  {| sc_factory := factory_of (o_root o); sc_fields := [o_field o]; sc_scalars := scalar_names;
     sc_allow_x00 := g_allow_x00 cfg; sc_allow_null := g_allow_null cfg; sc_codec := g_codec cfg |}.

(* hypothesis-graphql side of the call (contract): queries uses schema.query_type, mutations schema.mutation_type;
   InvalidArgument when that type is None; validate_fields: non-empty and every field is a field of the type *)
Definition hg_root_type (c : client) (f : factory) : option ctype :=
  match f with Queries => c_query c | Mutations => c_mutation c end.
Definition hg_accepts (c : client) (a : strategy_args) : bool :=
  match hg_root_type c (sc_factory a) with
  | None => false
  | Some ct => match sc_fields a with
               | [] => false
               | fields => forallb (fun f => mem_str f (ct_fields ct)) fields
               end
  end.
(* the (root type name, selectable fields) the generated document is restricted to *)
Definition hg_target (c : client) (a : strategy_args) : option (str * list str) :=
  match hg_root_type c (sc_factory a) with
  | None => None
  | Some ct => Some (ct_name ct, sc_fields a)
  end.

(* ------------------------------------------------------------------------------------------------ *)
(* schema[type_name][field_name]: _get_operation_map (:101), FieldMap.__getitem__ (:309),
   _init_operation (:297) with OperationCache._operations keyed by [keyf type_name field_name]       *)
Inductive lres := LOp (o : op) | LNoType | LNoField.

(* first root (QUERY, then MUTATION) whose type name equals the key *)
Definition root_by_name (c : client) (key : str) : option (root * ctype) :=
  match c_query c with
  | Some ct => if str_eqb (ct_name ct) key then Some (RQuery, ct)
               else match c_mutation c with
                    | Some mt => if str_eqb (ct_name mt) key then Some (RMutation, mt) else None
                    | None => None
                    end
  | None => match c_mutation c with
            | Some mt => if str_eqb (ct_name mt) key then Some (RMutation, mt) else None
            | None => None
            end
  end.

Definition cache := list (str * op).
Fixpoint cache_get (k : str) (ca : cache) : option op :=
  match ca with
  | [] => None
  | (k', o) :: r => if str_eqb k' k then Some o else cache_get k r
  end.

(* FieldMap._init_operation with an explicit cache-key function of (root type name, field name) *)
Definition lookup_with (keyf : str -> str -> str) (c : client) (ca : cache) (key field : str) : lres * cache :=
  match root_by_name c key with
  | None => (LNoType, ca)
  | Some (r, ct) =>
      let k := keyf (ct_name ct) field in
      match cache_get k ca with
      | Some o => (LOp o, ca)                                  (* cache hit: whatever was stored under the key *)
      | None =>
          if mem_str field (ct_fields ct)
          then let o := {| o_root := r; o_type := ct_name ct; o_field := field |} in (LOp o, (k, o) :: ca)
          else (LNoField, ca)
      end
  end.

Fixpoint run_lookups_with (keyf : str -> str -> str) (c : client) (ca : cache) (h : list (str * str)) : list lres :=
  match h with
  | [] => []
  | (key, field) :: rest => let '(res, ca') := lookup_with keyf c ca key field in res :: run_lookups_with keyf c ca' rest
  end.

(* the code as it is (since fe80b0ba): key = f[{operation_type.name}.{field_name}] *)
Definition cache_key (tname field : str) : str := mk_label tname field.
Definition lookup := lookup_with cache_key.
Definition run_lookups := run_lookups_with cache_key.

(* SENTINEL - the cache as it was before fe80b0ba, keyed by the field name alone.  Kept only so that the defect stays
   stated and refuted (C20_field_keyed_cache_refuted) and so that a regression is recognised by the harness. *)
Definition cache_key_fk (tname field : str) : str := field.
Definition lookup_fk := lookup_with cache_key_fk.
Definition run_lookups_fk := run_lookups_with cache_key_fk.

(* well-formedness of names: a root type name has no dot (GraphQL names are [_a-zA-Z0-9]+; graphql-core refuses
   anything else when the client schema is built), so the string key determines (type name, field name) *)
Definition dotless (s : str) : bool := negb (mem dot s).
Definition root_names_dotless (c : client) : bool :=
  match c_query c with Some ct => dotless (ct_name ct) | None => true end &&
  match c_mutation c with Some ct => dotless (ct_name ct) | None => true end.

(* what the lookup should return: independent of the history *)
Definition lookup_spec (c : client) (key field : str) : lres :=
  match root_by_name c key with
  | None => LNoType
  | Some (r, ct) => if mem_str field (ct_fields ct)
                    then LOp {| o_root := r; o_type := ct_name ct; o_field := field |} else LNoField
  end.

(* region predicate of the SENTINEL theorems: no field name is looked up under two different type keys *)
Definition hist_consistent (h : list (str * str)) : bool :=
  forallb (fun p => forallb (fun q => implb (str_eqb (snd p) (snd q)) (str_eqb (fst p) (fst q))) h) h.

(* ------------------------------------------------------------------------------------------------ *)
(* scalars.py: the table handed to hypothesis-graphql  {**get_extra_scalar_strategies(), **CUSTOM_SCALARS} *)
(* a strategy is identified by a number (the harness numbers the strategy objects) *)
Definition table := list (str * N).
Fixpoint tbl_get (k : str) (t : table) : option N :=
  match t with [] => None | (k', v) :: r => if str_eqb k' k then Some v else tbl_get k r end.
(* d[k] = v on an insertion-ordered dict *)
Fixpoint tbl_set (k : str) (v : N) (t : table) : table :=
  match t with
  | [] => [(k, v)]
  | (k', v') :: r => if str_eqb k' k then (k', v) :: r else (k', v') :: tbl_set k v r
  end.
Definition tbl_merge (a b : table) : table := fold_left (fun acc kv => tbl_set (fst kv) (snd kv) acc) b a.

(* scalars.py:15 scalar(name, strategy): the two isinstance checks are the first two arguments *)
Inductive reg_res := Registered (t : table) | IncorrectUsage.
Definition register (name_is_str strategy_is_strategy : bool) (name : str) (s : N) (t : table) : reg_res :=
  if negb name_is_str then IncorrectUsage
  else if negb strategy_is_strategy then IncorrectUsage
  else Registered (tbl_set name s t).

(* scalars.py:33 the names of the extra scalars, in the order of the dict literal *)
Definition s_Date : str := [68;97;116;101]%N.
Definition s_Time : str := [84;105;109;101]%N.
Definition s_DateTime : str := [68;97;116;101;84;105;109;101]%N.
Definition s_IP : str := [73;80]%N.
Definition s_IPv4 : str := [73;80;118;52]%N.
Definition s_IPv6 : str := [73;80;118;54]%N.
Definition s_BigInt : str := [66;105;103;73;110;116]%N.
Definition s_Long : str := [76;111;110;103]%N.
Definition s_UUID : str := [85;85;73;68]%N.
Definition extra_scalar_names : list str :=
  [s_Date; s_Time; s_DateTime; s_IP; s_IPv4; s_IPv6; s_BigInt; s_Long; s_UUID].

(* value kind of the AST node each extra scalar produces (nodes.String / nodes.Int) *)
Inductive node_kind := NString | NInt.
Definition extra_scalar_kind (n : str) : option node_kind :=
  if mem_str n [s_Date; s_Time; s_DateTime; s_IP; s_IPv4; s_IPv6; s_UUID] then Some NString
  else if mem_str n [s_BigInt; s_Long] then Some NInt
  else None.

(* scalars.py:50 Long: st.integers(min_value=-(2**63), max_value=2**63 - 1) *)
Definition long_min : Z := (- 2 ^ 63)%Z.
Definition long_max : Z := (2 ^ 63 - 1)%Z.
Definition in_long (v : Z) : bool := (long_min <=? v)%Z && (v <=? long_max)%Z.

(* ------------------------------------------------------------------------------------------------ *)
(* transport/prepare.py:48 prepare_body for a GraphQL schema                                         *)
Inductive body := BNotSet | BBytes (b : str) | BText (s : str).
Inductive prepared := PNotSet | PBytes (b : str) | PDict (kvs : list (str * str)).
(* case.body if isinstance(case.body, (NotSet, bytes)) else {query: case.body} *)
Definition prepare_body (b : body) : prepared :=
  match b with
  | BNotSet => PNotSet
  | BBytes x => PBytes x
  | BText s => PDict [(s_query, s)]
  end.

(* ------------------------------------------------------------------------------------------------ *)
(* access histories on ONE operation object (as returned by schema[type][field] and kept by the caller):
   the generation config can be replaced (schema.configure(generation=...)), scalars can be (re)registered, and
   every draw builds the strategy anew: graphql_cases (schemas.py:339-354) calls the factory on EVERY draw with
   generation_config or self.generation_config (get_case_strategy, schemas.py:237) and with the scalar table of
   that moment.  Nothing about a draw is remembered.                                                  *)
Inductive event :=
| EConfigure (cfg : gen_config)                                   (* schema.configure(generation=cfg) *)
| ERegister (name_is_str strategy_is_strategy : bool) (name : str) (s : N)   (* schemathesis.graphql.scalar(...) *)
| EDraw (percall : option gen_config).                            (* operation.as_strategy(generation_config=percall) + one draw *)

Record gstate := { st_cfg : gen_config; st_reg : table }.

(* the factory call of one draw, together with the scalar table it is given *)
Definition draw_call (extra : table) (o : op) (st : gstate) (percall : option gen_config) : strategy_args * table :=
  let cfg := match percall with Some c => c | None => st_cfg st end in
  let tbl := tbl_merge extra (st_reg st) in
  (strategy_call cfg (map fst tbl) o, tbl).

Definition step_state (st : gstate) (e : event) : gstate :=
  match e with
  | EConfigure cfg => {| st_cfg := cfg; st_reg := st_reg st |}
  | ERegister ns ss name s =>
      match register ns ss name s (st_reg st) with
      | Registered t => {| st_cfg := st_cfg st; st_reg := t |}
      | IncorrectUsage => st
      end
  | EDraw _ => st
  end.

Fixpoint run_events (extra : table) (o : op) (st : gstate) (h : list event) : list (strategy_args * table) :=
  match h with
  | [] => []
  | e :: rest =>
      match e with
      | EDraw pc => draw_call extra o st pc :: run_events extra o (step_state st e) rest
      | _ => run_events extra o (step_state st e) rest
      end
  end.

Definition state_after (st : gstate) (h : list event) : gstate := fold_left step_state h st.
Definition is_draw (e : event) : bool := match e with EDraw _ => true | _ => false end.
