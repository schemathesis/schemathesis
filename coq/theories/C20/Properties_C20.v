(* C20 property theorems only, each followed by Print Assumptions, in the order of the parts of Proofs_C20 (offered
   operations, counts, strategy call, lookups, scalar table, request body, event histories); the predicates of the
   statements (passes, blind, counts_agree, spec_of) and the constants of the witnesses stand at the head of
   Proofs_C20.  What hypothesis-graphql generates (document validity) is NOT a theorem here: it is foreign code,
   covered by the graphql-core oracle of the harness only. *)
From Coq Require Import List NArith ZArith Bool.
From Verif Require Import Common.Str C20.Model_C20 C20.Proofs_C20.
Import ListNotations.

(* list(get_all_operations()) is the list of root fields (query type first) filtered by FilterSet.match;
   for every schema, every base path and every filter set, custom functions included *)
Theorem C20_offered_eq_selected_root_fields : forall path fs c,
  offered path fs c = filter (fun o => fs_match fs (real_ctx path o)) (root_fields c).
Proof. intros path fs c. unfold offered, root_fields. rewrite filter_app, !offered_root_filter. reflexivity. Qed.
Print Assumptions C20_offered_eq_selected_root_fields.

(* ... and membership against the declarative reading of the filters: no EXCLUDE filter matches and, if there
   are INCLUDE filters, one of them matches *)
Theorem C20_offered_iff_passes : forall path fs c o,
  In o (offered path fs c) <-> In o (root_fields c) /\ passes fs (real_ctx path o).
Proof.
  intros path fs c o. rewrite C20_offered_eq_selected_root_fields, filter_In, fs_match_spec. reflexivity.
Qed.
Print Assumptions C20_offered_iff_passes.

Theorem C20_root_fields_shape : forall c o,
  In o (root_fields c) <->
  (exists ct, c_query c = Some ct /\ o_root o = RQuery /\ o_type o = ct_name ct /\ In (o_field o) (ct_fields ct)) \/
  (exists ct, c_mutation c = Some ct /\ o_root o = RMutation /\ o_type o = ct_name ct /\ In (o_field o) (ct_fields ct)).
Proof. intros c o. unfold root_fields. rewrite in_app_iff, !in_fields_of_root. reflexivity. Qed.
Print Assumptions C20_root_fields_shape.

(* selected / total counts of _measure_statistic: the full statement (for every introspection result the client
   schema can be built from and every filter set the counts are the number of root fields and the number of offered
   operations) is FALSE of the code.  Witnesses (the client schema is built in each): raw_dup_type (the Query type
   listed twice), raw_dup_field (the field foo listed twice), raw_ok with fs_func (a custom function that looks at
   operation.definition) *)
Theorem C20_counts_eq_offered_refuted_dup_type : exists path fs r,
  fs_no_func fs = true /\ ~ counts_agree path fs r.
Proof.
  exists w_path, fs_none, raw_dup_type. split; [reflexivity|]. rewrite counts_agree_iff. vm_compute. discriminate.
Qed.
Print Assumptions C20_counts_eq_offered_refuted_dup_type.

Theorem C20_counts_eq_offered_refuted_dup_field : exists path fs r,
  fs_no_func fs = true /\ ~ counts_agree path fs r.
Proof.
  exists w_path, fs_none, raw_dup_field. split; [reflexivity|]. rewrite counts_agree_iff. vm_compute. discriminate.
Qed.
Print Assumptions C20_counts_eq_offered_refuted_dup_field.

Theorem C20_counts_eq_offered_refuted_func : exists path fs r,
  wf_raw r = true /\ ~ counts_agree path fs r.
Proof.
  exists w_path, fs_func, raw_ok. split; [reflexivity|]. rewrite counts_agree_iff. vm_compute. discriminate.
Qed.
Print Assumptions C20_counts_eq_offered_refuted_func.

(* strongest true restriction: a well-formed introspection result (each root type name carried by exactly one
   type, an object whose field names are distinct - what every valid GraphQL schema introspects to) and filters
   that do not look at operation.definition, custom functions included *)
Theorem C20_counts_eq_offered_blind : forall path fs r,
  blind fs -> wf_raw r = true ->
  exists c, build_client r = BOk c /\
            measure path fs r = Some (N.of_nat (length (root_fields c)), N.of_nat (length (offered path fs c))).
Proof. exact counts_agree_blind. Qed.
Print Assumptions C20_counts_eq_offered_blind.

(* in particular with name / method / path / tag filters only (a region the harness can decide) *)
Theorem C20_counts_eq_offered_partial : forall path fs r,
  wf_raw r = true -> fs_no_func fs = true ->
  exists c, build_client r = BOk c /\
            measure path fs r = Some (N.of_nat (length (root_fields c)), N.of_nat (length (offered path fs c))).
Proof. intros path fs r Hwf Hnf. apply C20_counts_eq_offered_blind; [apply no_func_blind; exact Hnf | exact Hwf]. Qed.
Print Assumptions C20_counts_eq_offered_partial.

Theorem C20_counts_hypotheses_satisfiable :
  wf_raw raw_ok = true /\ fs_no_func fs_name = true /\
  measure w_path fs_name raw_ok = Some (4%N, 1%N) /\
  offered_raw w_path fs_name raw_ok = BOk [{| o_root := RQuery; o_type := n_Query; o_field := n_foo |}].
Proof. exact counts_nonvacuous. Qed.
Print Assumptions C20_counts_hypotheses_satisfiable.

(* for every root field of every schema: the factory chosen by the root kind reads the root type the operation
   belongs to, fields = [the operation's field] passes validate_fields, and allow_x00 / allow_null / codec and the
   scalar table are passed through unchanged *)
Theorem C20_strategy_targets_field : forall c cfg names o,
  In o (root_fields c) ->
  hg_accepts c (strategy_call cfg names o) = true /\
  hg_target c (strategy_call cfg names o) = Some (o_type o, [o_field o]) /\
  sc_allow_x00 (strategy_call cfg names o) = g_allow_x00 cfg /\
  sc_allow_null (strategy_call cfg names o) = g_allow_null cfg /\
  sc_codec (strategy_call cfg names o) = g_codec cfg /\
  sc_scalars (strategy_call cfg names o) = names.
Proof.
  intros c cfg names o Hin. destruct (root_field_type c o Hin) as [ct [Hrt [Ht Hf]]].
  unfold hg_accepts, hg_target, strategy_call. cbn [sc_factory sc_fields sc_allow_x00 sc_allow_null sc_codec sc_scalars].
  rewrite Hrt, Ht. cbn [forallb]. apply mem_str_spec in Hf. rewrite Hf. repeat split; reflexivity.
Qed.
Print Assumptions C20_strategy_targets_field.

Theorem C20_strategy_targets_offered : forall path fs c cfg names o,
  In o (offered path fs c) ->
  hg_accepts c (strategy_call cfg names o) = true /\
  hg_target c (strategy_call cfg names o) = Some (o_type o, [o_field o]).
Proof.
  intros path fs c cfg names o Hin. apply C20_offered_iff_passes in Hin.
  destruct (C20_strategy_targets_field c cfg names o (proj1 Hin)) as [H1 [H2 _]]. auto.
Qed.
Print Assumptions C20_strategy_targets_offered.

(* schema[type][field] returns the operation that was asked for: for every schema (same-named fields under Query
   and Mutation included) and every history of lookups each result is the stateless specification.  The cache key
   of the code is the string type.field (commit fe80b0ba); root_names_dotless is name well-formedness (GraphQL names
   have no dot; graphql-core refuses others), needed because the key is a string *)
Theorem C20_lookup_returns_requested : forall c h,
  root_names_dotless c = true -> run_lookups c [] h = map (spec_of c) h.
Proof. intros c h Hd. apply run_lookups_with_correct, cache_key_separates, Hd. Qed.
Print Assumptions C20_lookup_returns_requested.

(* SENTINEL (the cache keyed by the field name alone, the code before fe80b0ba): Mutation.foo then Query.foo returns
   the mutation operation twice, while the key type.field answers the same history correctly *)
Theorem C20_field_keyed_cache_refuted : exists c h,
  root_names_dotless c = true /\
  run_lookups_fk c [] h <> map (spec_of c) h /\ run_lookups c [] h = map (spec_of c) h.
Proof.
  destruct lookups_cross_witnesses as [Hkey [_ [_ [Hfk _]]]].
  exists client_ok, h_cross. split; [reflexivity|]. split; [exact Hfk | exact Hkey].
Qed.
Print Assumptions C20_field_keyed_cache_refuted.

Theorem C20_lookup_hypotheses_satisfiable :
  root_names_dotless client_ok = true /\
  run_lookups client_ok [] [(n_Mutation, n_foo); (n_Query, n_foo); (n_Query, n_baz); (n_Mutation, n_foo); (n_Long, n_foo)] =
    [LOp {| o_root := RMutation; o_type := n_Mutation; o_field := n_foo |};
     LOp {| o_root := RQuery; o_type := n_Query; o_field := n_foo |}; LNoField;
     LOp {| o_root := RMutation; o_type := n_Mutation; o_field := n_foo |}; LNoType].
Proof. exact lookups_nonvacuous. Qed.
Print Assumptions C20_lookup_hypotheses_satisfiable.

(* {**get_extra_scalar_strategies(), **CUSTOM_SCALARS}: a registered strategy wins, every other extra scalar stays *)
Theorem C20_scalar_table_lookup : forall extra registered k,
  nodup_str (map fst registered) = true ->
  tbl_get k (tbl_merge extra registered) =
  match tbl_get k registered with Some v => Some v | None => tbl_get k extra end.
Proof. exact tbl_get_merge. Qed.
Print Assumptions C20_scalar_table_lookup.

Theorem C20_scalar_register : forall ns ss name s t,
  nodup_str (map fst t) = true ->
  match register ns ss name s t with
  | IncorrectUsage => ns = false \/ ss = false
  | Registered t' => ns = true /\ ss = true /\ nodup_str (map fst t') = true /\
                     forall k, tbl_get k t' = if str_eqb name k then Some s else tbl_get k t
  end.
Proof.
  intros ns ss name s t Hn. unfold register. destruct ns; cbn [negb]; auto. destruct ss; cbn [negb]; auto.
  repeat split; auto.
  - apply tbl_set_nodup. exact Hn.
  - intros k. apply tbl_get_set.
Qed.
Print Assumptions C20_scalar_register.

Theorem C20_long_is_int64 : forall v,
  in_long v = true <-> (-9223372036854775808 <= v <= 9223372036854775807)%Z.
Proof. intros v. unfold in_long. rewrite andb_true_iff, !Z.leb_le. reflexivity. Qed.
Print Assumptions C20_long_is_int64.

Theorem C20_extra_scalars_have_kinds :
  forallb (fun n => match extra_scalar_kind n with Some _ => true | None => false end) extra_scalar_names = true /\
  nodup_str extra_scalar_names = true /\ extra_scalar_kind s_Long = Some NInt /\ length extra_scalar_names = 9%nat.
Proof. vm_compute. repeat split. Qed.
Print Assumptions C20_extra_scalars_have_kinds.

Theorem C20_body_is_query_document : forall b,
  match b with
  | BText doc => prepare_body b = PDict [(s_query, doc)]
  | BBytes x => prepare_body b = PBytes x
  | BNotSet => prepare_body b = PNotSet
  end.
Proof. intros b. destruct b; reflexivity. Qed.
Print Assumptions C20_body_is_query_document.

(* whatever happened before (draws, reconfigurations, registrations), a draw calls the factory with the generation
   config of that moment (the per-call one if given) and the scalar table of that moment *)
Theorem C20_strategy_args_follow_current_config : forall extra o st h pc,
  run_events extra o st (h ++ [EDraw pc]) = run_events extra o st h ++ [draw_call extra o (state_after st h) pc].
Proof. intros extra o st h pc. rewrite run_events_app. reflexivity. Qed.
Print Assumptions C20_strategy_args_follow_current_config.

(* earlier draws leave no trace: removing every earlier draw from the history does not change the call *)
Theorem C20_draws_do_not_stick : forall extra o st h pc,
  draw_call extra o (state_after st h) pc =
  draw_call extra o (state_after st (filter (fun e => negb (is_draw e)) h)) pc.
Proof. intros extra o st h pc. rewrite <- state_ignores_draws. reflexivity. Qed.
Print Assumptions C20_draws_do_not_stick.

(* after schema.configure(generation=c) the next draw uses c (or its own per-call config), whatever was used before *)
Theorem C20_config_is_latest : forall extra o st h c pc,
  let call := fst (draw_call extra o (state_after st (h ++ [EConfigure c])) pc) in
  let eff := match pc with Some c' => c' | None => c end in
  sc_allow_x00 call = g_allow_x00 eff /\ sc_allow_null call = g_allow_null eff /\ sc_codec call = g_codec eff.
Proof.
  intros extra o st h c pc. cbn zeta. rewrite draw_call_args, state_after_configure.
  destruct pc; repeat split; reflexivity.
Qed.
Print Assumptions C20_config_is_latest.

Theorem C20_history_calls_target_field : forall c extra o h st,
  In o (root_fields c) ->
  Forall (fun call => hg_accepts c (fst call) = true /\ hg_target c (fst call) = Some (o_type o, [o_field o]))
         (run_events extra o st h).
Proof.
  intros c extra o h st Hin. apply run_events_Forall. intros st' pc. rewrite draw_call_args.
  destruct (C20_strategy_targets_field c (match pc with Some c0 => c0 | None => st_cfg st' end)
              (map fst (tbl_merge extra (st_reg st'))) o Hin) as [H1 [H2 _]]. split; assumption.
Qed.
Print Assumptions C20_history_calls_target_field.
