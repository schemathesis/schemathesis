(* C20 - what the theorems of Properties_C20 rest on.  First the predicates their statements use and the constants of
   the examples; then six parts that do not depend on one another, each ending with its examples:
     filters          fs_match against [passes]
     root fields      the offered operations as a filter of the root fields; the shape of the root fields
                      (also what the strategy-call theorems use)
     counts           _measure_statistic against get_all_operations
     lookups          schema[type][field] through a cache with any key function; the key of the code and the
                      SENTINEL key as instances
     scalar table     get after set and after merge
     event histories  draws, reconfigurations and registrations on one operation object *)
From Coq Require Import List NArith ZArith Bool Lia.
From Verif Require Import Common.Str Common.Lists C20.Model_C20.
Import ListNotations.

Definition filter_matches (f : flt) (c : ctx) : Prop := forall m, In m f -> matcher_match m c = true.
(* an operation passes the filters: no EXCLUDE filter matches, and some INCLUDE filter matches unless there is none *)
Definition passes (fs : filter_set) (c : ctx) : Prop :=
  (forall f, In f (fs_excludes fs) -> ~ filter_matches f c) /\
  (fs_includes fs = [] \/ exists f, In f (fs_includes fs) /\ filter_matches f c).

(* filters that do not look at operation.definition: the same answer on the dummy and the real operation *)
Definition blind_matcher (m : matcher) : Prop :=
  forall c1 c2, c_label c1 = c_label c2 -> c_path c1 = c_path c2 -> matcher_match m c1 = matcher_match m c2.
Definition blind (fs : filter_set) : Prop :=
  forall f m, In f (fs_includes fs ++ fs_excludes fs) -> In m f -> blind_matcher m.

Definition counts_agree (path : str) (fs : filter_set) (r : raw) : Prop :=
  exists c, build_client r = BOk c /\
            measure path fs r = Some (N.of_nat (length (root_fields c)), N.of_nat (length (offered path fs c))).

Definition spec_of (c : client) (p : str * str) : lres := lookup_spec c (fst p) (snd p).

Definition n_Query : str := [81;117;101;114;121]%N.
Definition n_Mutation : str := [77;117;116;97;116;105;111;110]%N.
Definition n_foo : str := [102;111;111]%N.
Definition n_bar : str := [98;97;114]%N.
Definition n_baz : str := [98;97;122]%N.
Definition n_Long : str := [76;111;110;103]%N.
(* "/gql" *)
Definition w_path : str := [47;103;113;108]%N.

Definition t_query := {| rt_name := n_Query; rt_kind := KObject; rt_fields := Some [n_foo; n_bar] |}.
Definition t_mutation := {| rt_name := n_Mutation; rt_kind := KObject; rt_fields := Some [n_foo; n_baz] |}.
Definition t_long := {| rt_name := n_Long; rt_kind := KOther; rt_fields := None |}.
Definition raw_ok : raw :=
  {| r_query := Some n_Query; r_mutation := Some n_Mutation; r_types := [t_query; t_long; t_mutation] |}.
Definition client_ok : client :=
  {| c_query := Some {| ct_name := n_Query; ct_fields := [n_foo; n_bar] |};
     c_mutation := Some {| ct_name := n_Mutation; ct_fields := [n_foo; n_baz] |} |}.

Lemma mem_str_spec s l : mem_str s l = true <-> In s l.
Proof.
  induction l as [|x r IH]; cbn [mem_str In].
  - split; [discriminate | tauto].
  - rewrite orb_true_iff, IH, str_eqb_spec. split; intros [H|H]; auto.
Qed.

Lemma mem_str_false s l : mem_str s l = false <-> ~ In s l.
Proof. rewrite <- mem_str_spec. destruct (mem_str s l); split; congruence. Qed.

Lemma str_eqb_false a b : str_eqb a b = false <-> a <> b.
Proof. exact (Str.str_eqb_false a b). Qed.

Lemma filter_match_spec f c : filter_match f c = true <-> filter_matches f c.
Proof. unfold filter_match, filter_matches. apply forallb_forall. Qed.

Lemma some_filter_matches l c :
  existsb (fun f => filter_match f c) l = true <-> exists f, In f l /\ filter_matches f c.
Proof.
  rewrite existsb_exists.
  split; intros [f [Hin Hm]]; exists f; (split; [exact Hin | apply filter_match_spec; exact Hm]).
Qed.

Lemma fs_match_spec fs c : fs_match fs c = true <-> passes fs c.
Proof.
  unfold fs_match, passes.
  destruct (existsb (fun f => filter_match f c) (fs_excludes fs)) eqn:Ex.
  - (* some EXCLUDE filter matches *)
    apply some_filter_matches in Ex. destruct Ex as [f [Hin Hm]].
    split; [discriminate|]. intros [Hex _]. destruct (Hex f Hin Hm).
  - assert (Hex : forall f, In f (fs_excludes fs) -> ~ filter_matches f c).
    { intros f Hin Hm. apply not_true_iff_false in Ex. apply Ex, some_filter_matches. eauto. }
    destruct (fs_includes fs) as [|i0 irest].
    + split; auto.
    + rewrite some_filter_matches. split; [auto|]. intros [_ [Hnil | H]]; [discriminate | exact H].
Qed.

Lemma offered_fields_filter path fs r t fields :
  offered_fields path fs r t fields =
  filter (fun o => fs_match fs (real_ctx path o)) (map (fun f => {| o_root := r; o_type := t; o_field := f |}) fields).
Proof.
  induction fields as [|f rest IH]; cbn [offered_fields map filter]; auto.
  unfold should_skip. destruct (fs_match fs _); cbn [negb]; rewrite IH; reflexivity.
Qed.

Lemma offered_root_filter path fs r t :
  offered_root path fs r t = filter (fun o => fs_match fs (real_ctx path o)) (fields_of_root r t).
Proof. destruct t as [ct|]; cbn [offered_root fields_of_root filter]; auto. apply offered_fields_filter. Qed.

Lemma in_fields_of_root o r t :
  In o (fields_of_root r t) <->
  exists ct, t = Some ct /\ o_root o = r /\ o_type o = ct_name ct /\ In (o_field o) (ct_fields ct).
Proof.
  destruct t as [ct|]; cbn [fields_of_root].
  - rewrite in_map_iff. split.
    + intros [f [E Hin]]. subst o. exists ct. cbn. auto.
    + intros [ct' [E [Hr [Ht Hf]]]]. injection E as E. subst ct'. exists (o_field o). split; auto.
      destruct o as [r0 t0 f0]. cbn in *. subst. reflexivity.
  - split; [intros []|]. intros [ct [E _]]. discriminate.
Qed.

(* the factory chosen by the root kind of a root field reads the root type the field belongs to *)
Lemma root_field_type c o :
  In o (root_fields c) ->
  exists ct, hg_root_type c (factory_of (o_root o)) = Some ct /\ o_type o = ct_name ct /\ In (o_field o) (ct_fields ct).
Proof.
  unfold root_fields. rewrite in_app_iff, !in_fields_of_root.
  intros [[ct [Ht [Hr H]]] | [ct [Ht [Hr H]]]]; exists ct; rewrite Hr; auto.
Qed.

Example strategy_nonvacuous :
  build_client raw_ok = BOk client_ok /\
  length (root_fields client_ok) = 4%nat /\
  hg_target client_ok (strategy_call {| g_allow_x00 := false; g_allow_null := true; g_codec := None |} [n_Long]
                         {| o_root := RMutation; o_type := n_Mutation; o_field := n_baz |})
  = Some (n_Mutation, [n_baz]).
Proof. vm_compute. repeat split. Qed.

Lemma attr_value_blind c1 c2 a :
  c_label c1 = c_label c2 -> c_path c1 = c_path c2 -> attr_value c1 a = attr_value c2 a.
Proof. intros Hl Hp. destruct a; cbn [attr_value]; congruence. Qed.

Lemma not_func_blind m : is_func m = false -> blind_matcher m.
Proof.
  intros H c1 c2 Hl Hp. destruct m as [a e|a es|a p|g]; [| | |discriminate H];
    cbn [matcher_match]; rewrite (attr_value_blind c1 c2 a Hl Hp); reflexivity.
Qed.

Lemma no_func_blind fs : fs_no_func fs = true -> blind fs.
Proof.
  unfold fs_no_func, blind. intros H f m Hf Hm.
  rewrite forallb_forall in H. specialize (H f Hf). rewrite forallb_forall in H.
  apply not_func_blind, negb_true_iff, H, Hm.
Qed.

Lemma filter_match_blind fs f c1 c2 :
  blind fs -> In f (fs_includes fs ++ fs_excludes fs) ->
  c_label c1 = c_label c2 -> c_path c1 = c_path c2 -> filter_match f c1 = filter_match f c2.
Proof.
  intros Hb Hf Hl Hp. apply eq_true_iff_eq. rewrite !filter_match_spec.
  split; intros H m Hm; [rewrite <- (Hb f m Hf Hm c1 c2 Hl Hp) | rewrite (Hb f m Hf Hm c1 c2 Hl Hp)]; auto.
Qed.

Lemma fs_match_blind fs c1 c2 :
  blind fs -> c_label c1 = c_label c2 -> c_path c1 = c_path c2 -> fs_match fs c1 = fs_match fs c2.
Proof.
  intros Hb Hl Hp. unfold fs_match.
  rewrite (existsb_ext_in (fun f => filter_match f c1) (fun f => filter_match f c2) (fs_excludes fs)),
          (existsb_ext_in (fun f => filter_match f c1) (fun f => filter_match f c2) (fs_includes fs)).
  - reflexivity.
  - intros f Hf. apply (filter_match_blind fs); auto. apply in_or_app. left. exact Hf.
  - intros f Hf. apply (filter_match_blind fs); auto. apply in_or_app. right. exact Hf.
Qed.

(* the loop over one fields list, started from any pair of counters *)
Lemma count_fields_lengths path fs r t fields a b :
  blind fs ->
  count_fields path fs t fields (a, b) =
  ((a + N.of_nat (length fields))%N, (b + N.of_nat (length (offered_fields path fs r t fields)))%N).
Proof.
  intros Hb. revert a b. induction fields as [|f rest IH]; intros a b; cbn [count_fields offered_fields length].
  - f_equal; lia.
  - unfold should_skip.
    rewrite (fs_match_blind fs (dummy_ctx path (mk_label t f))
               (real_ctx path {| o_root := r; o_type := t; o_field := f |}) Hb eq_refl eq_refl).
    destruct (fs_match fs (real_ctx path _)); cbn [negb length]; rewrite IH; f_equal; lia.
Qed.

Lemma count_named_zero_find n ts : count_named n ts = 0%nat -> find_last n ts = None.
Proof.
  induction ts as [|t r IH]; cbn [count_named find_last]; auto.
  destruct (str_eqb (rt_name t) n); intros H; [discriminate|]. rewrite IH; auto.
Qed.

(* when at most one type carries the name, the loop over the raw types visits the type that build_client_schema keeps *)
Lemma count_types_find_last path fs n ts : forall acc,
  (count_named n ts <= 1)%nat ->
  count_types path fs n ts acc =
  match find_last n ts with
  | None => Some acc
  | Some t => match rt_fields t with None => None | Some fields => Some (count_fields path fs n fields acc) end
  end.
Proof.
  induction ts as [|t0 r IH]; intros acc Hc; cbn [count_named find_last count_types] in *; [reflexivity|].
  destruct (str_eqb (rt_name t0) n).
  - (* t0 carries the name: no later type does *)
    rewrite (count_named_zero_find n r) by lia.
    destruct (rt_fields t0) as [fields|]; [|reflexivity].
    rewrite IH, (count_named_zero_find n r) by lia. reflexivity.
  - rewrite IH by lia. destruct (find_last n r); reflexivity.
Qed.

Lemma dedup_aux_nodup seen l :
  nodup_str l = true -> (forall x, In x l -> ~ In x seen) -> dedup_aux seen l = l.
Proof.
  revert seen. induction l as [|x r IH]; intros seen Hn Hs; cbn [dedup_aux nodup_str] in *; auto.
  apply andb_true_iff in Hn. destruct Hn as [Hx Hr].
  assert (Hm : mem_str x seen = false) by (apply mem_str_false; apply Hs; left; reflexivity).
  rewrite Hm. f_equal. apply IH; auto.
  intros y Hy [Hyx | Hin].
  - subst y. apply negb_true_iff in Hx. apply mem_str_false in Hx. contradiction.
  - apply (Hs y); auto. right. exact Hy.
Qed.

Lemma dedup_nodup l : nodup_str l = true -> dedup l = l.
Proof. intros H. apply dedup_aux_nodup; auto. Qed.

Lemma find_last_name n ts t : find_last n ts = Some t -> rt_name t = n.
Proof.
  induction ts as [|t0 r IH]; cbn [find_last]; [discriminate|].
  destruct (find_last n r) as [t'|].
  - intros H. injection H as H. subst t'. apply IH. reflexivity.
  - destruct (str_eqb (rt_name t0) n) eqn:E; [|discriminate]. intros H. injection H as H. subst t0.
    apply str_eqb_spec. exact E.
Qed.

(* one root of a well-formed introspection result: the client type is built and the counters advance by the number
   of its fields and of its offered operations *)
Lemma count_root_lengths path fs r ts name a b :
  blind fs -> wf_root ts name = true ->
  exists t, build_root ts name = BOk t /\
            count_root path fs ts name (a, b) =
            Some ((a + N.of_nat (length (fields_of_root r t)))%N, (b + N.of_nat (length (offered_root path fs r t)))%N).
Proof.
  intros Hb Hwf. destruct name as [n|]; cbn [wf_root build_root count_root] in *.
  - apply andb_true_iff in Hwf. destruct Hwf as [Hc Hf]. apply Nat.eqb_eq in Hc.
    destruct (find_last n ts) as [t|] eqn:F; [|discriminate].
    destruct (rt_kind t) eqn:K; [|discriminate]. destruct (rt_fields t) as [fields|] eqn:Fl; [|discriminate].
    eexists. split; [reflexivity|].
    rewrite count_types_find_last, F, Fl by lia.
    cbn [fields_of_root offered_root ct_name ct_fields]. rewrite (dedup_nodup fields Hf), map_length.
    rewrite (find_last_name n ts t F). rewrite (count_fields_lengths path fs r n fields a b Hb). reflexivity.
  - exists None. split; auto. cbn [fields_of_root offered_root length]. f_equal. f_equal; lia.
Qed.

Lemma counts_agree_blind path fs r : blind fs -> wf_raw r = true -> counts_agree path fs r.
Proof.
  intros Hb Hwf. unfold wf_raw in Hwf. apply andb_true_iff in Hwf. destruct Hwf as [Hq Hm].
  destruct (count_root_lengths path fs RQuery (r_types r) (r_query r) 0%N 0%N Hb Hq) as [q [Bq Cq]].
  unfold counts_agree, measure, build_client. rewrite Bq, Cq.
  edestruct (count_root_lengths path fs RMutation (r_types r) (r_mutation r)) as [m [Bm Cm]]; [exact Hb | exact Hm |].
  rewrite Bm, Cm. eexists. split; [reflexivity|].
  unfold root_fields, offered. cbn [c_query c_mutation]. rewrite !app_length. f_equal. f_equal; lia.
Qed.

(* on a concrete input [counts_agree] is decided by evaluating the right-hand side *)
Lemma counts_agree_iff path fs r :
  counts_agree path fs r <->
  match build_client r with
  | BOk c => measure path fs r = Some (N.of_nat (length (root_fields c)), N.of_nat (length (offered path fs c)))
  | BRaises => False
  end.
Proof.
  unfold counts_agree. destruct (build_client r) as [c|].
  - split; [intros [c' [E M]]; injection E as E; subst c'; exact M | intros M; exists c; auto].
  - split; [intros [c' [E _]]; discriminate | intros []].
Qed.

Definition raw_dup_type : raw :=
  {| r_query := Some n_Query; r_mutation := Some n_Mutation; r_types := [t_query; t_long; t_mutation; t_query] |}.
Definition raw_dup_field : raw :=
  {| r_query := Some n_Query; r_mutation := None;
     r_types := [{| rt_name := n_Query; rt_kind := KObject; rt_fields := Some [n_foo; n_bar; n_foo] |}] |}.
Definition fs_none : filter_set := {| fs_includes := []; fs_excludes := [] |}.
Definition fs_name : filter_set :=
  {| fs_includes := [[MValue ALabel (mk_label n_Query n_foo)]; [MList ALabel [mk_label n_Mutation n_baz]]];
     fs_excludes := [[MRegex ALabel (fun s => starts_with n_Mutation s); MValue AMethod s_POST; MValue APath w_path]] |}.
(* include(lambda ctx: ctx.operation.definition is not None) *)
Definition fs_func : filter_set :=
  {| fs_includes := [[MFunc (fun c => match c_def c with Some _ => true | None => false end)]]; fs_excludes := [] |}.

Example counts_nonvacuous :
  wf_raw raw_ok = true /\ fs_no_func fs_name = true /\
  measure w_path fs_name raw_ok = Some (4%N, 1%N) /\
  offered_raw w_path fs_name raw_ok = BOk [{| o_root := RQuery; o_type := n_Query; o_field := n_foo |}].
Proof. vm_compute. repeat split. Qed.

Lemma root_by_name_inv c key r ct :
  root_by_name c key = Some (r, ct) ->
  ct_name ct = key /\ ((c_query c = Some ct /\ r = RQuery) \/ (c_mutation c = Some ct /\ r = RMutation)).
Proof.
  unfold root_by_name. intros H.
  destruct (c_query c) as [qt|]; [destruct (str_eqb (ct_name qt) key) eqn:Eq|].
  1: { (* the key is the name of the query type *)
       injection H as H1 H2. subst. apply str_eqb_spec in Eq. auto. }
  (* no query type, or one of another name: the key is the name of the mutation type *)
  all: destruct (c_mutation c) as [mt|]; [|discriminate];
    destruct (str_eqb (ct_name mt) key) eqn:Em; [|discriminate];
    injection H as H1 H2; subst; apply str_eqb_spec in Em; auto.
Qed.

Lemma resolved_key_is_root_name c key :
  root_by_name c key <> None -> exists ct, ct_name ct = key /\ (c_query c = Some ct \/ c_mutation c = Some ct).
Proof.
  destruct (root_by_name c key) as [[r ct]|] eqn:E; [|congruence]. intros _. exists ct.
  destruct (root_by_name_inv c key r ct E) as [Hn [[H _] | [H _]]]; auto.
Qed.

Definition store (k : str) (res : lres) (ca : cache) : cache :=
  match res with LOp o => (k, o) :: ca | _ => ca end.

Lemma lookup_with_hit_miss keyf c ca key field :
  lookup_with keyf c ca key field =
  match root_by_name c key, cache_get (keyf key field) ca with
  | Some _, Some o => (LOp o, ca)
  | _, _ => (lookup_spec c key field, store (keyf key field) (lookup_spec c key field) ca)
  end.
Proof.
  unfold lookup_with, lookup_spec. destruct (root_by_name c key) as [[r ct]|] eqn:R; [|reflexivity].
  destruct (root_by_name_inv c key r ct R) as [Hname _]. rewrite Hname.
  destruct (cache_get (keyf key field) ca); [reflexivity|].
  destruct (mem_str field (ct_fields ct)); reflexivity.
Qed.

(* the key function tells apart the queries of the history that must be told apart: two queries that reach the
   cache (their type key names a root type) under the same cache key have the same specification *)
Definition key_separates (keyf : str -> str -> str) (c : client) (h : list (str * str)) : Prop :=
  forall p q, In p h -> In q h -> root_by_name c (fst p) <> None -> root_by_name c (fst q) <> None ->
              keyf (fst p) (snd p) = keyf (fst q) (snd q) -> spec_of c p = spec_of c q.

(* the invariant of a run, [h] being the queries still to come: whatever one of them can hit in the cache is its
   specification (entries no remaining query reaches may be anything) *)
Definition cache_sound (keyf : str -> str -> str) (c : client) (h : list (str * str)) (ca : cache) : Prop :=
  forall q o, In q h -> root_by_name c (fst q) <> None ->
              cache_get (keyf (fst q) (snd q)) ca = Some o -> spec_of c q = LOp o.

Lemma run_lookups_with_sound keyf c h : key_separates keyf c h -> forall ca,
  cache_sound keyf c h ca -> run_lookups_with keyf c ca h = map (spec_of c) h.
Proof.
  induction h as [|[key field] rest IH]; intros Hsep ca Hca; cbn [run_lookups_with map]; [reflexivity|].
  assert (Hsep' : key_separates keyf c rest) by (intros p q Hp Hq; apply Hsep; right; assumption).
  assert (Hca' : cache_sound keyf c rest ca) by (intros q o Hq; apply Hca; right; exact Hq).
  (* what a miss stores is sound for the rest: a later query with the same key has the same specification *)
  assert (Hst : cache_sound keyf c rest (store (keyf key field) (lookup_spec c key field) ca)).
  { destruct (lookup_spec c key field) as [o| |] eqn:S; cbn [store]; try exact Hca'.
    intros q o' Hq Rq. cbn [cache_get].
    destruct (str_eqb (keyf key field) (keyf (fst q) (snd q))) eqn:E; [|exact (Hca' q o' Hq Rq)].
    apply str_eqb_spec in E. intros G. injection G as G. subst o'. rewrite <- S. symmetry.
    apply (Hsep (key, field) q); [left; reflexivity | right; exact Hq | | exact Rq | exact E].
    cbn [fst]. intros N. unfold lookup_spec in S. rewrite N in S. discriminate. }
  rewrite lookup_with_hit_miss.
  destruct (root_by_name c key) as [rc|] eqn:R; [destruct (cache_get (keyf key field) ca) as [o|] eqn:G|].
  1: { (* hit *)
       f_equal; [|apply IH; assumption].
       symmetry. apply (Hca (key, field)); [left; reflexivity | cbn [fst]; congruence | exact G]. }
  (* miss, or no such root type *)
  all: f_equal; apply IH; assumption.
Qed.

Lemma run_lookups_with_correct keyf c h :
  key_separates keyf c h -> run_lookups_with keyf c [] h = map (spec_of c) h.
Proof. intros Hsep. apply run_lookups_with_sound; [exact Hsep|]. intros q o _ _ G. discriminate. Qed.

Lemma dotless_spec s : dotless s = true <-> ~ In dot s.
Proof. unfold dotless. rewrite negb_true_iff, <- not_true_iff_false, mem_spec. reflexivity. Qed.

(* the first dot of the key type.field ends the type name *)
Lemma mk_label_inj a b x y :
  dotless a = true -> dotless b = true -> mk_label a x = mk_label b y -> a = b /\ x = y.
Proof. rewrite !dotless_spec. unfold mk_label. apply app_sep_inj. Qed.

Lemma root_dotless c key :
  root_names_dotless c = true -> root_by_name c key <> None -> dotless key = true.
Proof.
  intros Hd R. destruct (resolved_key_is_root_name c key R) as [ct [Hn Hc]]. subst key.
  unfold root_names_dotless in Hd. apply andb_true_iff in Hd. destruct Hd as [Hq Hm].
  destruct Hc as [Ec | Ec]; rewrite Ec in *; assumption.
Qed.

(* the key type.field of the code (commit fe80b0ba) separates every history, same-named fields under both root types
   included *)
Lemma cache_key_separates c h : root_names_dotless c = true -> key_separates cache_key c h.
Proof.
  intros Hd p q _ _ Rp Rq E.
  destruct (mk_label_inj _ _ _ _ (root_dotless c _ Hd Rp) (root_dotless c _ Hd Rq) E) as [E1 E2].
  unfold spec_of. rewrite E1, E2. reflexivity.
Qed.

(* SENTINEL: the key that ignores the type name (the code before fe80b0ba) separates only some histories *)
Lemma hist_consistent_spec h :
  hist_consistent h = true -> forall p q, In p h -> In q h -> snd p = snd q -> fst p = fst q.
Proof.
  unfold hist_consistent. intros H p q Hp Hq E.
  rewrite forallb_forall in H. specialize (H p Hp). rewrite forallb_forall in H. specialize (H q Hq).
  apply str_eqb_spec in E. rewrite E in H. apply str_eqb_spec. exact H.
Qed.

Lemma lookups_fk_partial c h : hist_consistent h = true -> run_lookups_fk c [] h = map (spec_of c) h.
Proof.
  intros H. apply run_lookups_with_correct. intros p q Hp Hq _ _ E. change (snd p = snd q) in E.
  unfold spec_of. rewrite (hist_consistent_spec h H p q Hp Hq E), E. reflexivity.
Qed.

(* a schema with a single root type never mixes operations up, whatever the history *)
Lemma lookups_fk_single_root c h :
  c_mutation c = None -> run_lookups_fk c [] h = map (spec_of c) h.
Proof.
  intros Hm. apply run_lookups_with_correct. intros p q _ _ Rp Rq E. change (snd p = snd q) in E.
  (* both type keys name the query type *)
  assert (K : forall key, root_by_name c key <> None -> Some key = option_map ct_name (c_query c)).
  { intros key R. destruct (resolved_key_is_root_name c key R) as [ct [Hn [Hq | Hq]]]; [|congruence].
    rewrite Hq, <- Hn. reflexivity. }
  assert (Ek : Some (fst p) = Some (fst q)) by (rewrite (K _ Rp), (K _ Rq); reflexivity).
  injection Ek as Ek. unfold spec_of. rewrite Ek, E. reflexivity.
Qed.

(* Mutation.foo then Query.foo; Mutation.baz then Query.baz (Query has no baz) *)
Definition h_cross : list (str * str) := [(n_Mutation, n_foo); (n_Query, n_foo)].
Definition h_cross_missing : list (str * str) := [(n_Mutation, n_baz); (n_Query, n_baz)].

(* under the SENTINEL key a field of the other root type is returned instead of a KeyError *)
Lemma lookups_fk_refuted_missing :
  run_lookups_fk client_ok [] h_cross_missing =
    [LOp {| o_root := RMutation; o_type := n_Mutation; o_field := n_baz |};
     LOp {| o_root := RMutation; o_type := n_Mutation; o_field := n_baz |}] /\
  spec_of client_ok (n_Query, n_baz) = LNoField.
Proof. vm_compute. split; reflexivity. Qed.

Example lookups_fk_nonvacuous :
  hist_consistent [(n_Query, n_foo); (n_Mutation, n_baz); (n_Query, n_foo); (n_Query, n_baz); (n_Long, n_foo)] = false /\
  hist_consistent [(n_Query, n_foo); (n_Mutation, n_baz); (n_Query, n_foo); (n_Long, n_Long); (n_Query, n_bar)] = true /\
  run_lookups_fk client_ok [] [(n_Query, n_foo); (n_Mutation, n_baz); (n_Query, n_foo)] =
    [LOp {| o_root := RQuery; o_type := n_Query; o_field := n_foo |};
     LOp {| o_root := RMutation; o_type := n_Mutation; o_field := n_baz |};
     LOp {| o_root := RQuery; o_type := n_Query; o_field := n_foo |}].
Proof. vm_compute. repeat split. Qed.

(* the key type.field answers the cross histories in both orders; the SENTINEL key gets foo wrong in both orders *)
Lemma lookups_cross_witnesses :
  run_lookups client_ok [] h_cross = map (spec_of client_ok) h_cross /\
  run_lookups client_ok [] h_cross_missing = map (spec_of client_ok) h_cross_missing /\
  run_lookups client_ok [] (rev h_cross) = map (spec_of client_ok) (rev h_cross) /\
  run_lookups_fk client_ok [] h_cross <> map (spec_of client_ok) h_cross /\
  run_lookups_fk client_ok [] (rev h_cross) <> map (spec_of client_ok) (rev h_cross).
Proof. vm_compute. repeat split; try reflexivity; discriminate. Qed.

(* the dotless hypothesis is needed by the MODEL (strings are arbitrary there; graphql-core refuses such names):
   type A with field b.c against type A.b with field c *)
Definition client_dotted : client :=
  {| c_query := Some {| ct_name := [65]%N; ct_fields := [[98;46;99]%N] |};
     c_mutation := Some {| ct_name := [65;46;98]%N; ct_fields := [[99]%N] |} |}.
Lemma lookups_dotted_names_collide :
  root_names_dotless client_dotted = false /\
  run_lookups client_dotted [] [([65]%N, [98;46;99]%N); ([65;46;98]%N, [99]%N)] <>
  map (spec_of client_dotted) [([65]%N, [98;46;99]%N); ([65;46;98]%N, [99]%N)].
Proof. vm_compute. split; [reflexivity|discriminate]. Qed.

Example lookups_nonvacuous :
  root_names_dotless client_ok = true /\
  run_lookups client_ok [] [(n_Mutation, n_foo); (n_Query, n_foo); (n_Query, n_baz); (n_Mutation, n_foo); (n_Long, n_foo)] =
    [LOp {| o_root := RMutation; o_type := n_Mutation; o_field := n_foo |};
     LOp {| o_root := RQuery; o_type := n_Query; o_field := n_foo |}; LNoField;
     LOp {| o_root := RMutation; o_type := n_Mutation; o_field := n_foo |}; LNoType].
Proof. vm_compute. split; reflexivity. Qed.

Lemma tbl_get_set k k' v t : tbl_get k (tbl_set k' v t) = if str_eqb k' k then Some v else tbl_get k t.
Proof.
  induction t as [|[k0 v0] r IH]; cbn [tbl_set tbl_get].
  - destruct (str_eqb k' k); reflexivity.
  - destruct (str_eqb k0 k') eqn:E0; cbn [tbl_get].
    + apply str_eqb_spec in E0. subst k0. destruct (str_eqb k' k); reflexivity.
    + destruct (str_eqb k0 k) eqn:E1.
      * destruct (str_eqb k' k) eqn:E2; auto.
        apply str_eqb_spec in E1. apply str_eqb_spec in E2. subst. rewrite str_eqb_refl in E0. discriminate.
      * exact IH.
Qed.

Lemma tbl_get_none_keys k t : ~ In k (map fst t) -> tbl_get k t = None.
Proof.
  induction t as [|[k0 v0] r IH]; cbn [map fst tbl_get In]; auto.
  intros H. destruct (str_eqb k0 k) eqn:E.
  - apply str_eqb_spec in E. subst. tauto.
  - apply IH. tauto.
Qed.

(* {**a, **b}.  The keys of b are distinct because b stands for a Python dict; in the model the hypothesis is
   needed: tbl_get reads the first binding of a key, tbl_merge writes the last *)
Lemma tbl_get_merge a b k :
  nodup_str (map fst b) = true ->
  tbl_get k (tbl_merge a b) = match tbl_get k b with Some v => Some v | None => tbl_get k a end.
Proof.
  unfold tbl_merge. revert a.
  induction b as [|[k1 v1] r IH]; intros a Hn; cbn [fold_left map fst snd tbl_get nodup_str] in *; auto.
  apply andb_true_iff in Hn. destruct Hn as [Hk Hr]. rewrite (IH _ Hr).
  destruct (str_eqb k1 k) eqn:E.
  - apply str_eqb_spec in E. subst k1. apply negb_true_iff in Hk. apply mem_str_false in Hk.
    rewrite (tbl_get_none_keys k r Hk), tbl_get_set, str_eqb_refl. reflexivity.
  - destruct (tbl_get k r); auto. rewrite tbl_get_set, E. reflexivity.
Qed.

Lemma tbl_set_keys k v t :
  map fst (tbl_set k v t) = if mem_str k (map fst t) then map fst t else map fst t ++ [k].
Proof.
  induction t as [|[k0 v0] r IH]; cbn [tbl_set map fst mem_str app]; auto.
  rewrite (str_eqb_sym k k0). destruct (str_eqb k0 k) eqn:E; cbn [map fst orb]; auto.
  rewrite IH. destruct (mem_str k (map fst r)); reflexivity.
Qed.

Lemma tbl_set_nodup k v t : nodup_str (map fst t) = true -> nodup_str (map fst (tbl_set k v t)) = true.
Proof.
  induction t as [|[k0 v0] r IH]; cbn [tbl_set map fst nodup_str mem_str]; auto.
  intros H. apply andb_true_iff in H. destruct H as [H0 Hr].
  destruct (str_eqb k0 k) eqn:E; cbn [map fst nodup_str].
  - rewrite H0, Hr. reflexivity.
  - rewrite (IH Hr), andb_true_r. rewrite tbl_set_keys.
    apply negb_true_iff in H0. apply negb_true_iff.
    destruct (mem_str k (map fst r)); auto.
    apply mem_str_false. intros Hin. apply in_app_or in Hin. destruct Hin as [Hin | [Hin | []]].
    + apply mem_str_false in H0. contradiction.
    + subst k. rewrite str_eqb_refl in E. discriminate.
Qed.

Example scalar_table_nonvacuous :
  tbl_merge [(s_Date, 1%N); (s_Long, 2%N)] [(s_Long, 7%N); (n_foo, 8%N)] = [(s_Date, 1%N); (s_Long, 7%N); (n_foo, 8%N)] /\
  nodup_str (map fst [(s_Long, 7%N); (n_foo, 8%N)]) = true.
Proof. vm_compute. split; reflexivity. Qed.

Lemma draw_call_args extra o st pc :
  fst (draw_call extra o st pc) =
  strategy_call (match pc with Some c => c | None => st_cfg st end) (map fst (tbl_merge extra (st_reg st))) o.
Proof. reflexivity. Qed.

Lemma run_events_app extra o h1 : forall st h2,
  run_events extra o st (h1 ++ h2) = run_events extra o st h1 ++ run_events extra o (state_after st h1) h2.
Proof.
  induction h1 as [|e r IH]; intros st h2; cbn [app run_events state_after fold_left]; auto.
  destruct e; rewrite IH; reflexivity.
Qed.

Lemma run_events_Forall (P : strategy_args * table -> Prop) extra o h :
  (forall st pc, P (draw_call extra o st pc)) -> forall st, Forall P (run_events extra o st h).
Proof.
  intros HP. induction h as [|e r IH]; intros st; cbn [run_events]; [constructor|].
  destruct e; try apply IH. (* EDraw *) constructor; [apply HP | apply IH].
Qed.

Lemma state_ignores_draws h : forall st, state_after st h = state_after st (filter (fun e => negb (is_draw e)) h).
Proof.
  unfold state_after. induction h as [|e r IH]; intros st; cbn [filter fold_left]; auto.
  destruct e; cbn [is_draw negb fold_left step_state]; apply IH.
Qed.

Lemma state_after_app st h1 h2 : state_after st (h1 ++ h2) = state_after (state_after st h1) h2.
Proof. unfold state_after. apply fold_left_app. Qed.

Lemma state_after_configure st h c : st_cfg (state_after st (h ++ [EConfigure c])) = c.
Proof. rewrite state_after_app. reflexivity. Qed.

(* codecs "utf-8" and "ascii" *)
Definition cfg_loose : gen_config := {| g_allow_x00 := true; g_allow_null := true; g_codec := Some [117;116;102;45;56]%N |}.
Definition cfg_strict : gen_config := {| g_allow_x00 := false; g_allow_null := false; g_codec := Some [97;115;99;105;105]%N |}.
Example history_nonvacuous :
  let o := {| o_root := RQuery; o_type := n_Query; o_field := n_foo |} in
  let h := [EDraw None; EConfigure cfg_strict; ERegister true true n_Long 7%N; EDraw None; EDraw (Some cfg_loose)] in
  map (fun call => (sc_allow_null (fst call), tbl_get n_Long (snd call)))
      (run_events [(n_Long, 2%N)] o {| st_cfg := cfg_loose; st_reg := [] |} h)
  = [(true, Some 2%N); (false, Some 7%N); (true, Some 7%N)].
Proof. vm_compute. reflexivity. Qed.
