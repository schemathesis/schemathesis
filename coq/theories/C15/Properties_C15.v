(* C15 property theorems, each followed by Print Assumptions.  What they use about a single definition of the
   model is a lemma of Proofs_C15; the proofs here put those lemmas together (a channel is a tuple of sanitised parts). *)
From Coq Require Import List NArith ZArith Bool.
From Verif Require Import Common.Str Common.Json C15.Model_C15 C15.Proofs_C15.
Import ListNotations.

Theorem C15_all_sensitive_replaced : forall cfg t, clean cfg (sanitize cfg t) = true.
Proof. exact sanitize_clean. Qed.
Print Assumptions C15_all_sensitive_replaced.

(* two inputs equal outside the values at sensitive keys sanitise to the same output:
   the output is a function of the public projection only *)
Theorem C15_noninterference : forall cfg t t',
  eq_outside_sensitive cfg t t' = true -> sanitize cfg t = sanitize cfg t'.
Proof. exact noninterference. Qed.
Print Assumptions C15_noninterference.

(* everything outside the sensitive positions is left as it was (keys, order, values) *)
Theorem C15_nonsensitive_unchanged : forall cfg t, eq_outside_sensitive cfg (sanitize cfg t) t = true.
Proof. intros c t. unfold eq_outside_sensitive. rewrite erase_sanitize. apply json_eqb_refl. Qed.
Print Assumptions C15_nonsensitive_unchanged.

Theorem C15_no_sensitive_key_identity : forall cfg t, has_sensitive cfg t = false -> sanitize cfg t = t.
Proof. exact no_sensitive_identity. Qed.
Print Assumptions C15_no_sensitive_key_identity.

Theorem C15_sanitize_idempotent : forall cfg t, sanitize cfg (sanitize cfg t) = sanitize cfg t.
Proof. intros c t. rewrite <- (sanitize_erase c (sanitize c t)), erase_sanitize. apply sanitize_erase. Qed.
Print Assumptions C15_sanitize_idempotent.

Theorem C15_config_changes_exactly_the_set : forall cfg cfg' t,
  repl cfg = repl cfg' ->
  (forall k, In k (all_keys t) -> is_sensitive cfg k = is_sensitive cfg' k) ->
  sanitize cfg t = sanitize cfg' t.
Proof. exact config_ext. Qed.
Print Assumptions C15_config_changes_exactly_the_set.

Theorem C15_config_difference_shows : forall cfg cfg' k v,
  is_sensitive cfg k = true -> is_sensitive cfg' k = false -> is_redacted cfg v = false ->
  sanitize cfg (JObj [(k, v)]) <> sanitize cfg' (JObj [(k, v)]) \/ sanitize cfg' v <> v.
Proof. intros c c' k v H1 H2 H3. left. exact (config_differs c c' k v H1 H2 H3). Qed.
Print Assumptions C15_config_difference_shows.

Theorem C15_extend_is_union : forall cfg ks ms k,
  is_sensitive (extend cfg ks ms) k =
  is_sensitive cfg k
  || match ks with Some l => mem_str (lower_ascii k) (map lower_ascii l) | None => false end
  || match ms with Some l => existsb (fun m => is_sub m (lower_ascii k)) (map lower_ascii l) | None => false end.
Proof. exact extend_sensitive. Qed.
Print Assumptions C15_extend_is_union.

Theorem C15_configure_replaces : forall cfg r ks ms k,
  is_sensitive (from_config cfg r (Some ks) (Some ms)) k =
  mem_str (lower_ascii k) (map lower_ascii ks) || existsb (fun m => is_sub m (lower_ascii k)) (map lower_ascii ms).
Proof. reflexivity. Qed.
Print Assumptions C15_configure_replaces.

Theorem C15_configure_nothing_is_identity : forall cfg, from_config cfg None None None = cfg /\ extend cfg None None = cfg.
Proof. intros []. split; reflexivity. Qed.
Print Assumptions C15_configure_nothing_is_identity.

Theorem C15_url_noninterference : forall cfg u u', url_public cfg u = url_public cfg u' -> sanitize_url cfg u = sanitize_url cfg u'.
Proof.
  intros c u u'. unfold url_public, sanitize_url. intros E. injection E as E1 E2 E3 E4 E5.
  rewrite !sanitize_netloc_public, E1, E2, E3, E5, (mdict_ni c _ _ E4). reflexivity.
Qed.
Print Assumptions C15_url_noninterference.

(* user-level form: any two userinfos, query pairs equal except for values of sensitive names *)
Theorem C15_url_secrets_erased : forall cfg sch ui ui' host path q q' frag,
  no_at host = true -> erase_sdict cfg q = erase_sdict cfg q' ->
  sanitize_url cfg {| u_scheme := sch; u_netloc := ui ++ AT :: host; u_path := path; u_query := q; u_fragment := frag |} =
  sanitize_url cfg {| u_scheme := sch; u_netloc := ui' ++ AT :: host; u_path := path; u_query := q'; u_fragment := frag |}.
Proof.
  intros c sch ui ui' host path q q' frag Hh Eq. apply C15_url_noninterference.
  unfold url_public. cbn [u_scheme u_netloc u_path u_query u_fragment].
  rewrite !netloc_public_userinfo by exact Hh. rewrite (group_public c q q' Eq). reflexivity.
Qed.
Print Assumptions C15_url_secrets_erased.

Theorem C15_url_userinfo_replaced : forall r ui host, no_at host = true -> sanitize_netloc r (ui ++ AT :: host) = r ++ AT :: host.
Proof. exact userinfo_replaced. Qed.
Print Assumptions C15_url_userinfo_replaced.

Theorem C15_url_query_clean : forall cfg u, query_clean cfg (u_query (sanitize_url cfg u)) = true.
Proof. intros c u. apply sanitized_query_clean. Qed.
Print Assumptions C15_url_query_clean.

Theorem C15_url_without_userinfo_keeps_netloc : forall r n, no_at n = true -> sanitize_netloc r n = n.
Proof. exact netloc_no_userinfo. Qed.
Print Assumptions C15_url_without_userinfo_keeps_netloc.

(* sanitize_value on recorded headers / flat dicts is the same function *)
Theorem C15_headers_are_sanitize_value : forall cfg h h2,
  mdict_json (sanitize_mdict cfg h) = sanitize cfg (mdict_json h) /\
  sdict_json (sanitize_sdict cfg h2) = sanitize cfg (sdict_json h2).
Proof. intros c h h2. split; [apply sanitize_mdict_json | apply sanitize_sdict_json]. Qed.
Print Assumptions C15_headers_are_sanitize_value.

Theorem C15_channel_ni_vcr_entry : forall cfg i i',
  interaction_public cfg i = interaction_public cfg i' -> vcr_entry true cfg i = vcr_entry true cfg i'.
Proof.
  intros c i i' E. apply interaction_public_eq in E as (E1 & E2 & E3 & E4). unfold vcr_entry.
  rewrite (C15_url_noninterference c _ _ E1), (mdict_ni c _ _ E2), (option_map_congr _ _ (mdict_ni c) _ _ E3), E4.
  reflexivity.
Qed.
Print Assumptions C15_channel_ni_vcr_entry.

(* HAR entry.  parse = the foreign cookie parser (http.cookies.SimpleCookie), any function; has_body = the request
   has a body.  Everything except the two mimeType fields - URL, queryString, header records, BOTH cookies arrays,
   redirectURL, open text - is a function of the public projection of the exchange: whatever entered through a
   sensitive header (a Cookie / Set-Cookie header with arbitrary name=value pairs included), through the userinfo
   or through a sensitive query parameter has no influence on any of these fields ... *)
Theorem C15_channel_ni_har_entry_sans_mime : forall parse cfg b b' i i',
  interaction_public cfg i = interaction_public cfg i' ->
  option_map entry_sans_mime (har_entry parse true cfg b i) = option_map entry_sans_mime (har_entry parse true cfg b' i').
Proof.
  intros parse c b b' i i' E. unfold har_entry. rewrite (C15_channel_ni_vcr_entry c i i' E). unfold har_of.
  destruct (vcr_entry true c i') as [[[uri rq] rs] op].
  rewrite har_body_sans_mime. symmetry. apply har_body_sans_mime.
Qed.
Print Assumptions C15_channel_ni_har_entry_sans_mime.

(* ... the cookies arrays in particular ... *)
Theorem C15_channel_ni_har_cookies : forall parse cfg b b' i i',
  interaction_public cfg i = interaction_public cfg i' ->
  option_map entry_cookies (har_entry parse true cfg b i) = option_map entry_cookies (har_entry parse true cfg b' i').
Proof.
  intros parse c b b' i i' E.
  exact (option_map_congr _ _ entry_cookies_of_sans_mime _ _ (C15_channel_ni_har_entry_sans_mime parse c b b' i i' E)).
Qed.
Print Assumptions C15_channel_ni_har_cookies.

(* ... which, where the Cookie / Set-Cookie header names are sensitive, are built from the MARKER: a function of
   the configuration and of the presence of the header, whatever name=value pairs the header carried ... *)
Theorem C15_channel_har_cookies_from_marker : forall parse cfg b i e,
  har_entry parse true cfg b i = Some e ->
  (is_sensitive cfg s_Cookie = true ->
   h_req_cookies e = if assoc_mem s_Cookie (i_req_headers i) then har_cookies parse [repl cfg] else []) /\
  (is_sensitive cfg s_SetCookie = true ->
   forall r h, h_resp e = Some r -> i_resp_headers i = Some h ->
   hr_cookies r = if assoc_mem s_SetCookie h then har_cookies parse [repl cfg] else []).
Proof.
  intros parse c b i e E. rewrite har_entry_on in E. apply har_body_some in E as (_ & _ & E).
  unfold entry_cookies in E. injection E as E1 E2. split.
  - intros Hs. rewrite E1, dict_get_sanitize_mdict, Hs. destruct (assoc_mem s_Cookie (i_req_headers i)); reflexivity.
  - intros Hs r h Er Eh. rewrite Er, Eh in E2. cbn [option_map] in E2.
    rewrite E2, dict_get_sanitize_mdict, Hs. destruct (assoc_mem s_SetCookie h); reflexivity.
Qed.
Print Assumptions C15_channel_har_cookies_from_marker.

(* ... and empty for every parser that finds no cookie in a single character (the writer walks the characters
   of each header value, cassettes.py:469-470), sanitization on or off; the modelled SimpleCookie is such a parser *)
Theorem C15_channel_har_cookies_empty : forall parse san cfg b i e,
  (forall ch, parse [ch] = []) -> har_entry parse san cfg b i = Some e -> entry_cookies e = ([], []).
Proof.
  intros parse san c b i e Hp. unfold har_entry, har_of. destruct (vcr_entry san c i) as [[[uri rq] rs] op].
  intros E. apply har_body_some in E as (_ & _ & ->). rewrite har_cookies_nil by exact Hp.
  destruct rs; [rewrite har_cookies_nil by exact Hp|]; reflexivity.
Qed.
Print Assumptions C15_channel_har_cookies_empty.

Theorem C15_simple_cookie_single_character : forall ch, simple_cookie [ch] = [].
Proof.
  intros ch. unfold simple_cookie, split_on. cbn [split_on_aux].
  destruct (N.eqb ch SEMI) eqn:E1; [reflexivity|].
  cbn [split_on_aux rev app parse_items]. rewrite strip_sp_char.
  destruct (N.eqb ch SP) eqn:E2; [reflexivity|]. cbn [cut_at].
  destruct (N.eqb ch EQS) eqn:E3; reflexivity.
Qed.
Print Assumptions C15_simple_cookie_single_character.

(* SENTINEL (not the current code): the writer that parses the cookies out of the RECORDED Cookie / set-cookie
   values and redacts them by cookie name does redact cookies whose own name is sensitive ... *)
Theorem C15_channel_har_raw_cookies_sensitive_names_redacted : forall parse cfg vs ck,
  In ck (raw_cookies parse true cfg vs) -> is_sensitive cfg (ck_name ck) = true -> ck_value ck = repl cfg.
Proof.
  intros parse c vs ck. unfold raw_cookies, redact_cookies. intros Hin Hs.
  apply in_map_iff in Hin. destruct Hin as [x [Hx _]].
  destruct (is_sensitive c (ck_name x)) eqn:Ex; subst ck; [reflexivity|].
  rewrite Ex in Hs. discriminate.
Qed.
Print Assumptions C15_channel_har_raw_cookies_sensitive_names_redacted.

(* ... and leaks every other cookie: two exchanges with the same public projection (Cookie: sid=A; theme=d and
   set-cookie: sid=A; Path=/ against sid=B), same entry under the current writer, different entries under the sentinel,
   whose cookies arrays show sid=A next to header records that carry the marker *)
Theorem C15_channel_ni_har_raw_cookies_refuted : exists i i',
  interaction_public default_config i = interaction_public default_config i' /\
  har_entry simple_cookie true default_config false i = har_entry simple_cookie true default_config false i' /\
  (exists e r, har_entry_raw_cookies simple_cookie true default_config false i = Some e /\
               h_req_headers e = [(s_Cookie, default_repl)] /\
               h_req_cookies e = [new_cookie s_sid [65]%N; new_cookie [116;104;101;109;101]%N [100]%N] /\
               h_resp e = Some r /\ hr_headers r = [(s_set_cookie_lc, default_repl)] /\
               hr_cookies r = [set_attr s_path [47]%N false (new_cookie s_sid [65]%N)]) /\
  har_entry_raw_cookies simple_cookie true default_config false i <> har_entry_raw_cookies simple_cookie true default_config false i'.
Proof.
  exists (w_cookie_interaction 65), (w_cookie_interaction 66).
  split; [vm_compute; reflexivity|]. split; [vm_compute; reflexivity|]. split.
  - eexists. eexists. split; [vm_compute; reflexivity|]. repeat split.
  - vm_compute. discriminate.
Qed.
Print Assumptions C15_channel_ni_har_raw_cookies_refuted.

(* The whole entry, mimeType fields included: safe where the Content-Type header is not itself sensitive under the
   configuration (the default one) ... *)
Theorem C15_channel_ni_har_entry_partial : forall parse cfg b i i',
  content_type_public cfg = true ->
  interaction_public cfg i = interaction_public cfg i' -> har_entry parse true cfg b i = har_entry parse true cfg b i'.
Proof.
  intros parse c b i i' Hc E. unfold har_entry. rewrite (C15_channel_ni_vcr_entry c i i' E).
  apply interaction_public_eq in E as (_ & E2 & E3 & _).
  unfold har_of. destruct (vcr_entry true c i') as [[[uri rq] rs] op].
  apply har_body_mime; [exact (mime_public c Hc _ _ E2) | exact (option_map_congr _ _ (mime_public c Hc) _ _ E3)].
Qed.
Print Assumptions C15_channel_ni_har_entry_partial.

(* ... and refuted outside: after extend(keys_to_sanitize=[Content-Type]) postData.mimeType still shows the recorded
   value (read from the unsanitised headers, cassettes.py:377) next to a header record that carries the marker *)
Theorem C15_channel_ni_har_entry_refuted_mime : exists cfg i i',
  content_type_public cfg = false /\
  interaction_public cfg i = interaction_public cfg i' /\
  (exists e, har_entry simple_cookie true cfg true i = Some e /\
             h_req_headers e = [(s_ContentType, default_repl)] /\ h_post_mime e = Some [65]%N) /\
  har_entry simple_cookie true cfg true i <> har_entry simple_cookie true cfg true i'.
Proof.
  exists w_mime_cfg, (w_mime_interaction 65), (w_mime_interaction 66).
  split; [vm_compute; reflexivity|]. split; [vm_compute; reflexivity|]. split.
  - eexists. split; [vm_compute; reflexivity|]. split; reflexivity.
  - vm_compute. discriminate.
Qed.
Print Assumptions C15_channel_ni_har_entry_refuted_mime.

(* HAR entries for URLs with userinfo (commit 8fd7266e of the repository; DESIGN.md 9.2): the entry is written, with the marker in place
   of the userinfo and of every value of a sensitive query name ... *)
Theorem C15_channel_har_userinfo_entry_written : forall parse b cfg ui host i,
  no_at host = true -> u_netloc (i_uri i) = ui ++ AT :: host -> headers_have_values i = true ->
  exists e, har_entry parse true cfg b i = Some e /\ u_netloc (h_url e) = repl cfg ++ AT :: host /\
            h_url e = sanitize_url cfg (i_uri i) /\ query_clean cfg (h_query e) = true.
Proof.
  intros parse b c ui host i Hh Hn Hv. destruct (har_entry_written parse c b i Hv) as [e E].
  exists e. split; [exact E|].
  rewrite har_entry_on in E. apply har_body_some in E as (-> & -> & _).
  split; [|split; [reflexivity | apply C15_url_query_clean]].
  cbn [sanitize_url u_netloc]. rewrite Hn. apply userinfo_replaced, Hh.
Qed.
Print Assumptions C15_channel_har_userinfo_entry_written.

(* ... whereas the writer before commit 8fd7266e (sentinel definition) raised on every such entry under the default
   marker, which begins with a square bracket *)
Theorem C15_channel_har_before_8fd7266e_raises : forall parse b ui host i,
  no_at host = true -> u_netloc (i_uri i) = ui ++ AT :: host -> har_entry_before_8fd7266e parse true default_config b i = None.
Proof.
  intros parse b ui host i Hh Hn. unfold har_entry_before_8fd7266e, vcr_entry, har_of_before_8fd7266e.
  cbn [sanitize_url u_netloc]. rewrite Hn, (userinfo_replaced _ ui host Hh), default_marker_bracket. reflexivity.
Qed.
Print Assumptions C15_channel_har_before_8fd7266e_raises.

Theorem C15_channel_har_written_before_8fd7266e_refuted : exists i,
  har_entry_before_8fd7266e simple_cookie true default_config false i = None /\
  exists e, har_entry simple_cookie true default_config false i = Some e /\
            u_netloc (h_url e) = default_repl ++ [64;104]%N /\
            h_query e = [([116;111;107;101;110]%N, default_repl)] /\
            h_req_headers e = [(s_Authorization, default_repl)].
Proof.
  exists w_har_interaction. split; [vm_compute; reflexivity|].
  eexists. split; [vm_compute; reflexivity|]. repeat split.
Qed.
Print Assumptions C15_channel_har_written_before_8fd7266e_refuted.

(* the cassette as a whole: safe when the command line is the same ... *)
Theorem C15_channel_ni_vcr_file_partial : forall cfg argv0 args is_ is_',
  map (interaction_public cfg) is_ = map (interaction_public cfg) is_' ->
  vcr_file true cfg argv0 args is_ = vcr_file true cfg argv0 args is_'.
Proof. intros c argv0 args is_ is_' E. unfold vcr_file. f_equal. revert E. apply map_congr, C15_channel_ni_vcr_entry. Qed.
Print Assumptions C15_channel_ni_vcr_file_partial.

(* ... and refuted when the secret came in through argv: the command: line echoes it *)
Theorem C15_channel_ni_vcr_command_refuted : exists args args',
  args_public default_config args = args_public default_config args' /\
  vcr_file true default_config s_st args [] <> vcr_file true default_config s_st args' [].
Proof.
  exists (w_args 65), (w_args 66). destruct vcr_command_leaks as [E N].
  split; [exact E|]. intros H. apply N. exact (f_equal fst H).
Qed.
Print Assumptions C15_channel_ni_vcr_command_refuted.

Theorem C15_channel_ni_curl_partial : forall cfg k k',
  kwargs_public cfg k = kwargs_public cfg k' ->
  no_request_auth k = true -> no_request_auth k' = true ->
  cookies_covered cfg k = true -> cookies_covered cfg k' = true ->
  curl_view true cfg k = curl_view true cfg k'.
Proof.
  intros c k k' E Ha Ha' Hc Hc'. apply kwargs_public_eq in E as (Eu & Eh & Ec & Ep & _ & Eo).
  unfold no_request_auth in Ha, Ha'. unfold curl_view.
  destruct (k_auth k); [discriminate|]. destruct (k_auth k'); [discriminate|].
  rewrite (C15_url_noninterference c _ _ Eu), (sdict_ni c _ _ Eh), Eo.
  rewrite <- (sanitize_erase c (JObj (k_params k))), Ep, sanitize_erase. do 2 f_equal.
  (* the headers and the URL agree; the jars matter only without a Cookie header, and then they are covered *)
  apply prepare_cookies_ni. rewrite has_header_sanitize. intros Eh'. apply cookies_ni; [exact Ec|]. intros Es.
  unfold cookies_covered in Hc, Hc'. rewrite Es, (has_header_public c _ _ _ Eh), Eh' in Hc. rewrite Es, Eh' in Hc'.
  cbn [negb orb] in Hc, Hc'. split.
  - destruct (k_cookies k); [reflexivity | exact Hc].
  - destruct (k_cookies k'); [reflexivity | exact Hc'].
Qed.
Print Assumptions C15_channel_ni_curl_partial.

Theorem C15_channel_ni_curl_refuted_request_auth : exists k k',
  kwargs_public default_config k = kwargs_public default_config k' /\
  cookies_covered default_config k = true /\ cookies_covered default_config k' = true /\
  curl_view true default_config k <> curl_view true default_config k'.
Proof.
  exists (w_kwargs_auth 65), (w_kwargs_auth 66). repeat split; try (vm_compute; reflexivity); vm_compute; discriminate.
Qed.
Print Assumptions C15_channel_ni_curl_refuted_request_auth.

Theorem C15_channel_ni_curl_refuted_cookie_jar : exists k k',
  kwargs_public default_config k = kwargs_public default_config k' /\
  no_request_auth k = true /\ no_request_auth k' = true /\
  curl_view true default_config k <> curl_view true default_config k'.
Proof.
  exists (w_kwargs_cookie 65), (w_kwargs_cookie 66). repeat split; try (vm_compute; reflexivity); vm_compute; discriminate.
Qed.
Print Assumptions C15_channel_ni_curl_refuted_cookie_jar.

(* prepare() derives an Authorization header from the userinfo of the URL it is given (requests prepare_auth /
   get_auth_from_url).  The code sanitises the URL first: whatever the userinfo, prepare can only read the marker *)
Theorem C15_channel_curl_userinfo_not_derived : forall cfg ui host k,
  no_at host = true -> u_netloc (k_url k) = ui ++ AT :: host -> k_auth k = None ->
  view_headers (curl_view true cfg k) =
    requests_prepare_core (sanitize_sdict cfg (k_headers k)) (sanitize_sdict cfg (k_cookies k)) (userinfo_auth (repl cfg)).
Proof.
  intros c ui host k H En Ea. rewrite curl_view_headers, Ea, En, (netloc_public_userinfo ui host H). reflexivity.
Qed.
Print Assumptions C15_channel_curl_userinfo_not_derived.

(* ... and from a marker without a colon (the default one) nothing is derived at all *)
Theorem C15_channel_curl_marker_derives_nothing : forall cfg ui host k,
  no_at host = true -> u_netloc (k_url k) = ui ++ AT :: host -> k_auth k = None -> marker_derives_nothing cfg = true ->
  view_headers (curl_view true cfg k) =
    requests_prepare_core (sanitize_sdict cfg (k_headers k)) (sanitize_sdict cfg (k_cookies k)) None.
Proof. intros c ui host k _ _ Ea Hm. exact (curl_view_headers_no_auth c k Ea Hm). Qed.
Print Assumptions C15_channel_curl_marker_derives_nothing.

(* noninterference in the userinfo, no region: no function of the userinfo reaches the view (structured or rendered,
   i.e. with the base64 of the Basic value computed) - for any two userinfos, any configuration, any case *)
Theorem C15_channel_ni_curl_userinfo : forall cfg ui ui' host k, no_at host = true ->
  curl_view true cfg (with_netloc (ui ++ AT :: host) k) = curl_view true cfg (with_netloc (ui' ++ AT :: host) k).
Proof.
  intros c ui ui' host k H. unfold curl_view, with_netloc, sanitize_url.
  cbn [k_url k_headers k_cookies k_params k_auth k_open u_scheme u_netloc u_path u_query u_fragment].
  rewrite !(userinfo_replaced (repl c) _ host H). reflexivity.
Qed.
Print Assumptions C15_channel_ni_curl_userinfo.

Theorem C15_channel_ni_curl_userinfo_rendered : forall cfg ui ui' host k, no_at host = true ->
  rendered_headers (view_headers (curl_view true cfg (with_netloc (ui ++ AT :: host) k))) =
  rendered_headers (view_headers (curl_view true cfg (with_netloc (ui' ++ AT :: host) k))).
Proof. intros c ui ui' host k H. rewrite (C15_channel_ni_curl_userinfo c ui ui' host k H). reflexivity. Qed.
Print Assumptions C15_channel_ni_curl_userinfo_rendered.

(* structural: every header of the code sample whose name is credential-bearing carries exactly the marker
   (regions: no request auth object = finding F2, no Cookie header built from the jar = finding F3, marker without colon) *)
Theorem C15_channel_curl_headers_redacted_partial : forall cfg k,
  no_request_auth k = true -> no_cookie_jar_header cfg k = true -> marker_derives_nothing cfg = true ->
  headers_redacted cfg (view_headers (curl_view true cfg k)) = true.
Proof.
  intros c k Ha Hc Hm. unfold no_request_auth in Ha. destruct (k_auth k) eqn:Ea; [discriminate|].
  rewrite (curl_view_headers_no_auth c k Ea Hm). exact (headers_redacted_prepare c k Hc).
Qed.
Print Assumptions C15_channel_curl_headers_redacted_partial.

(* SENTINEL (the other order: prepare, then sanitize the URL): for EVERY user:password the view carries the Basic value
   derived from it - whatever the sanitised headers said - while its URL shows the marker *)
Theorem C15_channel_curl_prepare_first_derives_authorization : forall enc cfg u p host k,
  no_at host = true -> mem COLON u = false -> (u, p) <> ([], []) ->
  u_netloc (k_url k) = (u ++ COLON :: p) ++ AT :: host -> k_auth k = None ->
  In (s_Authorization, HBasic u p) (view_headers (curl_view_prepare_first enc true cfg k)) /\
  u_netloc (view_url (curl_view_prepare_first enc true cfg k)) = repl cfg ++ AT :: host.
Proof.
  intros enc c u p host k H Hu Hne En Ea. unfold view_headers, view_url, curl_view_prepare_first.
  cbn [fst snd sanitize_url u_netloc]. unfold requests_prepare.
  rewrite Ea, En, (url_auth_userinfo _ host H), (userinfo_auth_user_pass u p Hu Hne).
  split; [apply set_header_in | apply userinfo_replaced; exact H].
Qed.
Print Assumptions C15_channel_curl_prepare_first_derives_authorization.

(* ... refuted by witness: http://u:A@h/ vs http://u:B@h/ with Authorization: Bearer x - same public projection, inside
   both regions of the partial theorem, same view under the current order (Authorization: [Filtered]); under the other
   order the same URL ([Filtered]@h) but Authorization: Basic dTpB vs Basic dTpC *)
Theorem C15_channel_ni_curl_prepare_first_refuted : exists k k',
  kwargs_public default_config k = kwargs_public default_config k' /\
  no_request_auth k = true /\ no_request_auth k' = true /\
  cookies_covered default_config k = true /\ cookies_covered default_config k' = true /\
  curl_view true default_config k = curl_view true default_config k' /\
  rendered_headers (view_headers (curl_view true default_config k)) = [(s_Authorization, default_repl)] /\
  view_url (curl_view_prepare_first no_params_enc true default_config k) =
    view_url (curl_view_prepare_first no_params_enc true default_config k') /\
  u_netloc (view_url (curl_view_prepare_first no_params_enc true default_config k)) = default_repl ++ [64;104]%N /\
  rendered_headers (view_headers (curl_view_prepare_first no_params_enc true default_config k)) =
    [(s_Authorization, [66;97;115;105;99;32;100;84;112;66]%N)] /\
  rendered_headers (view_headers (curl_view_prepare_first no_params_enc true default_config k')) =
    [(s_Authorization, [66;97;115;105;99;32;100;84;112;67]%N)].
Proof. exists (w_kwargs_userinfo 65), (w_kwargs_userinfo 66). repeat split; vm_compute; reflexivity. Qed.
Print Assumptions C15_channel_ni_curl_prepare_first_refuted.

(* derived encodings: base64 is invertible on byte strings, so the Basic value IS the user:password text - an artefact that
   shows it shows the secret, although the raw text occurs nowhere *)
Theorem C15_b64_roundtrip : forall l, is_bytes l = true -> b64_decode (b64 l) = Some l.
Proof. exact b64_roundtrip. Qed.
Print Assumptions C15_b64_roundtrip.

Theorem C15_basic_value_determines_credentials : forall u p u' p',
  is_bytes (u ++ [COLON] ++ p) = true -> is_bytes (u' ++ [COLON] ++ p') = true ->
  basic_value u p = basic_value u' p' -> u ++ [COLON] ++ p = u' ++ [COLON] ++ p'.
Proof. intros u p u' p' H H' E. unfold basic_value in E. apply app_inv_head in E. exact (b64_injective _ _ H H' E). Qed.
Print Assumptions C15_basic_value_determines_credentials.

Theorem C15_channel_ni_junit_partial : forall cfg f k k',
  kwargs_public cfg k = kwargs_public cfg k' ->
  no_request_auth k = true -> no_request_auth k' = true ->
  cookies_covered cfg k = true -> cookies_covered cfg k' = true ->
  failure_message true cfg f k = failure_message true cfg f k'.
Proof. intros. unfold failure_message. f_equal. apply C15_channel_ni_curl_partial; assumption. Qed.
Print Assumptions C15_channel_ni_junit_partial.

Theorem C15_channel_ni_console_partial : forall cfg loc fs fs',
  map fst fs = map fst fs' ->
  map (fun fk => kwargs_public cfg (snd fk)) fs = map (fun fk => kwargs_public cfg (snd fk)) fs' ->
  forallb (fun fk => no_request_auth (snd fk) && cookies_covered cfg (snd fk)) fs = true ->
  forallb (fun fk => no_request_auth (snd fk) && cookies_covered cfg (snd fk)) fs' = true ->
  console_view true cfg loc fs = console_view true cfg loc fs'.
Proof.
  intros c loc fs fs'. unfold console_view. intros E1 E2 H H'. f_equal. revert fs' E1 E2 H H'.
  induction fs as [|[f k] fs IH]; intros [|[f' k'] fs'] E1 E2 H H'; cbn [map fst snd forallb] in *;
    try discriminate; [reflexivity|].
  apply cons_inj in E1 as [<- E1]. apply cons_inj in E2 as [Ek E2].
  apply andb_true_iff in H as [G H]. apply andb_true_iff in G as [Ha Hc].
  apply andb_true_iff in H' as [G' H']. apply andb_true_iff in G' as [Ha' Hc'].
  rewrite (C15_channel_ni_junit_partial c f k k' Ek Ha Ha' Hc Hc'), (IH fs' E1 E2 H H'). reflexivity.
Qed.
Print Assumptions C15_channel_ni_console_partial.

Theorem C15_channel_ni_console_refuted_location : exists loc loc',
  url_public default_config loc = url_public default_config loc' /\
  console_view true default_config loc [] <> console_view true default_config loc' [].
Proof. exists (w_location 65), (w_location 66). split; [vm_compute; reflexivity | vm_compute; discriminate]. Qed.
Print Assumptions C15_channel_ni_console_refuted_location.

(* sanitization off: every channel shows the raw exchange, whatever the configuration *)
Theorem C15_off_is_identity : forall cfg i k f loc fs argv0 args is_,
  vcr_entry false cfg i = (i_uri i, i_req_headers i, i_resp_headers i, i_open i) /\
  (forall parse b, har_entry parse false cfg b i = har_of parse (i_uri i, i_req_headers i, i_resp_headers i, i_open i) b (i_req_headers i) (i_resp_headers i)) /\
  curl_view false cfg k = (k_url k, k_params k, requests_prepare (u_netloc (k_url k)) (k_headers k) (k_cookies k) (k_auth k), k_open k) /\
  failure_message false cfg f k = (f, curl_view false cfg k) /\
  console_view false cfg loc fs = (loc, map (fun fk => (fst fk, curl_view false cfg (snd fk))) fs) /\
  vcr_file false cfg argv0 args is_ = (vcr_command argv0 args, map (fun i => (i_uri i, i_req_headers i, i_resp_headers i, i_open i)) is_).
Proof. intros. repeat split; reflexivity. Qed.
Print Assumptions C15_off_is_identity.

(* the hypotheses above are satisfiable by non-trivial inputs *)
Theorem C15_hypotheses_satisfiable :
  (exists t t', t <> t' /\ eq_outside_sensitive default_config t t' = true /\ sanitize default_config t <> t /\ clean default_config t = false) /\
  (exists k k', k <> k' /\ kwargs_public default_config k = kwargs_public default_config k' /\ no_request_auth k = true /\
                cookies_covered default_config k = true /\ curl_view true default_config k = curl_view true default_config k').
Proof.
  split.
  - exists (ex_tree 65), (ex_tree 66). exact ex_ni.
  - exists (w_kwargs_ok 65), (w_kwargs_ok 66).
    destruct curl_ni_nonvacuous as [H1 [H2 [H3 [H4 H5]]]]. repeat split; assumption.
Qed.
Print Assumptions C15_hypotheses_satisfiable.
