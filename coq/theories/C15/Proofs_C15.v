(* C15 - what the property theorems use about single definitions of the model, in the order of the model:
   1. facts about lists, options and split_on that are not about sanitization;
   2. sanitize_value on JSON trees and the configuration (sanitize, erase, is_sensitive, extend);
   3. sanitize_value on string maps (headers, cookies, query groups);
   4. the netloc: sanitize_netloc, netloc_public, url_auth read it through one split at @;
   5. the query of sanitize_url;
   6. VCR and HAR entries;
   7. the curl code sample (requests prepare on the sanitised request);
   8. base64.
   Each part ends with its witnesses and non-vacuity examples. *)
From Coq Require Import List NArith ZArith Bool Lia.
From Verif Require Import Common.Str Common.Json C15.Model_C15.
Import ListNotations.

(* 1 *)

Lemma map_congr {A B C} (f : A -> B) (g : A -> C) :
  (forall x y, f x = f y -> g x = g y) -> forall l l', map f l = map f l' -> map g l = map g l'.
Proof.
  intros H. induction l as [|x l IH]; intros [|y l'] E; cbn [map] in *; try discriminate; [reflexivity|].
  injection E as E1 E2. rewrite (H x y E1), (IH l' E2). reflexivity.
Qed.

Lemma option_map_congr {A B C} (f : A -> B) (g : A -> C) :
  (forall x y, f x = f y -> g x = g y) -> forall o o', option_map f o = option_map f o' -> option_map g o = option_map g o'.
Proof.
  intros H [x|] [y|] E; cbn [option_map] in *; try discriminate; [|reflexivity].
  injection E as E. rewrite (H x y E). reflexivity.
Qed.

(* for equations between lists of public projections, where [injection] would go on into the heads *)
Lemma cons_inj {A} (x y : A) l l' : x :: l = y :: l' -> x = y /\ l = l'.
Proof. intros E. injection E as -> ->. split; reflexivity. Qed.

Lemma list_ind3 {A} (P : list A -> Prop) :
  P [] -> (forall a, P [a]) -> (forall a b, P [a; b]) -> (forall a b c r, P r -> P (a :: b :: c :: r)) -> forall l, P l.
Proof.
  intros H0 H1 H2 H3. fix IH 1. intros [|a [|b [|c r]]]; [exact H0 | apply H1 | apply H2 | apply H3; apply IH].
Qed.

Lemma orb_swap_r a b c : (a || b) || c = (a || c) || b.
Proof. rewrite <- !orb_assoc, (orb_comm b c). reflexivity. Qed.

Lemma split_on_no_mem sep s : mem sep s = false -> split_on sep s = [s].
Proof. intros H. apply split_on_nosep. intros Hin. apply mem_spec in Hin. congruence. Qed.

(* 2 *)

Lemma is_redacted_redact c v : is_redacted c (redact c v) = true.
Proof. destruct v; cbn; apply str_eqb_refl. Qed.

Lemma redact_erase_value c v : redact c (erase_value v) = redact c v.
Proof. destruct v; reflexivity. Qed.

Lemma erase_value_redact c v : erase_value (redact c v) = erase_value v.
Proof. destruct v; reflexivity. Qed.

(* The inductions over JSON trees below have one shape: json_ind' gives, for an array or an object, the statement
   for every item as a hypothesis F : Forall ..; the goal is about map over the items. *)

(* sanitize and erase descend alike and forget the same thing: each absorbs the other *)
Lemma sanitize_erase c t : sanitize c (erase c t) = sanitize c t.
Proof.
  induction t as [| | | |l F|kvs F] using json_ind'; try reflexivity;
    cbn [sanitize erase]; f_equal; rewrite map_map; apply map_ext_Forall.
  - (* JArr *) exact F.
  - (* JObj *) refine (Forall_impl _ _ F). intros [k v] Hv.
    destruct (is_sensitive c k); f_equal; [apply redact_erase_value | exact Hv].
Qed.

Lemma erase_sanitize c t : erase c (sanitize c t) = erase c t.
Proof.
  induction t as [| | | |l F|kvs F] using json_ind'; try reflexivity;
    cbn [sanitize erase]; f_equal; rewrite map_map; apply map_ext_Forall.
  - (* JArr *) exact F.
  - (* JObj *) refine (Forall_impl _ _ F). intros [k v] Hv.
    destruct (is_sensitive c k); f_equal; [apply erase_value_redact | exact Hv].
Qed.

Lemma noninterference c a b : eq_outside_sensitive c a b = true -> sanitize c a = sanitize c b.
Proof.
  unfold eq_outside_sensitive. intros E. apply json_eqb_eq in E.
  rewrite <- (sanitize_erase c a), <- (sanitize_erase c b), E. reflexivity.
Qed.

Lemma sanitize_clean c t : clean c (sanitize c t) = true.
Proof.
  induction t as [| | | |l F|kvs F] using json_ind'; try reflexivity;
    cbn [sanitize clean]; apply forallb_forall; intros y Hy; apply in_map_iff in Hy as [x [<- Hx]];
    rewrite Forall_forall in F.
  - (* JArr *) exact (F x Hx).
  - (* JObj *) destruct x as [k v]. destruct (is_sensitive c k); [apply is_redacted_redact | exact (F _ Hx)].
Qed.

Lemma no_sensitive_identity c t : has_sensitive c t = false -> sanitize c t = t.
Proof.
  induction t as [| | | |l F|kvs F] using json_ind'; try reflexivity;
    cbn [sanitize has_sensitive]; intros E; f_equal.
  - (* JArr *) induction F as [|x l Hx _ IHl]; [reflexivity|].
    cbn [existsb] in E. apply orb_false_iff in E as [E1 E2].
    cbn [map]. rewrite (Hx E1), (IHl E2). reflexivity.
  - (* JObj *) induction F as [|[k v] l Hv _ IHl]; [reflexivity|].
    cbn [existsb] in E. apply orb_false_iff in E as [E1 E2]. apply orb_false_iff in E1 as [Ek Ev].
    cbn [map snd] in *. rewrite Ek, (Hv Ev), (IHl E2). reflexivity.
Qed.

(* two configurations with the same marker that classify the keys of t alike sanitise t alike *)
Lemma config_ext c c' t :
  repl c = repl c' -> (forall k, In k (all_keys t) -> is_sensitive c k = is_sensitive c' k) -> sanitize c t = sanitize c' t.
Proof.
  intros Hr. induction t as [| | | |l F|kvs F] using json_ind'; try reflexivity;
    cbn [sanitize all_keys]; intros Hk; f_equal; apply map_ext_in; rewrite Forall_forall in F.
  - (* JArr *) intros x Hx. apply (F x Hx). intros k Hin. apply Hk, in_flat_map. exists x. split; assumption.
  - (* JObj *) intros [k v] Hx. rewrite <- (Hk k).
    + destruct (is_sensitive c k); f_equal; [unfold redact; rewrite Hr; reflexivity|].
      apply (F _ Hx). intros k' Hin. apply Hk, in_flat_map. exists (k, v). split; [exact Hx | right; exact Hin].
    + apply in_flat_map. exists (k, v). split; [exact Hx | left; reflexivity].
Qed.

(* sanitize keeps the shape of a value, so under another configuration it gives what redaction gives only on a
   value that is the marker already *)
Lemma redact_eq_sanitize c c' v : redact c v = sanitize c' v -> is_redacted c v = true.
Proof.
  destruct v as [| | |s|l|kvs]; cbn [redact sanitize]; intros E; try discriminate.
  - (* JStr *) injection E as <-. apply str_eqb_refl.
  - (* JArr *) destruct l as [|x [|y l]]; try discriminate. injection E as E.
    destruct x; try discriminate. injection E as <-. apply str_eqb_refl.
Qed.

(* a key that two configurations classify differently shows in the output, unless its value is the marker already *)
Lemma config_differs c c' k v :
  is_sensitive c k = true -> is_sensitive c' k = false -> is_redacted c v = false ->
  sanitize c (JObj [(k, v)]) <> sanitize c' (JObj [(k, v)]).
Proof.
  intros H1 H2 H3. cbn [sanitize map]. rewrite H1, H2. intros E. injection E as E.
  rewrite (redact_eq_sanitize c c' v E) in H3. discriminate.
Qed.

Lemma is_sensitive_lower c k k' : lower_ascii k = lower_ascii k' -> is_sensitive c k = is_sensitive c k'.
Proof. unfold is_sensitive. intros ->. reflexivity. Qed.

Lemma extend_repl c ks ms : repl (extend c ks ms) = repl c.
Proof. reflexivity. Qed.

Lemma mem_str_app k a b : mem_str k (a ++ b) = mem_str k a || mem_str k b.
Proof. apply existsb_app. Qed.

(* extend is the union, for the keys and for the markers; what is left is to move the additions to the end *)
Lemma extend_sensitive c ks ms k :
  is_sensitive (extend c ks ms) k =
  is_sensitive c k
  || match ks with Some l => mem_str (lower_ascii k) (map lower_ascii l) | None => false end
  || match ms with Some l => existsb (fun m => is_sub m (lower_ascii k)) (map lower_ascii l) | None => false end.
Proof.
  unfold is_sensitive, extend. cbn [keys markers].
  destruct ks as [ks|], ms as [ms|]; rewrite ?mem_str_app, ?existsb_app, ?orb_false_r.
  - rewrite orb_assoc. f_equal. apply orb_swap_r.
  - apply orb_swap_r.
  - apply orb_assoc.
  - reflexivity.
Qed.

Definition s_token : str := [116;111;107;101;110]%N.
Definition ex_tree (secret : N) : json :=
  JObj [ ([88;45;65;85;84;72]%N (* X-AUTH *), JStr [secret]);
         ([97]%N, JArr [ JObj [ ([80;97;115;115;87;111;114;100]%N (* PassWord *), JArr [JStr [secret]; JInt 1]) ] ]);
         ([98]%N, JStr [120]%N) ].

Example ex_ni : ex_tree 65 <> ex_tree 66 /\ eq_outside_sensitive default_config (ex_tree 65) (ex_tree 66) = true /\
  sanitize default_config (ex_tree 65) <> ex_tree 65 /\ clean default_config (ex_tree 65) = false.
Proof. repeat split; try (vm_compute; reflexivity); vm_compute; discriminate. Qed.

Example ex_no_sensitive : has_sensitive default_config (JObj [([98]%N, JArr [JStr [120]%N])]) = false.
Proof. vm_compute. reflexivity. Qed.

Example ex_config_differs :
  is_sensitive (extend default_config (Some [[88;45;90]%N]) None) [120;45;122]%N = true /\
  is_sensitive default_config [120;45;122]%N = false /\
  is_redacted (extend default_config (Some [[88;45;90]%N]) None) (JStr [49]%N) = false.
Proof. repeat split; vm_compute; reflexivity. Qed.

(* 3 *)

(* sanitize_mdict / sanitize_sdict and erase_mdict / erase_sdict all put a constant at the sensitive names:
   two maps that agree once one constant is put there agree for any other *)
Lemma at_names_ni {A} (s : str -> bool) (r e : A) (h h' : list (str * A)) :
  map (fun kv => match kv with (k, v) => (k, if s k then e else v) end) h =
  map (fun kv => match kv with (k, v) => (k, if s k then e else v) end) h' ->
  map (fun kv => match kv with (k, v) => (k, if s k then r else v) end) h =
  map (fun kv => match kv with (k, v) => (k, if s k then r else v) end) h'.
Proof.
  apply map_congr. intros [k v] [k' v'] E. injection E as -> E.
  destruct (s k'); [reflexivity | rewrite E; reflexivity].
Qed.

Lemma mdict_ni c h h' : erase_mdict c h = erase_mdict c h' -> sanitize_mdict c h = sanitize_mdict c h'.
Proof. exact (at_names_ni (is_sensitive c) [repl c] [] h h'). Qed.

Lemma sdict_ni c h h' : erase_sdict c h = erase_sdict c h' -> sanitize_sdict c h = sanitize_sdict c h'.
Proof. exact (at_names_ni (is_sensitive c) (repl c) [] h h'). Qed.

(* on the JSON encodings of these maps sanitize_value is the same function *)
Lemma sanitize_mdict_json c h : mdict_json (sanitize_mdict c h) = sanitize c (mdict_json h).
Proof.
  unfold mdict_json, sanitize_mdict. cbn [sanitize]. f_equal. rewrite !map_map. apply map_ext.
  intros [k vs]. destruct (is_sensitive c k); [reflexivity|]. cbn [sanitize]. rewrite map_map. reflexivity.
Qed.

Lemma sanitize_sdict_json c h : sdict_json (sanitize_sdict c h) = sanitize c (sdict_json h).
Proof.
  unfold sdict_json, sanitize_sdict. cbn [sanitize]. f_equal. rewrite !map_map. apply map_ext.
  intros [k v]. destruct (is_sensitive c k); reflexivity.
Qed.

Lemma dict_get_sanitize_mdict c k h :
  dict_get k (sanitize_mdict c h) =
  if is_sensitive c k then (if assoc_mem k h then [repl c] else []) else dict_get k h.
Proof.
  unfold dict_get, assoc_mem. induction h as [|[k' vs] h IH]; cbn [sanitize_mdict map assoc_get].
  - destruct (is_sensitive c k); reflexivity.
  - destruct (str_eqb k k') eqn:Ek.
    + apply str_eqb_spec in Ek. subst k'. destruct (is_sensitive c k); reflexivity.
    + exact IH.
Qed.

Lemma assoc_get_erase_mdict c k h : is_sensitive c k = false -> assoc_get k (erase_mdict c h) = assoc_get k h.
Proof.
  intros Hk. induction h as [|[k' vs] h IH]; [reflexivity|]. cbn [erase_mdict map assoc_get].
  destruct (str_eqb k k') eqn:Ek.
  - apply str_eqb_spec in Ek. subst k'. rewrite Hk. reflexivity.
  - exact IH.
Qed.

Lemma values_nonempty_sanitize c h : values_nonempty h = true -> values_nonempty (sanitize_mdict c h) = true.
Proof.
  unfold values_nonempty, sanitize_mdict. induction h as [|[k vs] h IH]; [reflexivity|].
  cbn [map forallb snd]. intros H. apply andb_true_iff in H as [H1 H2].
  rewrite (IH H2), andb_true_r. destruct (is_sensitive c k); [reflexivity | exact H1].
Qed.

Lemma sanitize_all_sensitive c ck :
  forallb (fun kv => is_sensitive c (fst kv)) ck = true ->
  sanitize_sdict c ck = map (fun kv => (fst kv, repl c)) ck.
Proof.
  induction ck as [|[k v] ck IH]; [reflexivity|]. cbn [forallb fst]. intros H.
  apply andb_true_iff in H as [H1 H2]. cbn [sanitize_sdict map fst].
  rewrite H1. f_equal. apply IH. exact H2.
Qed.

(* has_header looks at the names only; sanitize_sdict and erase_sdict keep them *)
Lemma has_header_values name (f : str -> str -> str) (h : sdict) :
  has_header name (map (fun kv => match kv with (k, v) => (k, f k v) end) h) = has_header name h.
Proof.
  unfold has_header. induction h as [|[k v] h IH]; [reflexivity|]. cbn [map existsb fst]. rewrite IH. reflexivity.
Qed.

Lemma has_header_sanitize c name h : has_header name (sanitize_sdict c h) = has_header name h.
Proof. exact (has_header_values name (fun k v => if is_sensitive c k then repl c else v) h). Qed.

Lemma has_header_public c name h h' : erase_sdict c h = erase_sdict c h' -> has_header name h = has_header name h'.
Proof.
  assert (V : forall h, has_header name (erase_sdict c h) = has_header name h)
    by exact (has_header_values name (fun k v => if is_sensitive c k then [] else v)).
  intros E. rewrite <- (V h), E. apply V.
Qed.

(* 4 *)

Lemma split_no_at n : no_at n = true -> split_on AT n = [n].
Proof. intros H. apply split_on_no_mem, negb_true_iff, H. Qed.

(* netloc.split(@) on userinfo@host, whatever the userinfo (it may itself contain @), is the split of the userinfo
   followed by the host: at least two parts, the last one is the host and the others joined give back the userinfo.
   sanitize_netloc, netloc_public and url_auth all match on this list with the pattern p0 :: p1 :: rest and read
   last (p1 :: rest) p0 and removelast (p0 :: p1 :: rest), hence the form of the statement. *)
Lemma split_userinfo ui host : no_at host = true -> exists p0 p1 rest,
  split_on AT (ui ++ AT :: host) = p0 :: p1 :: rest /\
  last (p1 :: rest) p0 = host /\ join [AT] (removelast (p0 :: p1 :: rest)) = ui.
Proof.
  intros H. rewrite split_on_app, (split_no_at host H).
  assert (J := join_split_on AT ui).
  destruct (split_on AT ui) as [|p0 l] eqn:E; [destruct (split_on_nonempty AT ui E)|].
  (* split_on AT ui = p0 :: l; the parts after p0 are l ++ [host], which is not empty *)
  assert (L : last (l ++ [host]) p0 = host) by apply last_last.
  assert (R : removelast ((p0 :: l) ++ [host]) = p0 :: l) by apply removelast_last.
  cbn [app] in *. destruct (l ++ [host]) as [|p1 rest]; [destruct l; discriminate|].
  exists p0, p1, rest. rewrite R. repeat split; assumption.
Qed.

Lemma userinfo_replaced r ui host : no_at host = true ->
  sanitize_netloc r (ui ++ AT :: host) = r ++ AT :: host.
Proof.
  intros H. destruct (split_userinfo ui host H) as (p0 & p1 & rest & E & El & _).
  unfold sanitize_netloc. rewrite E, El. reflexivity.
Qed.

Lemma netloc_public_userinfo ui host : no_at host = true -> netloc_public (ui ++ AT :: host) = (true, host).
Proof.
  intros H. destruct (split_userinfo ui host H) as (p0 & p1 & rest & E & El & _).
  unfold netloc_public. rewrite E, El. reflexivity.
Qed.

(* url_auth is userinfo_auth of what is before the last @ *)
Lemma url_auth_split n :
  url_auth n = match split_on AT n with
               | p0 :: p1 :: rest => userinfo_auth (join [AT] (removelast (p0 :: p1 :: rest)))
               | _ => None
               end.
Proof. reflexivity. Qed.

Lemma url_auth_userinfo ui host : no_at host = true -> url_auth (ui ++ AT :: host) = userinfo_auth ui.
Proof.
  intros H. destruct (split_userinfo ui host H) as (p0 & p1 & rest & E & _ & Ej).
  rewrite url_auth_split, E, Ej. reflexivity.
Qed.

Lemma netloc_no_userinfo r n : no_at n = true -> sanitize_netloc r n = n.
Proof. intros H. unfold sanitize_netloc. rewrite (split_no_at n H). reflexivity. Qed.

(* every netloc is of one of the two forms above: cut it at its last @, if it has one *)
Lemma netloc_cases n : no_at n = true \/ exists ui host, n = ui ++ AT :: host /\ no_at host = true.
Proof.
  induction n as [|x n IH]; [left; reflexivity|].
  destruct IH as [H | (ui & host & -> & H)].
  - destruct (N.eqb AT x) eqn:E.
    + apply N.eqb_eq in E. subst x. right. exists [], n. split; [reflexivity | exact H].
    + left. unfold no_at, mem in *. cbn [existsb]. rewrite E. exact H.
  - right. exists (x :: ui), host. split; [reflexivity | exact H].
Qed.

Lemma sanitize_netloc_public r n :
  sanitize_netloc r n = (if fst (netloc_public n) then r ++ [AT] ++ snd (netloc_public n) else snd (netloc_public n)).
Proof.
  unfold sanitize_netloc, netloc_public. destruct (split_on AT n) as [|p0 [|p1 rest]]; reflexivity.
Qed.

(* after sanitize_netloc the only userinfo left is the marker *)
Lemma url_auth_sanitized r n : url_auth (sanitize_netloc r n) = if fst (netloc_public n) then userinfo_auth r else None.
Proof.
  destruct (netloc_cases n) as [H | (ui & host & -> & H)].
  - rewrite (netloc_no_userinfo r n H), url_auth_split. unfold netloc_public. rewrite (split_no_at n H). reflexivity.
  - rewrite (userinfo_replaced r ui host H), (netloc_public_userinfo ui host H). apply url_auth_userinfo, H.
Qed.

Lemma userinfo_auth_no_colon r : mem COLON r = false -> userinfo_auth r = None.
Proof. intros H. unfold userinfo_auth. rewrite (split_on_no_mem COLON r H). reflexivity. Qed.

Lemma userinfo_auth_user_pass u p : mem COLON u = false -> (u, p) <> ([], []) -> userinfo_auth (u ++ COLON :: p) = Some (u, p).
Proof.
  intros H Hne. unfold userinfo_auth. rewrite split_on_app, (split_on_no_mem COLON u H).
  assert (J := join_split_on COLON p).
  destruct (split_on COLON p) as [|p0 ps] eqn:E; [destruct (split_on_nonempty COLON p E)|].
  cbn [app]. rewrite J. destruct u; [|reflexivity]. destruct p; [|reflexivity]. exfalso. apply Hne. reflexivity.
Qed.

Lemma netloc_of_with_netloc n k : u_netloc (k_url (with_netloc n k)) = n.
Proof. reflexivity. Qed.

(* the default marker begins with a square bracket *)
Lemma default_marker_bracket s : mem LBR (repl default_config ++ s) = true.
Proof. reflexivity. Qed.

(* 5 *)

Lemma sanitized_query_clean c g : query_clean c (flatten_query (sanitize_mdict c g)) = true.
Proof.
  unfold query_clean, flatten_query, sanitize_mdict. induction g as [|[k vs] g IH]; [reflexivity|].
  cbn [map flat_map]. rewrite forallb_app, IH, andb_true_r.
  destruct (is_sensitive c k) eqn:Ek.
  - (* all values of k have become one marker *) cbn [map forallb]. rewrite Ek, str_eqb_refl. reflexivity.
  - induction vs as [|v vs IHv]; [reflexivity|]. cbn [map forallb]. rewrite Ek. exact IHv.
Qed.

(* pairs that differ only in the values of sensitive names have the same public grouping *)
Lemma add_value_public c k v v' : forall g g',
  (is_sensitive c k = false -> v = v') ->
  erase_mdict c g = erase_mdict c g' ->
  erase_mdict c (add_value k v g) = erase_mdict c (add_value k v' g').
Proof.
  induction g as [|[k1 vs] g IH]; intros [|[k1' vs'] g'] Hv E; cbn [erase_mdict map] in E; try discriminate.
  - cbn. destruct (is_sensitive c k) eqn:Ek; [reflexivity | rewrite (Hv eq_refl); reflexivity].
  - injection E as <- Evs Eg. cbn [add_value].
    destruct (str_eqb k k1) eqn:Ekk.
    + apply str_eqb_spec in Ekk. subst k1. cbn [erase_mdict map]. f_equal; [|exact Eg].
      destruct (is_sensitive c k) eqn:Ek; [reflexivity|]. rewrite (Hv eq_refl), Evs. reflexivity.
    + cbn [erase_mdict map]. f_equal; [f_equal; exact Evs|]. apply IH; assumption.
Qed.

Lemma group_public_gen c : forall q q' g g',
  erase_sdict c q = erase_sdict c q' -> erase_mdict c g = erase_mdict c g' ->
  erase_mdict c (fold_left (fun g kv => add_value (fst kv) (snd kv) g) q g) =
  erase_mdict c (fold_left (fun g kv => add_value (fst kv) (snd kv) g) q' g').
Proof.
  induction q as [|[k v] q IH]; intros [|[k' v'] q'] g g' Eq Eg; cbn [erase_sdict map] in Eq; try discriminate.
  - exact Eg.
  - injection Eq as <- Ev Er. cbn [fold_left fst snd]. apply IH; [exact Er|].
    apply add_value_public; [|exact Eg]. intros Hs. rewrite Hs in Ev. exact Ev.
Qed.

Lemma group_public c q q' :
  erase_sdict c q = erase_sdict c q' -> erase_mdict c (group_query q) = erase_mdict c (group_query q').
Proof. intros E. apply group_public_gen; [exact E | reflexivity]. Qed.

Example ex_url :
  sanitize_url default_config
    {| u_scheme := [104]%N; u_netloc := [117;64;112;64;104]%N; u_path := []; u_fragment := [];
       u_query := [([97]%N, [49]%N); (s_token, [50]%N); ([97]%N, [51]%N); (s_token, [52]%N)] |} =
    {| u_scheme := [104]%N; u_netloc := default_repl ++ [64;104]%N; u_path := []; u_fragment := [];
       u_query := [([97]%N, [49]%N); ([97]%N, [51]%N); (s_token, default_repl)] |}.
Proof. vm_compute. reflexivity. Qed.

(* 6 *)

(* public projections are tuples; [injection] on an equation between two of them would go on into url_public *)
Lemma interaction_public_eq c i i' : interaction_public c i = interaction_public c i' ->
  url_public c (i_uri i) = url_public c (i_uri i') /\
  erase_mdict c (i_req_headers i) = erase_mdict c (i_req_headers i') /\
  option_map (erase_mdict c) (i_resp_headers i) = option_map (erase_mdict c) (i_resp_headers i') /\
  i_open i = i_open i'.
Proof.
  unfold interaction_public. intros E.
  apply pair_equal_spec in E as [E E4]. apply pair_equal_spec in E as [E E3]. apply pair_equal_spec in E as [E1 E2].
  repeat split; assumption.
Qed.

Lemma first_values_some h : values_nonempty h = true -> exists t, first_values h = Some t.
Proof.
  induction h as [|[k vs] h IH]; cbn [values_nonempty forallb first_values snd fst]; intros H; [eexists; reflexivity|].
  apply andb_true_iff in H as [H1 H2]. destruct vs as [|v vs]; [discriminate|].
  destruct (IH H2) as [t ->]. eexists; reflexivity.
Qed.

(* with sanitization on the HAR writer reads the sanitised copies, and the recorded headers for the mimeType fields *)
Lemma har_entry_on parse c b i :
  har_entry parse true c b i =
  har_body parse (sanitize_url c (i_uri i)) (sanitize_mdict c (i_req_headers i))
           (option_map (sanitize_mdict c) (i_resp_headers i)) (i_open i) b (i_req_headers i) (i_resp_headers i).
Proof. reflexivity. Qed.

(* the writer raises only on a header without values *)
Lemma har_entry_written parse c b i : headers_have_values i = true -> exists e, har_entry parse true c b i = Some e.
Proof.
  intros Hv. apply andb_true_iff in Hv as [Hq Hs]. rewrite har_entry_on. unfold har_body.
  destruct (first_values_some _ (values_nonempty_sanitize c _ Hq)) as [rqf ->].
  destruct (i_resp_headers i) as [rs|]; cbn [option_map]; [|eexists; reflexivity].
  destruct (first_values_some _ (values_nonempty_sanitize c _ Hs)) as [rsf ->]. eexists; reflexivity.
Qed.

Lemma har_body_some parse uri rq rs op b raw_rq raw_rs e :
  har_body parse uri rq rs op b raw_rq raw_rs = Some e ->
  h_url e = uri /\ h_query e = u_query uri /\
  entry_cookies e = (har_cookies parse (dict_get s_Cookie rq),
                     match rs with Some rsh => har_cookies parse (dict_get s_SetCookie rsh) | None => [] end).
Proof.
  unfold har_body. destruct (first_values rq) as [rqf|]; [|discriminate].
  destruct rs as [rsh|].
  - destruct (first_values rsh) as [rsf|]; [|discriminate]. intros E. injection E as <-. repeat split.
  - intros E. injection E as <-. repeat split.
Qed.

(* everything except the two mimeType fields is a function of the VCR entry *)
Lemma har_body_sans_mime parse uri rq rs op b raw_rq raw_rs :
  option_map entry_sans_mime (har_body parse uri rq rs op b raw_rq raw_rs) =
  option_map entry_sans_mime (har_body parse uri rq rs op false [] None).
Proof.
  unfold har_body. destruct (first_values rq) as [rqf|]; [|reflexivity].
  destruct rs as [rsh|]; [|reflexivity]. destruct (first_values rsh) as [rsf|]; reflexivity.
Qed.

(* ... and of the recorded headers only their Content-Type values enter an entry *)
Lemma har_body_mime parse uri rq rs op b raw_rq raw_rs raw_rq' raw_rs' :
  mime_of raw_rq = mime_of raw_rq' -> option_map mime_of raw_rs = option_map mime_of raw_rs' ->
  har_body parse uri rq rs op b raw_rq raw_rs = har_body parse uri rq rs op b raw_rq' raw_rs'.
Proof.
  intros E1 E2. unfold har_body. rewrite E1.
  destruct raw_rs, raw_rs'; cbn [option_map] in E2; try discriminate; [injection E2 as ->|]; reflexivity.
Qed.

Lemma entry_cookies_of_sans_mime e e' : entry_sans_mime e = entry_sans_mime e' -> entry_cookies e = entry_cookies e'.
Proof.
  unfold entry_sans_mime, entry_cookies. intros E. injection E as _ _ _ E4 E5 _. rewrite E4. f_equal.
  destruct (h_resp e) as [r|], (h_resp e') as [r'|]; cbn [option_map] in E5; try discriminate; [|reflexivity].
  injection E5 as _ E5 _. exact E5.
Qed.

Lemma mime_public c : content_type_public c = true -> forall h h', erase_mdict c h = erase_mdict c h' -> mime_of h = mime_of h'.
Proof.
  unfold content_type_public. intros Hc h h' E. apply negb_true_iff in Hc. unfold mime_of, dict_get.
  rewrite <- (assoc_get_erase_mdict c _ h Hc), <- (assoc_get_erase_mdict c _ h' Hc), E. reflexivity.
Qed.

(* the quirk of _extract_cookies: a parser that finds no cookie in a single character finds none at all *)
Lemma har_cookies_nil parse vs : (forall ch, parse [ch] = []) -> har_cookies parse vs = [].
Proof.
  intros Hp. unfold har_cookies. induction vs as [|v vs IH]; [reflexivity|]. cbn [flat_map]. rewrite IH, app_nil_r.
  induction v as [|ch v IHv]; [reflexivity|]. cbn [flat_map]. rewrite Hp, IHv. reflexivity.
Qed.

Lemma strip_sp_char ch : strip [SP] [ch] = if N.eqb ch SP then [] else [ch].
Proof.
  unfold strip. cbn [strip_left]. unfold mem. cbn [existsb]. rewrite orb_false_r.
  destruct (N.eqb ch SP) eqn:E; [reflexivity|]. cbn [rev app strip_left]. unfold mem. cbn [existsb]. rewrite E. reflexivity.
Qed.

(* http://u:p@h/?token=s with Authorization: s *)
Definition w_har_interaction : interaction :=
  {| i_uri := {| u_scheme := [104;116;116;112]%N; u_netloc := [117;58;112;64;104]%N; u_path := [47]%N;
                 u_query := [(s_token, [115]%N)]; u_fragment := [] |};
     i_req_headers := [(s_Authorization, [[115]%N])]; i_resp_headers := None; i_open := [] |}.

Definition w_mime_cfg : config := extend default_config (Some [s_ContentType]) None.
Definition w_mime_interaction (secret : N) : interaction :=
  {| i_uri := {| u_scheme := [104]%N; u_netloc := [104]%N; u_path := []; u_query := []; u_fragment := [] |};
     i_req_headers := [(s_ContentType, [[secret]])]; i_resp_headers := None; i_open := [] |}.

Definition s_sid : str := [115;105;100]%N.
Definition w_cookie_interaction (secret : N) : interaction :=
  {| i_uri := {| u_scheme := [104]%N; u_netloc := [104]%N; u_path := []; u_query := []; u_fragment := [] |};
     i_req_headers := [(s_Cookie, [ s_sid ++ [EQS; secret] ++ [59;32;116;104;101;109;101;61;100]%N (* ; theme=d *) ])];
     i_resp_headers := Some [(s_set_cookie_lc, [ s_sid ++ [EQS; secret] ++ [59;32;80;97;116;104;61;47]%N (* ; Path=/ *) ])];
     i_open := [] |}.

(* -H 'Authorization: <secret>': two command lines that differ in the header value only *)
Definition w_args (secret : N) : list str :=
  [ [45;72]%N; ([65;117;116;104;111;114;105;122;97;116;105;111;110;58;32]%N ++ [secret]) ].

Lemma vcr_command_leaks :
  args_public default_config (w_args 65) = args_public default_config (w_args 66) /\
  vcr_command s_st (w_args 65) <> vcr_command s_st (w_args 66).
Proof. split; [vm_compute; reflexivity | vm_compute; discriminate]. Qed.

(* non-vacuity of the public view of argv: an ordinary argument is kept *)
Example args_public_keeps : args_public default_config [[45;72]%N; [88;45;65;58;32;49]%N] = [[45;72]%N; [88;45;65;58;32;49]%N].
Proof. vm_compute. reflexivity. Qed.

(* 7 *)

Lemma kwargs_public_eq c k k' : kwargs_public c k = kwargs_public c k' ->
  url_public c (k_url k) = url_public c (k_url k') /\
  erase_sdict c (k_headers k) = erase_sdict c (k_headers k') /\
  cookies_public c (k_cookies k) = cookies_public c (k_cookies k') /\
  erase c (JObj (k_params k)) = erase c (JObj (k_params k')) /\
  (k_auth k = None <-> k_auth k' = None) /\
  k_open k = k_open k'.
Proof.
  unfold kwargs_public. intros E.
  apply pair_equal_spec in E as [E E6]. apply pair_equal_spec in E as [E E5]. apply pair_equal_spec in E as [E E4].
  apply pair_equal_spec in E as [E E3]. apply pair_equal_spec in E as [E1 E2].
  repeat split; try assumption; destruct (k_auth k), (k_auth k'); congruence.
Qed.

(* prepare_cookies reads the jar only when there is no Cookie header *)
Lemma prepare_cookies_ni n h ck ck' auth :
  (has_header s_Cookie h = false -> ck = ck') -> requests_prepare n h ck auth = requests_prepare n h ck' auth.
Proof.
  intros H. unfold requests_prepare, requests_prepare_core.
  destruct (has_header s_Cookie h); [destruct ck, ck'; reflexivity | rewrite (H eq_refl); reflexivity].
Qed.

(* the sanitised jar is a function of what is public about it; where that is the names only (the Cookie header being
   sensitive), provided every name is sensitive *)
Lemma cookies_ni c ck ck' :
  cookies_public c ck = cookies_public c ck' ->
  (is_sensitive c s_Cookie = true ->
   forallb (fun kv => is_sensitive c (fst kv)) ck = true /\ forallb (fun kv => is_sensitive c (fst kv)) ck' = true) ->
  sanitize_sdict c ck = sanitize_sdict c ck'.
Proof.
  unfold cookies_public. destruct (is_sensitive c s_Cookie); intros E H; [|exact (sdict_ni c _ _ E)].
  destruct (H eq_refl) as [Hs Hs']. rewrite (sanitize_all_sensitive c _ Hs), (sanitize_all_sensitive c _ Hs').
  revert E. apply map_congr. intros x y E. injection E as ->. reflexivity.
Qed.

(* the region no_cookie_jar_header of the structural theorem lies inside the region cookies_covered of noninterference *)
Lemma no_cookie_jar_header_covered c k : no_cookie_jar_header c k = true -> cookies_covered c k = true.
Proof.
  unfold no_cookie_jar_header, cookies_covered. destruct (negb (is_sensitive c s_Cookie)); [reflexivity|].
  destruct (k_cookies k); [reflexivity|]. cbn [orb]. intros ->. reflexivity.
Qed.

(* the headers of the code sample: prepare() is given the sanitised headers and cookies and the request's auth object;
   without one, all that get_auth_from_url can read in the (already sanitised) URL is the marker *)
Lemma curl_view_headers c k :
  view_headers (curl_view true c k) =
  requests_prepare_core (sanitize_sdict c (k_headers k)) (sanitize_sdict c (k_cookies k))
    match k_auth k with
    | Some a => Some a
    | None => if fst (netloc_public (u_netloc (k_url k))) then userinfo_auth (repl c) else None
    end.
Proof.
  unfold view_headers, curl_view, requests_prepare. cbn [fst snd sanitize_url u_netloc].
  rewrite url_auth_sanitized. reflexivity.
Qed.

(* ... which is nothing when the marker has no colon, whether the URL had userinfo or not *)
Lemma curl_view_headers_no_auth c k : k_auth k = None -> marker_derives_nothing c = true ->
  view_headers (curl_view true c k) =
  requests_prepare_core (sanitize_sdict c (k_headers k)) (sanitize_sdict c (k_cookies k)) None.
Proof.
  intros Ea Hm. rewrite curl_view_headers, Ea, userinfo_auth_no_colon by (apply negb_true_iff, Hm).
  destruct (fst (netloc_public (u_netloc (k_url k)))); reflexivity.
Qed.

Lemma headers_redacted_plain c h :
  headers_redacted c (map (fun kv : str * str => (fst kv, HPlain (snd kv))) (sanitize_sdict c h)) = true.
Proof.
  unfold headers_redacted, sanitize_sdict. induction h as [|[k v] h IH]; [reflexivity|].
  cbn [map forallb fst snd]. rewrite IH, andb_true_r.
  destruct (is_sensitive c k) eqn:E; [apply str_eqb_refl | reflexivity].
Qed.

(* without an auth object prepare() adds at most a Cookie header built from the jar, and that one is redacted only in the
   sense that its name is not sensitive *)
Lemma headers_redacted_prepare c k : no_cookie_jar_header c k = true ->
  headers_redacted c (requests_prepare_core (sanitize_sdict c (k_headers k)) (sanitize_sdict c (k_cookies k)) None) = true.
Proof.
  unfold no_cookie_jar_header, requests_prepare_core. intros Hc.
  destruct (k_cookies k) as [|x ck]; cbn [sanitize_sdict map]; [apply headers_redacted_plain|].
  rewrite has_header_sanitize.
  destruct (has_header s_Cookie (k_headers k)); [apply headers_redacted_plain|].
  rewrite orb_false_r in Hc. apply negb_true_iff in Hc.
  unfold headers_redacted. rewrite forallb_app. apply andb_true_iff. split; [apply headers_redacted_plain|].
  cbn [forallb fst snd]. rewrite Hc. reflexivity.
Qed.

Lemma set_header_in {A} name (v : A) h : In (name, v) (set_header name v h).
Proof.
  induction h as [|[k w] h IH]; cbn [set_header]; [left; reflexivity|].
  destruct (str_eqb (lower_ascii k) (lower_ascii name)); [left; reflexivity | right; exact IH].
Qed.

Definition w_url : url :=
  {| u_scheme := [104;116;116;112]%N; u_netloc := [104]%N; u_path := [47]%N; u_query := []; u_fragment := [] |}.
Definition w_kwargs_auth (p : N) : case_kwargs :=
  {| k_url := w_url; k_headers := [(s_Authorization, [p])]; k_cookies := []; k_params := [];
     k_auth := Some ([117]%N, [p]); k_open := [] |}.
Definition w_kwargs_cookie (p : N) : case_kwargs :=
  {| k_url := w_url; k_headers := []; k_cookies := [([83;73;68]%N, [p])]; k_params := [];
     k_auth := None; k_open := [] |}.
Definition w_kwargs_ok (p : N) : case_kwargs :=
  {| k_url := w_url; k_headers := [(s_Authorization, [p]); (s_Cookie, [p])]; k_cookies := [([83;73;68]%N, [p])];
     k_params := [([116;111;107;101;110]%N, JStr [p])]; k_auth := None; k_open := [] |}.
(* http://u:<p>@h/ with Authorization: Bearer x *)
Definition w_kwargs_userinfo (p : N) : case_kwargs :=
  {| k_url := {| u_scheme := [104;116;116;112]%N; u_netloc := [117;58;p;64;104]%N; u_path := [47]%N; u_query := []; u_fragment := [] |};
     k_headers := [(s_Authorization, [66;101;97;114;101;114;32;120]%N)]; k_cookies := []; k_params := [];
     k_auth := None; k_open := [] |}.
Definition w_location (p : N) : url := k_url (w_kwargs_userinfo p).

Example curl_ni_nonvacuous :
  kwargs_public default_config (w_kwargs_ok 65) = kwargs_public default_config (w_kwargs_ok 66) /\
  no_request_auth (w_kwargs_ok 65) = true /\ cookies_covered default_config (w_kwargs_ok 65) = true /\
  w_kwargs_ok 65 <> w_kwargs_ok 66 /\
  curl_view true default_config (w_kwargs_ok 65) = curl_view true default_config (w_kwargs_ok 66).
Proof. repeat split; try (vm_compute; reflexivity). vm_compute. discriminate. Qed.

Example curl_headers_redacted_nonvacuous :
  no_request_auth (w_kwargs_userinfo 65) = true /\ no_cookie_jar_header default_config (w_kwargs_userinfo 65) = true /\
  marker_derives_nothing default_config = true /\
  headers_redacted default_config (view_headers (curl_view false default_config (w_kwargs_userinfo 65))) = false /\
  headers_redacted default_config (view_headers (curl_view_prepare_first no_params_enc true default_config (w_kwargs_userinfo 65))) = false.
Proof. repeat split; vm_compute; reflexivity. Qed.

(* a marker with a colon does derive an Authorization header - from the marker alone *)
Example marker_with_colon_derives :
  let c := from_config default_config (Some [120;58;121]%N) None None in
  marker_derives_nothing c = false /\
  rendered_headers (view_headers (curl_view true c (w_kwargs_userinfo 65))) = [(s_Authorization, [66;97;115;105;99;32;101;68;112;53]%N)] /\
  curl_view true c (w_kwargs_userinfo 65) = curl_view true c (w_kwargs_userinfo 66).
Proof. repeat split; vm_compute; reflexivity. Qed.

(* 8 *)
(* the alphabet has 64 different characters and the padding character is not among them *)
Lemma b64_char_props i : (i < 64)%N -> b64_index (b64_char i) = Some i /\ N.eqb (b64_char i) PAD = false.
Proof.
  intros Hi.
  assert (F : forallb (fun j => match b64_index (b64_char j) with Some k => N.eqb k j | None => false end && negb (N.eqb (b64_char j) PAD))
                      (map N.of_nat (seq 0 64)) = true) by (vm_compute; reflexivity).
  rewrite forallb_forall in F. specialize (F i).
  assert (Hin : In i (map N.of_nat (seq 0 64))).
  { rewrite <- (N2Nat.id i). apply in_map. apply in_seq. lia. }
  specialize (F Hin). apply andb_true_iff in F as [F1 F2].
  destruct (b64_index (b64_char i)) as [k|]; [|discriminate]. apply N.eqb_eq in F1. subst k.
  apply negb_true_iff in F2. split; [reflexivity | exact F2].
Qed.

Local Open Scope N_scope.

(* Every base64 digit is hi * d + lo with lo < d: base64 cuts each byte x at some d | 256 and carries x mod d,
   as the high part, into the next digit. *)
Lemma pack_div hi lo d : lo < d -> (hi * d + lo) / d = hi.
Proof.
  intros H. assert (d <> 0) by (intros ->; exact (N.nlt_0_r _ H)).
  rewrite N.div_add_l, (N.div_small lo d H), N.add_0_r by assumption. reflexivity.
Qed.

Lemma pack_mod hi lo d : lo < d -> (hi * d + lo) mod d = lo.
Proof.
  intros H. assert (d <> 0) by (intros ->; exact (N.nlt_0_r _ H)).
  rewrite N.add_comm, N.mod_add by assumption. apply N.mod_small, H.
Qed.

Lemma pack_lt hi lo d n : hi < n -> lo < d -> hi * d + lo < n * d.
Proof.
  intros Hhi Hlo. apply N.lt_le_trans with (N.succ hi * d).
  - rewrite N.mul_succ_l. apply N.add_lt_mono_l, Hlo.
  - apply N.mul_le_mono_r, N.le_succ_l, Hhi.
Qed.

Lemma unpack x d : d <> 0 -> x / d * d + x mod d = x.
Proof. intros H. rewrite N.mul_comm. symmetry. apply N.div_mod, H. Qed.

(* a byte cut at d, its low part carried into a digit x mod d * d' + lo, comes back from the two digits *)
Lemma rejoin x d d' lo : d <> 0 -> lo < d' -> x / d * d + (x mod d * d' + lo) / d' = x.
Proof. intros Hd Hlo. rewrite (pack_div _ _ _ Hlo). apply unpack, Hd. Qed.

Local Hint Resolve N.mod_lt N.div_lt_upper_bound : b64.
Local Hint Extern 0 (_ <> 0) => discriminate : b64.
Local Hint Extern 0 (0 < _) => reflexivity : b64.

(* In the two short cases the digit before the padding has no low part: it is written  + 0  so that it reads like
   the others, and the decoder's test that this low part is 0 is left as  0 =? 0, which cbn [N.eqb] decides.
   [auto with b64] proves that parts of bytes are in range: x mod d < d, x / d < 256 / d, 0 < d. *)
Lemma b64_roundtrip : forall l, is_bytes l = true -> b64_decode (b64 l) = Some l.
Proof.
  unfold is_bytes. induction l as [|a|a b|a b c r IH] using list_ind3; cbn [forallb]; intros Hb.
  - reflexivity.
  - rewrite andb_true_r in Hb. apply N.ltb_lt in Hb.
    cbn [b64 b64_decode]. rewrite <- (N.add_0_r (a mod 4 * 16)).
    destruct (b64_char_props (a / 4)) as [-> _]; [auto with b64|].
    destruct (b64_char_props (a mod 4 * 16 + 0)) as [-> _]; [apply (pack_lt _ _ 16 4); auto with b64|].
    rewrite N.eqb_refl, pack_mod by reflexivity. cbn [N.eqb].
    rewrite rejoin by auto with b64. reflexivity.
  - rewrite andb_true_r in Hb. apply andb_true_iff in Hb as [Ha Hb]. apply N.ltb_lt in Ha, Hb.
    cbn [b64 b64_decode]. rewrite <- (N.add_0_r (b mod 16 * 4)).
    destruct (b64_char_props (a / 4)) as [-> _]; [auto with b64|].
    destruct (b64_char_props (a mod 4 * 16 + b / 16)) as [-> _]; [apply (pack_lt _ _ 16 4); auto with b64|].
    destruct (b64_char_props (b mod 16 * 4 + 0)) as [-> ->]; [apply (pack_lt _ _ 4 16); auto with b64|].
    rewrite N.eqb_refl, !pack_mod by auto with b64. cbn [N.eqb].
    rewrite !rejoin by auto with b64. reflexivity.
  - apply andb_true_iff in Hb as [Ha Hb]. apply andb_true_iff in Hb as [Hb Hc].
    apply andb_true_iff in Hc as [Hc Hr]. apply N.ltb_lt in Ha, Hb, Hc.
    cbn [b64 b64_decode].
    destruct (b64_char_props (a / 4)) as [-> _]; [auto with b64|].
    destruct (b64_char_props (a mod 4 * 16 + b / 16)) as [-> _]; [apply (pack_lt _ _ 16 4); auto with b64|].
    destruct (b64_char_props (b mod 16 * 4 + c / 64)) as [-> _]; [apply (pack_lt _ _ 4 16); auto with b64|].
    destruct (b64_char_props (c mod 64)) as [-> ->]; [auto with b64|].
    rewrite (IH Hr), !pack_mod, !rejoin, unpack by auto with b64. reflexivity.
Qed.

Lemma b64_injective l l' : is_bytes l = true -> is_bytes l' = true -> b64 l = b64 l' -> l = l'.
Proof.
  intros H H' E. assert (D := b64_roundtrip l H). rewrite E, (b64_roundtrip l' H') in D. injection D as D. symmetry. exact D.
Qed.

Local Close Scope N_scope.

Example b64_examples :
  b64 [117;58;112]%N = [100;84;112;119]%N /\ b64 [117;58]%N = [100;84;111;61]%N /\ b64 [97]%N = [89;81;61;61]%N /\
  b64_decode [100;84;112;119]%N = Some [117;58;112]%N /\ b64_decode [100;84;112]%N = None.
Proof. repeat split; vm_compute; reflexivity. Qed.
