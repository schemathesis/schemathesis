(* C10: a stateful link passes exactly the data its expressions denote.  In this order: JSON pointers (escaping, resolve_pointer
   against RFC 6901), the status-code filters that decide which responses feed a link, runtime expressions (lexer and parser against
   the printed grammar, evaluation against the denotation, nested link bodies), the merge of link values into the next request,
   the values a request parameter may hold, and the memoised link object over histories of evaluations. *)
From Coq Require Import List NArith ZArith Bool.
From Verif Require Import Common.Str Common.Json C10.Model_C10 C10.Proofs_C10.
Import ListNotations.

(* get_operation_by_reference / resolve_pointer undo what operation_reference does to a path, whatever the characters *)
Theorem C10_pointer_escape_roundtrip : forall t, unescape (escape t) = t.
Proof. intros t. unfold unescape. rewrite escape_flat, replace_tilde1_escaped. apply replace_tilde0_tilde_escaped. Qed.
Print Assumptions C10_pointer_escape_roundtrip.

(* resolve_pointer (core/transforms.py since commits 5f4626e6 and 6e969657) is RFC 6901 for every document and every pointer
   whose escapes are valid *)
Theorem C10_pointer_rfc6901_partial : forall d p,
  valid_escapes p = true -> resolve_pointer d p = w_of_opt (rfc6901 d p).
Proof. exact pointer_rfc6901_partial. Qed.
Print Assumptions C10_pointer_rfc6901_partial.

(* without that hypothesis the statement is false: /a~2 (a ~ followed by neither 0 nor 1, taken literally) resolves *)
Theorem C10_pointer_rfc6901_refuted :
  exists d p, valid_escapes p = false /\ resolve_pointer d p <> w_of_opt (rfc6901 d p).
Proof. exists d_tilde, p_tilde. split; [reflexivity|]. vm_compute. discriminate. Qed.
Print Assumptions C10_pointer_rfc6901_refuted.

(* regression sentinel: the rule before commit 5f4626e6 (array tokens through int()) is NOT RFC 6901 on /a/-1, / 1, /1_0, all
   three inside lenient_hit; outside lenient_hit it is RFC 6901 for pointers with valid escapes and tokens within the digit limit
   of int(); resolve_pointer answers UNRESOLVABLE on the three witnesses *)
Theorem C10_pointer_int_lenient_sentinel :
  (exists d p, lenient_hit d p = true /\ resolve_pointer_int_lenient d p <> of_opt (rfc6901 d p) /\ resolve_pointer d p = WUnres) /\
  (resolve_pointer_int_lenient d_10_20 p_space <> of_opt (rfc6901 d_10_20 p_space) /\ resolve_pointer d_10_20 p_space = WUnres) /\
  (resolve_pointer_int_lenient d_0_19 p_under <> of_opt (rfc6901 d_0_19 p_under) /\ resolve_pointer d_0_19 p_under = WUnres) /\
  (forall d p, valid_escapes p = true -> short_tokens p = true -> lenient_hit d p = false ->
     resolve_pointer_int_lenient d p = of_opt (rfc6901 d p)).
Proof.
  split; [exists d_a123, p_neg; repeat split; vm_compute; (reflexivity || discriminate)|].
  split; [split; vm_compute; (reflexivity || discriminate)|].
  split; [split; vm_compute; (reflexivity || discriminate)|].
  intros d p Hv Hs Hl. unfold resolve_pointer_int_lenient, rfc6901, lenient_hit in *. destruct p as [|c p]; [reflexivity|].
  destruct (N.eqb c SLASH) eqn:E; [|reflexivity]. cbn [andb] in *. rewrite Hv.
  f_equal. apply walk_agree; assumption.
Qed.
Print Assumptions C10_pointer_int_lenient_sentinel.

(* a response filter says exactly what the response key means: exact code, NXX wildcard,
   default = no other documented key matches *)
Theorem C10_status_filter_iff : forall key keys code,
  (str_eqb key s_default || wf_key key) = true -> wf_keys keys = true ->
  response_filter key keys code = Some (spec_matches key keys code).
Proof. exact response_filter_spec. Qed.
Print Assumptions C10_status_filter_iff.

(* a response is stored only in a bundle whose key it matches: a link is followed only from such responses *)
Theorem C10_bundle_sound : forall link_keys keys code k,
  wf_keys link_keys = true -> wf_keys keys = true -> bundle_of link_keys keys code = Some k ->
  In k link_keys /\ spec_matches k keys code = true.
Proof. exact bundle_sound. Qed.
Print Assumptions C10_bundle_sound.

(* the state machine as wired by create_state_machine (filters built against EVERY documented response key, matcher over the
   outgoing links in order): a response reaches only a bundle of a key that carries links and that it matches *)
Theorem C10_machine_bundle_sound : forall op code k,
  wf_keys (documented_keys op) = true -> machine_bundle op code = Some k ->
  In k (outgoing_keys op) /\ spec_matches k (documented_keys op) code = true.
Proof.
  intros op code k Hw H. refine (bundle_sound _ _ _ _ _ Hw H).
  apply forallb_forall. intros x Hx. exact (proj1 (forallb_forall _ _) Hw x (outgoing_in_documented _ _ Hx)).
Qed.
Print Assumptions C10_machine_bundle_sound.

(* default = no other DOCUMENTED code, whether or not that code has links of its own *)
Theorem C10_documented_key_blocks_default : forall op code k n,
  wf_keys (documented_keys op) = true -> In (k, n) op -> str_eqb k s_default = false -> key_matches k code = true ->
  machine_bundle op code <> Some s_default.
Proof.
  intros op code k n Hw Hin Hd Hm H. destruct (C10_machine_bundle_sound _ _ _ Hw H) as [_ Hs].
  unfold spec_matches in Hs. change (str_eqb s_default s_default) with true in Hs. cbn iota in Hs.
  assert (Hk : In k (documented_keys op)) by (apply in_map_iff; exists (k, n); split; [reflexivity|exact Hin]).
  pose proof (proj1 (forallb_forall _ _) Hs k Hk) as Hf. cbn beta in Hf. rewrite Hd, Hm in Hf. discriminate.
Qed.
Print Assumptions C10_documented_key_blocks_default.

(* every expression tree in the region simple_expr (names non-empty and without . $ # { }, pointer and regex without },
   regex accepted by re; the region does not ask for ABNF validity) is read back by lexer + parser as itself *)
Theorem C10_parse_print_partial : forall rx_ok e,
  simple_expr rx_ok e = true -> parse rx_ok (print e) = Some (POk [node_of e]).
Proof. exact parse_print. Qed.
Print Assumptions C10_parse_print_partial.

(* ... and, if its pointer has valid escapes where a document is there to resolve it in (ptr_strict), evaluates to its
   denotation (pointers per RFC 6901) *)
Theorem C10_eval_denotes_partial : forall rx_ok rx_extract cx e,
  simple_expr rx_ok e = true -> ptr_strict cx e = true ->
  eval_str rx_ok rx_extract cx (print e) = denote rx_extract cx e.
Proof. exact eval_denotes_partial. Qed.
Print Assumptions C10_eval_denotes_partial.

(* outside the region simple_expr the statement is false *)
Theorem C10_eval_denotes_refuted_dotted_name : exists rx_ok rx_extract cx e,
  abnf_ok e = true /\ denote rx_extract cx e = OVal (VJ (JStr [118])) /\
  eval_str rx_ok rx_extract cx (print e) = OParseErr ErrExpr.
Proof. exists rx_any, rx_none, cx0, e_dotted. repeat split; vm_compute; reflexivity. Qed.
Print Assumptions C10_eval_denotes_refuted_dotted_name.

Theorem C10_eval_denotes_refuted_pointer_brace : exists rx_ok rx_extract cx e,
  abnf_ok e = true /\ denote rx_extract cx e = OVal (VJ (JInt 5)) /\
  eval_str rx_ok rx_extract cx (print e) = OParseErr ErrExpr.
Proof. exists rx_any, rx_none, cx0, e_ptr_rb. repeat split; vm_compute; reflexivity. Qed.
Print Assumptions C10_eval_denotes_refuted_pointer_brace.

Theorem C10_eval_denotes_refuted_embedded_body : exists rx_ok rx_extract cx t,
  forallb gitem_ok t = true /\ eval_str rx_ok rx_extract cx (print_tpl t) = OParseErr ErrExpr.
Proof. exists rx_any, rx_none, cx0, t_emb_body. split; vm_compute; reflexivity. Qed.
Print Assumptions C10_eval_denotes_refuted_embedded_body.

(* a constant containing # is in the grammar and evaluates to its prefix, not to itself *)
Theorem C10_eval_denotes_refuted_hash_text : exists rx_ok rx_extract cx s,
  forallb gitem_ok [TText s] = true /\ eval_str rx_ok rx_extract cx (print_tpl [TText s]) = OVal (VJ (JStr [97])) /\ s <> [97].
Proof. exists rx_any, rx_none, cx0, e_a_hash_b. repeat split; [vm_compute; reflexivity..|discriminate]. Qed.
Print Assumptions C10_eval_denotes_refuted_hash_text.

(* malformed expressions are NOT always rejected: $url.x is outside the grammar and evaluates to something *)
Theorem C10_rejects_malformed_refuted : exists rx_ok e ns, ~ in_grammar e /\ parse rx_ok e = Some (POk ns).
Proof. exists rx_any, e_url_x, [NUrl; NString [46]; NString [120]]. split; [exact url_x_not_in_grammar|vm_compute; reflexivity]. Qed.
Print Assumptions C10_rejects_malformed_refuted.

(* nested link bodies (_evaluate_nested), by the induction principle of json: whatever the nesting (arrays of objects, arrays of
   arrays, objects of arrays of objects, ...), if every leaf string - value or key - evaluates on its own to a JSON value or to
   UNRESOLVABLE, the body evaluates to UNRESOLVABLE iff some leaf does, and otherwise to the body with EVERY leaf at EVERY depth
   replaced by its own value (keys rendered by _evaluate_object_key, later duplicates overwriting) *)
Theorem C10_nested_body_denotes : forall rx_ok rx_extract cx e,
  leaves_ok rx_ok rx_extract cx e = true ->
  evaluate rx_ok rx_extract cx e true =
    if has_unres rx_ok rx_extract cx e then OVal VUnres else OVal (VJ (subst_nested rx_ok rx_extract cx e)).
Proof. intros rx_ok rx_extract cx e H. rewrite evaluate_nested_is. exact (nested_denotes rx_ok rx_extract cx e H). Qed.
Print Assumptions C10_nested_body_denotes.

(* link values override generated ones: a name the generator leaves alone keeps the link value *)
Theorem C10_link_values_override_generated : forall kw c d n v gen,
  assoc_get c kw = Some d -> assoc_get n d = Some v ->
  (forall g, gen (map fst d) = Some g -> assoc_get n g = None) ->
  exists f, final_container kw c gen = Some f /\ assoc_get n f = Some v.
Proof.
  intros kw c d n v gen Hc Hn Hg. rewrite (final_container_kw _ _ _ _ Hc) by (intros ->; discriminate Hn).
  eexists. split; [reflexivity|]. destruct (gen (map fst d)) as [g|] eqn:N; [|exact Hn].
  rewrite assoc_update_other by exact (Hg _ eq_refl). exact Hn.
Qed.
Print Assumptions C10_link_values_override_generated.

(* body: replaced when merge_body is off; merged with the link members winning when both are objects; replaced otherwise *)
Theorem C10_link_body_overrides_generated : forall merge new g,
  is_unres new = false ->
  (merge = false -> final_body merge (body_ready (Some (XOk new))) g = new) /\
  (forall gm nm k w, merge = true -> g = VJ (JObj gm) -> new = VJ (JObj nm) -> NoDup (map fst nm) -> assoc_get k nm = Some w ->
     exists fm, final_body merge (body_ready (Some (XOk new))) g = VJ (JObj fm) /\ assoc_get k fm = Some w) /\
  (merge = true -> (forall gm nm, ~ (g = VJ (JObj gm) /\ new = VJ (JObj nm))) -> final_body merge (body_ready (Some (XOk new))) g = new).
Proof.
  intros merge new g U. unfold body_ready. rewrite U. repeat split.
  - intros ->. reflexivity.
  - intros gm nm k w -> -> -> Hnd Hk. exists (assoc_update gm nm). split; [reflexivity|]. rewrite assoc_update_get, Hk by exact Hnd. reflexivity.
  - intros -> H. cbn [final_body]. destruct g as [[]| | | |?]; try reflexivity. destruct new as [[]| | | |?]; try reflexivity.
    exfalso. apply (H kvs kvs0). split; reflexivity.
Qed.
Print Assumptions C10_link_body_overrides_generated.

(* ... but for headers the exclusion from generation is case-sensitive while the case is case-insensitive:
   a generator that honours exclude still replaces the link value *)
Theorem C10_link_values_override_generated_refuted_header_case : exists kw gen n v,
  (forall excl g m, gen excl = Some g -> In m excl -> assoc_get m g = None) /\
  (exists d, assoc_get s_headers kw = Some d /\ assoc_get n d = Some v) /\
  exists f, final_headers kw gen = Some f /\ ci_lookup n f <> Some v.
Proof.
  exists kw_case, gen_case, [120;45;116], (VJ (JStr [80;79;83;84])).
  split; [exact gen_case_honours_exclude|]. split; eexists; split; try reflexivity. vm_compute. discriminate.
Qed.
Print Assumptions C10_link_values_override_generated_refuted_header_case.

(* UNRESOLVABLE (and None) never reaches the derived case: not through parameters, not through the body *)
Theorem C10_kwargs_never_unresolvable : forall e c d n v,
  In (c, d) (kwargs_of e) -> In (n, v) d -> v <> VUnres /\ v <> VJ JNull.
Proof.
  intros e c d n v Hc Hn. unfold kwargs_of in Hc. apply in_map_iff in Hc. destruct Hc as [[c' d'] [Heq _]].
  inversion Heq. subst. exact (keep_sendable_in _ _ _ Hn).
Qed.
Print Assumptions C10_kwargs_never_unresolvable.

Theorem C10_unresolvable_never_sent : forall rx_ok rx_extract cx l c gen d n v,
  (forall excl g m w, gen excl = Some g -> In (m, w) g -> w <> VUnres) ->
  final_container (kwargs_of (extract_parameters rx_ok rx_extract cx l)) c gen = Some d -> In (n, v) d -> v <> VUnres.
Proof.
  intros rx_ok rx_extract cx l c gen d n v Hgen. apply unresolvable_never_sent_params; [|exact Hgen].
  intros c' d' n' v' H1 H2. exact (proj1 (C10_kwargs_never_unresolvable _ _ _ _ _ H1 H2)).
Qed.
Print Assumptions C10_unresolvable_never_sent.

Theorem C10_unresolvable_never_sent_body : forall merge xb g,
  g <> VUnres -> final_body merge (body_ready xb) g <> VUnres.
Proof.
  intros merge xb g Hg. unfold final_body. destruct (body_ready xb) as [new|] eqn:R; [|exact Hg].
  assert (Hn : new <> VUnres).
  { unfold body_ready in R. destruct xb as [[v|]|]; try discriminate. destruct (is_unres v) eqn:U; [discriminate|].
    inversion R. subst. intros ->. discriminate. }
  destruct merge; [|exact Hn]. destruct g as [[]| | | |?]; try exact Hn. destruct new as [[]| | | |?]; try exact Hn. discriminate.
Qed.
Print Assumptions C10_unresolvable_never_sent_body.

(* the value domain of the source request: a value, whatever its truthiness, or UNRESOLVABLE.
   $request.query|path|header.name: a parameter the source request carries with a non-null value v evaluates to exactly v,
   for EVERY v: 0, 0.0, the empty string, false, [], {} as much as a truthy one; and that is never UNRESOLVABLE *)
Theorem C10_request_value_denotes : forall rx_ok rx_extract cx l name v,
  name_ok name = true -> source_param cx l name = Some v -> v <> PJ JNull ->
  eval_str rx_ok rx_extract cx (print (RReq l name None)) = OVal (value_of_pval v) /\ value_of_pval v <> VUnres.
Proof.
  intros rx_ok rx_extract cx l name v Hn Hs Hv.
  rewrite (request_value_eval rx_ok rx_extract cx l name Hn), Hs, (request_value_some v Hv).
  split; [reflexivity|apply value_of_pval_resolved].
Qed.
Print Assumptions C10_request_value_denotes.

(* ... and it is UNRESOLVABLE exactly when the request has no such parameter, or it is null: absent is not falsy *)
Theorem C10_request_value_unresolvable_iff : forall rx_ok rx_extract cx l name,
  name_ok name = true ->
  (eval_str rx_ok rx_extract cx (print (RReq l name None)) = OVal VUnres
   <-> (source_param cx l name = None \/ source_param cx l name = Some (PJ JNull))).
Proof.
  intros rx_ok rx_extract cx l name Hn. rewrite (request_value_eval rx_ok rx_extract cx l name Hn).
  destruct (source_param cx l name) as [v|].
  - destruct (pval_null_dec v) as [-> | Hv].
    + (* null *) split; [right; reflexivity|reflexivity].
    + (* any other value: the expression evaluates to it *)
      rewrite (request_value_some v Hv). split; [intros H; inversion H as [E]; destruct (value_of_pval_resolved v E)|].
      intros [H|H]; [discriminate H|inversion H; contradiction].
  - (* absent *) split; [left; reflexivity|reflexivity].
Qed.
Print Assumptions C10_request_value_unresolvable_iff.

Theorem C10_absent_request_value_unresolvable : forall rx_ok rx_extract cx l name rx,
  name_ok name = true -> rx_region rx_ok rx = true ->
  (source_param cx l name = None \/ source_param cx l name = Some (PJ JNull)) ->
  eval_str rx_ok rx_extract cx (print (RReq l name rx)) = OVal VUnres.
Proof.
  intros rx_ok rx_extract cx l name rx Hn Hr H.
  assert (Hs : simple_expr rx_ok (RReq l name rx) = true) by (cbn [simple_expr]; rewrite Hn, Hr; reflexivity).
  rewrite (eval_denotes_partial rx_ok rx_extract cx _ Hs eq_refl). cbn [denote]. destruct H as [-> | ->]; reflexivity.
Qed.
Print Assumptions C10_absent_request_value_unresolvable.

(* a template is UNRESOLVABLE only through an UNRESOLVABLE part: falsy parts (0, empty string, False, None) do not poison it *)
Theorem C10_template_resolvable : forall vs, existsb is_unres vs = false -> combine vs <> VUnres.
Proof.
  intros vs H. destruct vs as [|v [|w r]].
  - cbn. discriminate.
  - cbn [combine]. cbn [existsb] in H. rewrite orb_false_r in H. destruct v; discriminate.
  - unfold combine. rewrite H. destruct (join_parts (v :: w :: r)); discriminate.
Qed.
Print Assumptions C10_template_resolvable.

(* end to end: the (last) link parameter c.n: $request.<loc>.<name> puts exactly the source request's value, falsy or not, into
   container c of the derived case, whatever the generator offers for other names (exclude contract) *)
Theorem C10_link_carries_source_value : forall rx_ok rx_extract cx loc name c n v gen ps mb mm,
  name_ok name = true -> source_param cx loc name = Some v -> v <> PJ JNull ->
  (forall excl g, In n excl -> gen excl = Some g -> assoc_get n g = None) ->
  exists f,
    final_container (kwargs_of (extract_parameters rx_ok rx_extract cx
                       {| l_params := ps ++ [plain_param c n loc name]; l_body := mb; l_merge := mm |})) c gen = Some f
    /\ assoc_get n f = Some (value_of_pval v) /\ value_of_pval v <> VUnres.
Proof.
  intros rx_ok rx_extract cx loc name c n v gen ps mb mm Hn Hs Hv Hg.
  destruct (C10_request_value_denotes rx_ok rx_extract cx loc name v Hn Hs Hv) as [He Hu].
  assert (Hsend : sendable (XOk (value_of_pval v)) = Some (value_of_pval v)).
  { destruct v as [[]|]; try reflexivity. contradiction Hv. reflexivity. }
  (* the last parameter is evaluated last, into the inner dict of container c *)
  rewrite extract_parameters_last. unfold plain_param. cbn [lp_container lp_name lp_expr evaluate]. rewrite He. cbn [to_xval].
  destruct (kwargs_set_extracted c n _ _ (extract_parameters rx_ok rx_extract cx {| l_params := ps; l_body := mb; l_merge := mm |}) Hsend)
    as (d & Hc & Hd).
  destruct (C10_link_values_override_generated _ c d n _ gen Hc Hd) as [f [F1 F2]].
  - intros g G. exact (Hg _ _ (in_map fst _ _ (assoc_get_in _ _ _ Hd)) G).
  - exists f. split; [exact F1|]. split; [exact F2|exact Hu].
Qed.
Print Assumptions C10_link_carries_source_value.

(* HISTORIES of evaluations on ONE link object (OpenApiLink.extract is memoised per source case id, a Transition holds references
   to its inner dicts): for every sequence of source exchanges, with repeats and in any interleaving, the k-th Transition returned -
   read when it is returned AND read again after the whole sequence - is the fresh extraction on its own source exchange: parent id,
   parameters and body are a function of that exchange only, whatever the link evaluated in between, whatever the cache size.
   Hypothesis: the case id identifies the exchange (it is what the memo is keyed by). *)
Theorem C10_link_extraction_independent_of_history :
  forall (src : Type) (cid : src -> N) (fresh : src -> extracted) (fresh_body : src -> option xval) (cap : nat) (containers : list str),
  (forall x y, cid x = cid y -> fresh_view src cid fresh fresh_body x = fresh_view src cid fresh fresh_body y) ->
  forall xs : list src,
    views_at_return src cid fresh fresh_body cap false containers xs = map (fresh_view src cid fresh fresh_body) xs /\
    views_at_end src cid fresh fresh_body cap false containers xs = map (fresh_view src cid fresh fresh_body) xs.
Proof. exact link_extraction_independent_of_history. Qed.
Print Assumptions C10_link_extraction_independent_of_history.

(* the instance the harness executes against OpenApiLink.extract: sources named by their case id in a table of exchanges,
   extraction = extract_parameters / extract_body of the link, lru_cache(8); no hypothesis left *)
Theorem C10_link_history_denotes : forall rx_ok rx_extract l tbl xs,
  link_history rx_ok rx_extract l false tbl xs
  = (link_fresh_views rx_ok rx_extract l tbl xs, link_fresh_views rx_ok rx_extract l tbl xs).
Proof.
  intros rx_ok rx_extract l tbl xs. unfold link_history, link_fresh_views.
  destruct (C10_link_extraction_independent_of_history N (fun k => k)
              (fun k : N => extract_parameters rx_ok rx_extract (ctx_at tbl k) l)
              (fun k : N => extract_body rx_ok rx_extract (ctx_at tbl k) l) 8 (link_containers l)
              (fun x y H => f_equal _ H) xs) as [H1 H2].
  rewrite H1, H2. reflexivity.
Qed.
Print Assumptions C10_link_history_denotes.

(* regression sentinel: inner dicts built once per link object and shared by all its Transitions (shallow copy of a prebuilt
   container layout).  Witness [A; B; A], query.id = $response.body#/id, response ids 1 and 2: the third Transition (memo hit
   for A) says id 2 under parent A, and re-read at the end the first one says id 2 as well; [A; A; B; B] does not show it *)
Theorem C10_link_shared_containers_sentinel :
  link_fresh_views rx_any rx_none link_id [cx_id 1; cx_id 2] [0%N; 1%N; 0%N] = [view_id 0 1; view_id 1 2; view_id 0 1] /\
  link_history rx_any rx_none link_id false [cx_id 1; cx_id 2] [0%N; 1%N; 0%N]
  = ([view_id 0 1; view_id 1 2; view_id 0 1], [view_id 0 1; view_id 1 2; view_id 0 1]) /\
  link_history rx_any rx_none link_id true [cx_id 1; cx_id 2] [0%N; 1%N; 0%N]
  = ([view_id 0 1; view_id 1 2; view_id 0 2], [view_id 0 2; view_id 1 2; view_id 0 2]) /\
  fst (link_history rx_any rx_none link_id true [cx_id 1; cx_id 2] [0%N; 0%N; 1%N; 1%N])
  = [view_id 0 1; view_id 0 1; view_id 1 2; view_id 1 2].
Proof. repeat split; vm_compute; reflexivity. Qed.
Print Assumptions C10_link_shared_containers_sentinel.
