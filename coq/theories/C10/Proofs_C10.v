(* C10: what the model's definitions do on the inputs the property theorems speak of, the general theorems behind those, and
   the witnesses, in the order of Properties_C10.v after a few facts about lists and association lists.  Two threads end in an
   example rather than a property theorem: pointers of one token (an index beyond the digit limit of int()) and the falsy
   values of request parameters. *)
From Coq Require Import List NArith ZArith Bool Lia.
From Verif Require Import Common.Str Common.Json Common.Lists C10.Model_C10.
Import ListNotations.
Open Scope N_scope.

Lemma skipn_length_app {A} (a b : list A) : skipn (length a) (a ++ b) = b.
Proof. induction a as [|x a IH]; [reflexivity|exact IH]. Qed.

Lemma In_firstn {A} n (l : list A) x : In x (firstn n l) -> In x l.
Proof.
  intros H. rewrite <- (firstn_skipn n l). apply in_or_app. left. exact H.
Qed.

Lemma Forall2_map_eq {A B C} (f : A -> C) (g : B -> C) l1 l2 :
  Forall2 (fun a b => f a = g b) l1 l2 -> map f l1 = map g l2.
Proof. induction 1; cbn [map]; congruence. Qed.

Lemma assoc_set_in {A} k (w : A) l n v : In (n, v) (assoc_set k w l) -> (n, v) = (k, w) \/ In (n, v) l.
Proof.
  induction l as [|[k' v'] l IH]; cbn [assoc_set].
  - intros [H|[]]. left. symmetry. exact H.
  - destruct (str_eqb k k').
    + intros [H|H]; [left; symmetry; exact H|right; right; exact H].
    + intros [H|H]; [right; left; exact H|]. destruct (IH H) as [G|G]; [left; exact G|right; right; exact G].
Qed.

Lemma assoc_update_in {A} (upd base : list (str * A)) n v :
  In (n, v) (assoc_update base upd) -> In (n, v) base \/ In (n, v) upd.
Proof.
  unfold assoc_update. revert base. induction upd as [|[k w] upd IH]; intros base H; [left; exact H|].
  cbn [fold_left] in H. destruct (IH _ H) as [G|G].
  - cbn [fst snd] in G. destruct (assoc_set_in _ _ _ _ _ G) as [E|E]; [right; left; symmetry; exact E|left; exact E].
  - right. right. exact G.
Qed.

Lemma assoc_get_none_set {A} n k (w : A) l : assoc_get n l = None -> str_eqb n k = false -> assoc_get n (assoc_set k w l) = None.
Proof. intros H E. rewrite assoc_get_set_other by exact E. exact H. Qed.

Lemma assoc_get_map_snd {A B} (f : A -> B) c (e : list (str * A)) :
  assoc_get c (map (fun cd => (fst cd, f (snd cd))) e) = option_map f (assoc_get c e).
Proof.
  induction e as [|[k a] e IH]; [reflexivity|]. cbn [map assoc_get fst snd]. destruct (str_eqb c k); [reflexivity|exact IH].
Qed.

Lemma replace2_miss_head a b by_ x s : N.eqb x a = false -> replace2 a b by_ (x :: s) = x :: replace2 a b by_ s.
Proof. intros H. destruct s as [|y s]; cbn [replace2]; [reflexivity|]. rewrite H. reflexivity. Qed.

Lemma replace2_hit a b by_ s : replace2 a b by_ (a :: b :: s) = by_ ++ replace2 a b by_ s.
Proof. cbn [replace2]. rewrite !N.eqb_refl. reflexivity. Qed.

Lemma replace2_miss_second a b by_ x y s : N.eqb y b = false -> replace2 a b by_ (x :: y :: s) = x :: replace2 a b by_ (y :: s).
Proof. intros H. cbn [replace2]. rewrite H, andb_false_r. reflexivity. Qed.

Lemma replace2_absent a b by_ s : ~ In a s -> replace2 a b by_ s = s.
Proof.
  induction s as [|x s IH]; intros Hn; [reflexivity|].
  rewrite replace2_miss_head, IH; [reflexivity|intros H; apply Hn; right; exact H|].
  apply N.eqb_neq. intros ->. apply Hn. left. reflexivity.
Qed.

Definition esc_char (c : N) : str := if N.eqb c TILDE then [TILDE; 48] else if N.eqb c SLASH then [TILDE; 49] else [c].

Lemma escape_flat s : escape s = flat_map esc_char s.
Proof.
  unfold escape, replace_char. induction s as [|c s IH]; [reflexivity|].
  cbn [flat_map]. rewrite flat_map_app, IH. f_equal.
  unfold esc_char. destruct (N.eqb c TILDE) eqn:E1.
  - reflexivity.
  - cbn [flat_map]. destruct (N.eqb c SLASH); reflexivity.
Qed.

Definition esc_tilde_char (c : N) : str := if N.eqb c TILDE then [TILDE; 48] else [c].

Lemma replace_tilde1_escaped s : replace2 TILDE 49 [SLASH] (flat_map esc_char s) = flat_map esc_tilde_char s.
Proof.
  induction s as [|c s IH]; [reflexivity|].
  cbn [flat_map]. unfold esc_char at 1, esc_tilde_char at 1.
  destruct (N.eqb c TILDE) eqn:E1.
  - cbn [app]. rewrite replace2_miss_second by reflexivity.
    rewrite replace2_miss_head by reflexivity. rewrite IH. reflexivity.
  - destruct (N.eqb c SLASH) eqn:E2.
    + apply N.eqb_eq in E2. subst c. cbn [app]. rewrite replace2_hit, IH. reflexivity.
    + cbn [app]. rewrite replace2_miss_head by exact E1. rewrite IH. reflexivity.
Qed.

Lemma replace_tilde0_tilde_escaped s : replace2 TILDE 48 [TILDE] (flat_map esc_tilde_char s) = s.
Proof.
  induction s as [|c s IH]; [reflexivity|].
  cbn [flat_map]. unfold esc_tilde_char at 1. destruct (N.eqb c TILDE) eqn:E1.
  - apply N.eqb_eq in E1. subst c. cbn [app]. rewrite replace2_hit, IH. reflexivity.
  - cbn [app]. rewrite replace2_miss_head by exact E1. rewrite IH. reflexivity.
Qed.

Lemma is_digit_bounds c : is_digit c = true -> 48 <= c /\ c <= 57.
Proof. unfold is_digit. rewrite andb_true_iff, !N.leb_le. tauto. Qed.

Lemma nonzero_is_digit c : (49 <=? c) && (c <=? 57) = true -> is_digit c = true.
Proof. unfold is_digit. rewrite !andb_true_iff, !N.leb_le. lia. Qed.

Lemma to_ascii_digits t : forallb is_digit t = true -> to_ascii t = Some t.
Proof.
  induction t as [|c t IH]; [reflexivity|]. cbn [forallb]. rewrite andb_true_iff. intros [Hc Ht].
  cbn [to_ascii]. rewrite (IH Ht). unfold to_ascii_char.
  apply is_digit_bounds in Hc. destruct (c <? 128) eqn:E; [reflexivity|]. apply N.ltb_ge in E. lia.
Qed.

Lemma digit_not_ws c : is_digit c = true -> mem c ascii_ws = false.
Proof.
  intros H. apply is_digit_bounds in H. apply not_true_is_false. rewrite mem_spec. unfold ascii_ws. cbn [In]. lia.
Qed.

(* the number a run of decimal digits denotes, read left to right onto acc *)
Definition dec_val (t : str) (acc : N) : N := fold_left (fun a c => a * 10 + (c - 48)) t acc.

Lemma digits_acc_digits t : forall acc cnt prev, forallb is_digit t = true -> prev = true \/ t <> [] ->
  digits_acc t acc cnt prev = Some (dec_val t acc, cnt + N.of_nat (length t)).
Proof.
  induction t as [|c t IH]; intros acc cnt prev Hd Hne.
  - destruct Hne as [-> | Hne]; [|congruence]. cbn. rewrite N.add_0_r. reflexivity.
  - apply andb_true_iff in Hd. destruct Hd as [Hc Ht].
    cbn [digits_acc]. rewrite Hc, (IH _ _ true Ht) by (left; reflexivity).
    cbn [dec_val fold_left length]. f_equal. f_equal. lia.
Qed.

Lemma dec_val_lower t : forall acc, acc * 10 ^ N.of_nat (length t) <= dec_val t acc.
Proof.
  induction t as [|c t IH]; intros acc.
  - cbn. lia.
  - cbn [length dec_val fold_left]. rewrite Nat2N.inj_succ, N.pow_succ_r'.
    etransitivity; [|apply IH]. rewrite N.mul_assoc. apply N.mul_le_mono_r. lia.
Qed.

Lemma py_int_digits t : forallb is_digit t = true -> t <> [] ->
  py_int t = if MAX_STR_DIGITS <? N.of_nat (length t) then None else Some (Z.of_N (dec_val t 0)).
Proof.
  intros Hd Hne. unfold py_int. rewrite (to_ascii_digits _ Hd).
  rewrite strip_none by (intros c Hc; apply digit_not_ws; exact (proj1 (forallb_forall _ _) Hd c Hc)).
  destruct t as [|x t]; [congruence|].
  assert (Hx : is_digit x = true) by (cbn [forallb] in Hd; apply andb_true_iff in Hd; tauto).
  apply is_digit_bounds in Hx.
  destruct (N.eqb_spec x 45); [lia|]. destruct (N.eqb_spec x 43); [lia|].
  rewrite (digits_acc_digits _ 0 0 false Hd) by (right; exact Hne). reflexivity.
Qed.

Lemma canonical_index_inv t i : canonical_index t = Some i ->
  forallb is_digit t = true /\ t <> [] /\ i = Z.of_N (dec_val t 0).
Proof.
  unfold canonical_index. destruct t as [|c r]; [discriminate|].
  destruct ((N.eqb c 48 && match r with [] => true | _ => false end) || ((49 <=? c) && (c <=? 57) && forallb is_digit r)) eqn:E; [|discriminate].
  assert (Hd : forallb is_digit (c :: r) = true).
  { apply orb_true_iff in E. destruct E as [E|E].
    - apply andb_true_iff in E. destruct E as [E1 E2]. apply N.eqb_eq in E1. subst c. destruct r; [reflexivity|discriminate].
    - apply andb_true_iff in E. destruct E as [E Hr]. cbn [forallb]. rewrite (nonzero_is_digit _ E), Hr. reflexivity. }
  rewrite (digits_acc_digits _ 0 0 false Hd) by (right; discriminate).
  intros H. inversion H. repeat split; [exact Hd|discriminate].
Qed.

Lemma canonical_index_of_digits c r : (49 <=? c) && (c <=? 57) = true -> forallb is_digit r = true ->
  exists i, canonical_index (c :: r) = Some i /\ (Z.of_N (10 ^ N.of_nat (length r)) <= i)%Z.
Proof.
  intros Hc Hr. exists (Z.of_N (dec_val r (c - 48))). split.
  - unfold canonical_index. rewrite Hc, Hr, orb_true_r.
    assert (Hd : forallb is_digit (c :: r) = true) by (cbn [forallb]; rewrite (nonzero_is_digit _ Hc), Hr; reflexivity).
    rewrite (digits_acc_digits _ 0 0 false Hd) by (right; discriminate). reflexivity.
  - apply (proj1 (N2Z.inj_le _ _)). etransitivity; [|apply dec_val_lower].
    rewrite <- (N.mul_1_l (10 ^ _)) at 1. apply N.mul_le_mono_r.
    apply andb_true_iff in Hc. destruct Hc as [Hc _]. apply N.leb_le in Hc. lia.
Qed.

Lemma py_int_canonical t i : canonical_index t = Some i -> (N.of_nat (length t) <=? MAX_STR_DIGITS) = true ->
  py_int t = Some i.
Proof.
  intros H Hlen. destruct (canonical_index_inv _ _ H) as (Hd & Hne & ->).
  rewrite (py_int_digits _ Hd Hne). apply N.leb_le in Hlen.
  destruct (N.ltb_spec MAX_STR_DIGITS (N.of_nat (length t))); [lia|reflexivity].
Qed.

(* for an index that is not negative the wrap-around of list.__getitem__ is dead: what is left is the bounds check of step_rfc *)
Lemma py_index_nonneg l i : (0 <= i)%Z ->
  py_index l i = if (i <? Z.of_nat (length l))%Z then nth_error l (Z.to_nat i) else None.
Proof.
  intros Hi. apply Z.ltb_ge in Hi. unfold py_index. rewrite Hi. cbn iota. rewrite Hi. cbn [orb].
  destruct (Z.leb_spec (Z.of_nat (length l)) i), (Z.ltb_spec i (Z.of_nat (length l))); try reflexivity; lia.
Qed.

Lemma step_py_rfc d t : (N.of_nat (length t) <=? MAX_STR_DIGITS) = true ->
  step_py d t = step_rfc d t \/ exists l, d = JArr l /\ canonical_index t = None.
Proof.
  intros Hlen. destruct d as [| | | |l|]; try (left; reflexivity).
  destruct (canonical_index t) as [i|] eqn:C; [left|right; exists l; split; reflexivity].
  cbn [step_py step_rfc]. rewrite C, (py_int_canonical _ _ C Hlen). apply py_index_nonneg.
  destruct (canonical_index_inv _ _ C) as (_ & _ & ->). lia.
Qed.

Lemma lenient_hit_walk_cons d t r : lenient_hit_walk d (t :: r) = false ->
  step_py d t = None \/
  exists x, step_py d t = Some x /\ lenient_hit_walk x r = false /\ forall l, d = JArr l -> canonical_index t <> None.
Proof.
  cbn [lenient_hit_walk]. destruct (step_py d t) as [x|]; [right; exists x|left; reflexivity].
  destruct d as [| | | |l|]; try (split; [reflexivity|split; [assumption|discriminate]]).
  destruct (canonical_index t); [|discriminate]. split; [reflexivity|split; [assumption|discriminate]].
Qed.

Lemma walk_agree toks : forall d,
  forallb (fun t => N.of_nat (length t) <=? MAX_STR_DIGITS) toks = true ->
  lenient_hit_walk d toks = false -> walk step_py d toks = walk step_rfc d toks.
Proof.
  induction toks as [|t r IH]; intros d Hs Hl; [reflexivity|].
  apply andb_true_iff in Hs. destruct Hs as [Ht Hr]. cbn [walk].
  destruct (lenient_hit_walk_cons _ _ _ Hl) as [N | (x & S & Hx & Hc)].
  - (* the int() step fails: so does the RFC step, which is the same or fails for want of a canonical index *)
    rewrite N. destruct (step_py_rfc d t Ht) as [A | (l & -> & C)]; [rewrite <- A, N; reflexivity|].
    cbn [step_rfc]. rewrite C. reflexivity.
  - (* it succeeds, on an array with a canonical index: the steps agree and the walks go on from x *)
    destruct (step_py_rfc d t Ht) as [A | (l & -> & C)]; [|destruct (Hc l eq_refl C)].
    rewrite <- A, S. exact (IH x Hr Hx).
Qed.

Lemma step_impl_agree target t : step_impl target t = w_of_opt (step_rfc target t).
Proof.
  destruct target; try reflexivity. cbn [step_impl step_rfc].
  destruct (canonical_index t) as [i|]; [|reflexivity]. destruct (i <? Z.of_nat (length l))%Z; reflexivity.
Qed.

Lemma walk_w_agree toks : forall d, walk_w d toks = w_of_opt (walk step_rfc d toks).
Proof.
  induction toks as [|t r IH]; intros d; [reflexivity|].
  cbn [walk_w walk]. rewrite (step_impl_agree d t). destruct (step_rfc d t) as [x|]; cbn [w_of_opt]; [apply IH|reflexivity].
Qed.

Lemma pointer_rfc6901_partial d p : valid_escapes p = true -> resolve_pointer d p = w_of_opt (rfc6901 d p).
Proof.
  intros Hv. unfold resolve_pointer, rfc6901. destruct p as [|c p]; [reflexivity|].
  destruct (N.eqb c SLASH) eqn:E; [|reflexivity]. cbn [andb]. rewrite Hv. apply walk_w_agree.
Qed.

Lemma valid_escapes_absent s : ~ In TILDE s -> valid_escapes s = true.
Proof.
  induction s as [|x s IH]; intros Hn; [reflexivity|]. cbn [valid_escapes].
  destruct (N.eqb_spec x TILDE) as [->|_]; [exfalso; apply Hn; left; reflexivity|].
  apply IH. intros H. apply Hn. right. exact H.
Qed.

Lemma one_token_pointer d t : ~ In SLASH t -> ~ In TILDE t ->
  valid_escapes (SLASH :: t) = true /\
  short_tokens (SLASH :: t) = (N.of_nat (length t) <=? MAX_STR_DIGITS) /\
  rfc6901 d (SLASH :: t) = step_rfc d t.
Proof.
  intros Hs Ht.
  assert (Hv : valid_escapes (SLASH :: t) = true) by (apply valid_escapes_absent; intros [H|H]; [discriminate H|exact (Ht H)]).
  assert (Htok : map unescape (pointer_tokens (SLASH :: t)) = [t]).
  { unfold pointer_tokens. change (SLASH :: t) with ([] ++ SLASH :: t).
    rewrite split_on_app, (split_on_nosep _ _ Hs). cbn [split_on split_on_aux rev app tl map]. unfold unescape.
    rewrite (replace2_absent TILDE 49), (replace2_absent TILDE 48); [reflexivity|exact Ht|exact Ht]. }
  unfold short_tokens, rfc6901. rewrite Hv, Htok, N.eqb_refl. cbn [forallb walk andb].
  rewrite andb_true_r. repeat split. destruct (step_rfc d t); reflexivity.
Qed.

(* an index of more than 4300 digits is not below 10^4300: on an array within the modelling assumption of step_impl it is
   out of range for RFC 6901, hence (the escapes being valid) UNRESOLVABLE for resolve_pointer: the ValueError of int() is caught
   like the IndexError (commit 6e969657) *)
Lemma overlong_index_unresolvable l c r :
  (49 <=? c) && (c <=? 57) = true -> forallb is_digit r = true ->
  MAX_STR_DIGITS <= N.of_nat (length r) -> N.of_nat (length l) <= 10 ^ MAX_STR_DIGITS ->
  valid_escapes (SLASH :: c :: r) = true /\ short_tokens (SLASH :: c :: r) = false /\
  resolve_pointer (JArr l) (SLASH :: c :: r) = WUnres /\ rfc6901 (JArr l) (SLASH :: c :: r) = None.
Proof.
  intros Hc Hr Hlen Hl.
  assert (Hd : forall x, In x (c :: r) -> is_digit x = true).
  { intros x [<-|Hx]; [exact (nonzero_is_digit _ Hc)|exact (proj1 (forallb_forall _ _) Hr x Hx)]. }
  destruct (one_token_pointer (JArr l) (c :: r)) as (Hv & Hs & Hrfc); [intros H; apply Hd in H; discriminate H..|].
  destruct (canonical_index_of_digits c r Hc Hr) as (i & Hi & Hlow).
  assert (Hout : (i <? Z.of_nat (length l))%Z = false).
  { apply Z.ltb_ge. etransitivity; [|exact Hlow]. rewrite <- nat_N_Z. apply (proj1 (N2Z.inj_le _ _)).
    etransitivity; [exact Hl|]. apply N.pow_le_mono_r; [discriminate|exact Hlen]. }
  assert (Hnone : rfc6901 (JArr l) (SLASH :: c :: r) = None) by (rewrite Hrfc; cbn [step_rfc]; rewrite Hi, Hout; reflexivity).
  rewrite (pointer_rfc6901_partial _ _ Hv), Hnone, Hv, Hs. repeat split.
  apply N.leb_gt. cbn [length]. lia.
Qed.

Definition d_a123 : json := JObj [([97], JArr [JInt 1; JInt 2; JInt 3])].
Definition p_neg : str := [47;97;47;45;49].            (* /a/-1 *)
Definition d_10_20 : json := JArr [JInt 10; JInt 20].
Definition p_space : str := [47;32;49].                (* / 1 *)
Definition d_0_19 : json := JArr (map (fun n => JInt (Z.of_nat n)) (seq 0 20)).
Definition p_under : str := [47;49;95;48].             (* /1_0 *)
Definition d_tilde : json := JObj [([97;126;50], JInt 1)].
Definition p_tilde : str := [47;97;126;50].            (* /a~2 *)

Definition p_long : str := SLASH :: repeat 49 (N.to_nat 4301).      (* / followed by 4301 times the digit 1 *)
Lemma pointer_long_index_unresolvable :
  valid_escapes p_long = true /\ short_tokens p_long = false /\ resolve_pointer d_10_20 p_long = WUnres /\ rfc6901 d_10_20 p_long = None.
Proof.
  (* the token is the digit 1 followed by 4300 more; neither number is unfolded *)
  unfold p_long, d_10_20. replace (N.to_nat 4301) with (S (N.to_nat 4300)) by (symmetry; exact (N2Nat.inj_succ 4300)).
  cbn [repeat]. apply (overlong_index_unresolvable [JInt 10; JInt 20] 49 (repeat 49 (N.to_nat 4300)) eq_refl).
  - apply forallb_forall. intros x Hx. apply repeat_spec in Hx. subst x. reflexivity.
  - rewrite repeat_length, N2Nat.id. apply N.le_refl.
  - apply (N.le_trans _ (10 ^ 1)); [discriminate|]. apply N.pow_le_mono_r; discriminate.
Qed.

(* a pointer with escapes and a canonical index inside the region *)
Example pointer_partial_nonvacuous :
  let d := JObj [([97;47;98], JArr [JInt 5; JObj [([109;126;110], JInt 9)]])] in
  let p := [47;97;126;49;98;47;49;47;109;126;48;110] in     (* /a~1b/1/m~0n *)
  valid_escapes p = true /\ resolve_pointer d p = WOk (JInt 9).
Proof. vm_compute. repeat split. Qed.

Lemma all_some_map {A B} (f : A -> option B) (g : A -> B) l :
  (forall x, In x l -> f x = Some (g x)) -> all_some (map f l) = Some (map g l).
Proof.
  induction l as [|x l IH]; intros H; [reflexivity|].
  cbn [map all_some]. rewrite (H x (or_introl eq_refl)), IH; [reflexivity|].
  intros y Hy. apply H. right. exact Hy.
Qed.

Lemma in_product3 (A B C : list N) t :
  In t (product [A; B; C]) <-> exists x y z, t = [x; y; z] /\ In x A /\ In y B /\ In z C.
Proof.
  cbn [product]. rewrite in_flat_map. split.
  - intros (x & Hx & H). apply in_map_iff in H. destruct H as (t1 & <- & H).
    apply in_flat_map in H. destruct H as (y & Hy & H). apply in_map_iff in H. destruct H as (t2 & <- & H).
    apply in_flat_map in H. destruct H as (z & Hz & [<- | []]). exists x, y, z. tauto.
  - intros (x & y & z & -> & Hx & Hy & Hz). exists x. split; [exact Hx|]. apply in_map.
    apply in_flat_map. exists y. split; [exact Hy|]. apply in_map.
    apply in_flat_map. exists z. split; [exact Hz|]. left. reflexivity.
Qed.

Lemma digit_chars_spec x : In x digit_chars <-> is_digit x = true.
Proof.
  split.
  - unfold digit_chars. cbn [In]. intuition (subst; reflexivity).
  - intros H. apply is_digit_bounds in H.
    assert (x = 48 \/ x = 49 \/ x = 50 \/ x = 51 \/ x = 52 \/ x = 53 \/ x = 54 \/ x = 55 \/ x = 56 \/ x = 57) as Hx by lia.
    unfold digit_chars. cbn [In]. intuition.
Qed.

(* x is a decimal digit that the key character a admits: a digit itself, X or x any digit *)
Definition digit_for (a x : N) : Prop := is_digit x = true /\ digit_matches a (Z.of_N (x - 48)) = true.

(* the characters the implementation tries at a position of the upper-cased key *)
Definition key_choices (c : N) : list N := if N.eqb c 88 then digit_chars else [c].

Lemma key_choices_spec a x : key_char_ok a = true -> (In x (key_choices (upper_c a)) <-> digit_for a x).
Proof.
  unfold key_char_ok, digit_for. rewrite !orb_true_iff, !N.eqb_eq. intros [[Ha | ->] | ->].
  - (* a is a digit: upper() leaves it alone, and it stands for itself *)
    pose proof (is_digit_bounds _ Ha) as Hb.
    unfold upper_c, is_lower, key_choices, digit_matches. rewrite Ha.
    destruct (N.leb_spec 97 a); [lia|]. cbn [andb]. destruct (N.eqb_spec a 88); [lia|].
    cbn [In]. rewrite Z.eqb_eq. split.
    + intros [<- | []]. split; [exact Ha|reflexivity].
    + intros [Hx E]. apply is_digit_bounds in Hx. left. lia.
  - (* a is X *) change (key_choices (upper_c 88)) with digit_chars. rewrite digit_chars_spec. cbn. tauto.
  - (* a is x, which upper() turns into X *) change (key_choices (upper_c 120)) with digit_chars. rewrite digit_chars_spec. cbn. tauto.
Qed.

Lemma digit_of v : (0 <= v < 10)%Z -> exists x, is_digit x = true /\ Z.of_N (x - 48) = v.
Proof. intros Hv. exists (48 + Z.to_N v). unfold is_digit. rewrite andb_true_iff, !N.leb_le. lia. Qed.

Lemma dec_val3 a b c x y z : digit_for a x -> digit_for b y -> digit_for c z ->
  Z.of_N (dec_val [x; y; z] 0) = (100 * Z.of_N (x - 48) + 10 * Z.of_N (y - 48) + Z.of_N (z - 48))%Z.
Proof. intros [Dx _] [Dy _] [Dz _]. apply is_digit_bounds in Dx, Dy, Dz. cbn [dec_val fold_left]. lia. Qed.

(* the codes a three-character key stands for: one admitted digit per position.  Both the expansion of the
   implementation and the reference meaning of the key come to this. *)
Definition key_code (a b c : N) (code : Z) : Prop :=
  exists x y z, digit_for a x /\ digit_for b y /\ digit_for c z /\
                code = (100 * Z.of_N (x - 48) + 10 * Z.of_N (y - 48) + Z.of_N (z - 48))%Z.

Lemma expand_status_code3 a b c :
  expand_status_code [a; b; c]
  = all_some (map py_int (product [key_choices (upper_c a); key_choices (upper_c b); key_choices (upper_c c)])).
Proof. reflexivity. Qed.

Lemma expand_key_code a b c : key_char_ok a = true -> key_char_ok b = true -> key_char_ok c = true ->
  exists l, expand_status_code [a; b; c] = Some l /\ forall code, In code l <-> key_code a b c code.
Proof.
  intros Ha Hb Hc.
  assert (Hcs : forall t, In t (product [key_choices (upper_c a); key_choices (upper_c b); key_choices (upper_c c)]) <->
            exists x y z, t = [x; y; z] /\ digit_for a x /\ digit_for b y /\ digit_for c z).
  { intros t. rewrite in_product3.
    split; intros (x & y & z & E & Hx & Hy & Hz); exists x, y, z;
      rewrite (key_choices_spec a x Ha), (key_choices_spec b y Hb), (key_choices_spec c z Hc) in *; tauto. }
  exists (map (fun t => Z.of_N (dec_val t 0)) (product [key_choices (upper_c a); key_choices (upper_c b); key_choices (upper_c c)])).
  split.
  - rewrite expand_status_code3. apply all_some_map.
    intros t Ht. apply Hcs in Ht. destruct Ht as (x & y & z & -> & [Dx _] & [Dy _] & [Dz _]).
    rewrite py_int_digits; [reflexivity| |discriminate]. cbn [forallb]. rewrite Dx, Dy, Dz. reflexivity.
  - intros code. rewrite in_map_iff. unfold key_code. split.
    + intros (t & <- & Ht). apply Hcs in Ht. destruct Ht as (x & y & z & -> & Hx & Hy & Hz).
      exists x, y, z. exact (conj Hx (conj Hy (conj Hz (dec_val3 a b c x y z Hx Hy Hz)))).
    + intros (x & y & z & Hx & Hy & Hz & ->). exists [x; y; z]. split; [exact (dec_val3 a b c x y z Hx Hy Hz)|].
      apply Hcs. exists x, y, z. tauto.
Qed.

Lemma key_matches_code a b c code : key_matches [a; b; c] code = true <-> key_code a b c code.
Proof.
  unfold key_matches, key_code, digit_for. rewrite !andb_true_iff, Z.leb_le, Z.ltb_lt. split.
  - intros [[[[L U] Mx] My] Mz].
    assert (E : (code = 100 * (code / 100) + 10 * ((code / 10) mod 10) + code mod 10 /\ 0 <= code / 100 < 10
                 /\ 0 <= (code / 10) mod 10 < 10 /\ 0 <= code mod 10 < 10)%Z) by (Z.div_mod_to_equations; lia).
    destruct E as (E & R1 & R2 & R3).
    destruct (digit_of _ R1) as (x & Dx & Vx), (digit_of _ R2) as (y & Dy & Vy), (digit_of _ R3) as (z & Dz & Vz).
    exists x, y, z. rewrite Vx, Vy, Vz. tauto.
  - intros (x & y & z & [Dx Mx] & [Dy My] & [Dz Mz] & E). apply is_digit_bounds in Dx, Dy, Dz.
    assert (E' : (0 <= code < 1000 /\ code / 100 = Z.of_N (x - 48) /\ (code / 10) mod 10 = Z.of_N (y - 48)
                  /\ code mod 10 = Z.of_N (z - 48))%Z) by (Z.div_mod_to_equations; lia).
    destruct E' as (R & -> & -> & ->). tauto.
Qed.

Lemma expand_spec k code : wf_key k = true ->
  exists l, expand_status_code k = Some l /\ existsb (Z.eqb code) l = key_matches k code.
Proof.
  destruct k as [|a [|b [|c [|? ?]]]]; try discriminate. cbn [wf_key]. intros H.
  apply andb_true_iff in H. destruct H as [H Hc]. apply andb_true_iff in H. destruct H as [Ha Hb].
  destruct (expand_key_code a b c Ha Hb Hc) as (l & He & Hl). exists l. split; [exact He|].
  apply eq_iff_eq_true. rewrite existsb_exists, key_matches_code. split.
  - intros (v & Hin & E). apply Z.eqb_eq in E. subst v. apply Hl. exact Hin.
  - intros H. exists code. split; [apply Hl; exact H|apply Z.eqb_refl].
Qed.

Lemma match_status_spec k code : wf_key k = true -> match_status_code k code = Some (key_matches k code).
Proof. intros Hk. destruct (expand_spec k code Hk) as [l [He Hm]]. unfold match_status_code. rewrite He, Hm. reflexivity. Qed.

Lemma default_status_code_cons k keys code :
  default_status_code (k :: keys) code =
  if str_eqb k s_default then default_status_code keys code
  else match expand_status_code k, default_status_code keys code with
       | Some l, Some b => Some (negb (existsb (Z.eqb code) l) && b)
       | _, _ => None
       end.
Proof.
  unfold default_status_code. cbn [filter]. destruct (str_eqb k s_default); [reflexivity|]. cbn [negb map all_some].
  destruct (expand_status_code k) as [l|]; [|reflexivity].
  destruct (all_some (map expand_status_code (filter (fun k => negb (str_eqb k s_default)) keys))); [|reflexivity].
  cbn [concat]. rewrite existsb_app, negb_orb. reflexivity.
Qed.

Lemma default_spec keys code : wf_keys keys = true ->
  default_status_code keys code = Some (forallb (fun k => str_eqb k s_default || negb (key_matches k code)) keys).
Proof.
  unfold wf_keys. induction keys as [|k keys IH]; [reflexivity|]. cbn [forallb]. intros H.
  apply andb_true_iff in H. destruct H as [Hk Hr]. rewrite default_status_code_cons, (IH Hr).
  destruct (str_eqb k s_default); [reflexivity|]. destruct (expand_spec k code Hk) as [l [-> ->]]. reflexivity.
Qed.

Lemma response_filter_spec key keys code :
  (str_eqb key s_default || wf_key key) = true -> wf_keys keys = true ->
  response_filter key keys code = Some (spec_matches key keys code).
Proof.
  intros Hk Hks. unfold response_filter, spec_matches. destruct (str_eqb key s_default) eqn:D.
  - apply default_spec. exact Hks.
  - cbn [orb] in Hk. apply match_status_spec. exact Hk.
Qed.

Lemma bundle_sound lks keys code k :
  wf_keys lks = true -> wf_keys keys = true -> bundle_of lks keys code = Some k ->
  In k lks /\ spec_matches k keys code = true.
Proof.
  intros Hl Hks. induction lks as [|x lks IH]; [discriminate|].
  unfold wf_keys in Hl. apply andb_true_iff in Hl. destruct Hl as [Hx Hr].
  cbn [bundle_of]. rewrite (response_filter_spec x keys code Hx Hks).
  destruct (spec_matches x keys code) eqn:S.
  - intros H. inversion H. subst. split; [left; reflexivity|exact S].
  - intros H. destruct (IH Hr H) as [Hin Hm]. split; [right; exact Hin|exact Hm].
Qed.

Lemma outgoing_in_documented op k : In k (outgoing_keys op) -> In k (documented_keys op).
Proof.
  unfold outgoing_keys, documented_keys. intros H. apply in_flat_map in H. destruct H as [[k' n] [Hin Hr]].
  cbn [fst snd] in Hr. apply repeat_spec in Hr. subst. apply in_map_iff. exists (k', n). split; [reflexivity|exact Hin].
Qed.

Example machine_bundle_nonvacuous :
  let op := [([50;48;49], 1%nat); ([52;48;57], 0%nat); (s_default, 1%nat)] in      (* 201: link, 409: none, default: link *)
  wf_keys (documented_keys op) = true /\ machine_bundle op 409 = None /\ machine_bundle op 500 = Some s_default
  /\ machine_bundle op 201 = Some [50;48;49]
  /\ bundle_of (outgoing_keys op) (outgoing_keys op) 409 = Some s_default.     (* what filtering against the link keys only would do *)
Proof. vm_compute. repeat split. Qed.

Example status_nonvacuous :
  wf_keys [[50;48;49]; [50;88;88]; s_default] = true /\
  response_filter [50;88;88] [[50;48;49]; [50;88;88]; s_default] 204 = Some true /\
  response_filter s_default [[50;48;49]; [50;88;88]; s_default] 204 = Some false /\
  response_filter s_default [[50;48;49]; [50;88;88]; s_default] 404 = Some true /\
  bundle_of [[50;88;88]; [50;48;49]] [[50;48;49]; [50;88;88]; s_default] 201 = Some [50;88;88].
Proof. vm_compute. repeat split. Qed.

Lemma is_stop_false c : is_stop c = false ->
  N.eqb c DOLLAR = false /\ N.eqb c DOT = false /\ N.eqb c LB = false /\ N.eqb c RB = false /\ N.eqb c HASH = false.
Proof.
  unfold is_stop, mem. cbn [existsb]. intros H.
  repeat (apply orb_false_iff in H; destruct H as [? H]). repeat split; assumption.
Qed.

Lemma lex_fresh_str c s pos : is_stop c = false -> lex (c :: s) pos None = lex s (S pos) (Some (TStr, [c])).
Proof. intros H. destruct (is_stop_false _ H) as [H1 [H2 [H3 [H4 H5]]]]. cbn [lex]. rewrite H1, H2, H3, H4, H5. reflexivity. Qed.

Lemma lex_step_cont ty acc x s pos : stops ty x = false ->
  lex (x :: s) pos (Some (ty, acc)) = lex s (S pos) (Some (ty, x :: acc)).
Proof. intros H. cbn [lex]. rewrite H. reflexivity. Qed.

Lemma lex_step_stop ty acc c rest pos : stops ty c = true ->
  lex (c :: rest) pos (Some (ty, acc)) = tok ty (rev acc) (pos - 1) :: lex (c :: rest) pos None.
Proof. intros H. cbn [lex]. rewrite H. reflexivity. Qed.

Lemma lex_run_end ty s : forall pos acc, forallb (fun c => negb (stops ty c)) s = true ->
  lex s pos (Some (ty, acc)) = [tok ty (rev acc ++ s) (pos + length s - 1)].
Proof.
  induction s as [|c s IH]; intros pos acc H.
  - cbn [lex length]. rewrite app_nil_r, Nat.add_0_r. reflexivity.
  - apply andb_true_iff in H. destruct H as [Hc Hs]. apply negb_true_iff in Hc.
    rewrite (lex_step_cont _ _ _ _ _ Hc), (IH _ _ Hs). cbn [rev length]. rewrite <- app_assoc, Nat.add_succ_comm. reflexivity.
Qed.

Lemma lex_run_stop ty s : forall pos acc c rest, forallb (fun c => negb (stops ty c)) s = true -> stops ty c = true ->
  lex (s ++ c :: rest) pos (Some (ty, acc)) = tok ty (rev acc ++ s) (pos + length s - 1) :: lex (c :: rest) (pos + length s) None.
Proof.
  induction s as [|x s IH]; intros pos acc c rest H Hc.
  - cbn [app length]. rewrite app_nil_r, !Nat.add_0_r. apply lex_step_stop. exact Hc.
  - apply andb_true_iff in H. destruct H as [Hx Hs]. apply negb_true_iff in Hx.
    cbn [app]. rewrite (lex_step_cont _ _ _ _ _ Hx), (IH _ _ _ _ Hs Hc). cbn [rev length].
    rewrite <- app_assoc, !Nat.add_succ_comm. reflexivity.
Qed.

Lemma no_stop_run ty s : ty <> TPtr -> no_stop s = true -> forallb (fun c => negb (stops ty c)) s = true.
Proof. intros Hty H. unfold no_stop in H. destruct ty; try exact H. congruence. Qed.

Lemma lex_regex_prefix pat pos : lex (s_regex ++ pat) pos None = lex pat (7 + pos) (Some (TPtr, rev s_regex)).
Proof. reflexivity. Qed.

(* name [#regex:pattern] from a token boundary *)
Definition rx_tokens (rx : option str) (e : nat) : list token :=
  match rx with Some pat => [tok TPtr (s_regex ++ pat) (e + 7 + length pat)%nat] | None => [] end.

Lemma lex_name_rx rx_ok name rx k : name_ok name = true -> rx_region rx_ok rx = true ->
  lex (name ++ print_rx rx) k None = tok TStr name (k + length name - 1) :: rx_tokens rx (k + length name - 1)%nat.
Proof.
  intros Hn Hr. destruct name as [|c name]; [discriminate|]. unfold name_ok, no_stop in Hn.
  apply andb_true_iff in Hn. destruct Hn as [Hc Hs]. apply negb_true_iff in Hc.
  cbn [app]. rewrite (lex_fresh_str _ _ _ Hc). destruct rx as [pat|]; cbn [print_rx rx_tokens].
  - unfold rx_region in Hr. apply andb_true_iff in Hr. destruct Hr as [Hp _].
    (* expose the # that stops the name token; the pointer token that starts there takes the rest *)
    change (s_regex ++ pat) with (HASH :: tl s_regex ++ pat).
    rewrite (lex_run_stop TStr name (S k) [c] HASH); [|exact (no_stop_run TStr name ltac:(discriminate) Hs)|reflexivity].
    change (HASH :: tl s_regex ++ pat) with (s_regex ++ pat).
    rewrite lex_regex_prefix, (lex_run_end TPtr pat _ _ Hp). cbn [rev app length]. f_equal; [|f_equal]; f_equal; lia.
  - rewrite app_nil_r, (lex_run_end TStr name _ _ (no_stop_run TStr name ltac:(discriminate) Hs)). cbn [rev app length]. do 2 f_equal. lia.
Qed.

(* expr[end+1:] is the printed extractor; the 7 that take_extractor drops is the length of #regex: *)
Lemma take_extractor_printed rx_ok pre name rx e e2 :
  rx_region rx_ok rx = true -> S e = (length pre + length name)%nat ->
  take_extractor rx_ok (pre ++ name ++ print_rx rx) (rx_tokens rx e2) e = POk (rx, []).
Proof.
  intros Hr He. unfold take_extractor. rewrite He, app_assoc, <- app_length, skipn_length_app.
  destruct rx as [pat|]; cbn [print_rx rx_tokens]; [|reflexivity].
  unfold rx_region in Hr. apply andb_true_iff in Hr. destruct Hr as [_ Hok].
  cbn [tv tok]. rewrite (proj2 (starts_with_spec s_regex (s_regex ++ pat))) by (exists pat; reflexivity).
  change (skipn 7 (s_regex ++ pat)) with (skipn (length s_regex) (s_regex ++ pat)). rewrite skipn_length_app, Hok. reflexivity.
Qed.

(* from here on take_extractor is used through the lemma above only *)
Arguments take_extractor : simpl never.

Lemma parse_param_printed rx_ok pre name rx (mk : str -> option str -> node) k :
  name_ok name = true -> rx_region rx_ok rx = true -> S k = length pre ->
  parse_param rx_ok (pre ++ name ++ print_rx rx)
    (tok TDot [DOT] k :: tok TStr name (S k + length name - 1) :: rx_tokens rx (S k + length name - 1)) mk
  = POk (mk name rx, []).
Proof.
  intros Hn Hr Hk. unfold parse_param. cbn [skip_dot is_ty tkind tok take_string tend tv].
  rewrite (take_extractor_printed rx_ok pre name rx _ _ Hr); [reflexivity|].
  destruct name; [discriminate|]. cbn [length]. lia.
Qed.

(* one variable token that takes all the others *)
Lemma parse_loop_variable rx_ok expr t ts n : tkind t = TVar -> parse_variable rx_ok expr t ts = POk (n, []) ->
  parse_loop rx_ok (S (length (t :: ts))) expr (t :: ts) false = Some (POk [n]).
Proof. intros Hk Hv. cbn [length parse_loop]. rewrite Hk, Hv. reflexivity. Qed.

(* $v.loc.name[#regex:pattern]: what depends on the literal prefix pre = $v.loc. is left to the caller: its length, how it is
   lexed (e0, e1, e2, k = the end index of $v, of the first dot, of loc, of the second dot) and where parse_variable goes on it *)
Lemma parse_printed_param rx_ok pre v e0 e1 loc e2 k name rx mk :
  name_ok name = true -> rx_region rx_ok rx = true -> S k = length pre ->
  (forall rest, lex (pre ++ rest) 0 None
     = tok TVar v e0 :: tok TDot [DOT] e1 :: tok TStr loc e2 :: tok TDot [DOT] k :: lex rest (S k) None) ->
  (forall expr ts, parse_variable rx_ok expr (tok TVar v e0) (tok TDot [DOT] e1 :: tok TStr loc e2 :: ts) = parse_param rx_ok expr ts mk) ->
  parse rx_ok (pre ++ name ++ print_rx rx) = Some (POk [mk name rx]).
Proof.
  intros Hn Hr Hk Hlex Hvar. unfold parse, tokenize. rewrite Hlex, (lex_name_rx rx_ok _ _ _ Hn Hr).
  apply parse_loop_variable; [reflexivity|]. rewrite Hvar. exact (parse_param_printed rx_ok pre name rx mk k Hn Hr Hk).
Qed.

Lemma parse_req_param rx_ok l name rx : name_ok name = true -> rx_region rx_ok rx = true ->
  parse rx_ok (print (RReq l name rx)) = Some (POk [NReq (loc_str l) name rx]).
Proof.
  intros Hn Hr. destruct l; cbn [print loc_str].
  - apply (parse_printed_param rx_ok (s_request ++ [DOT] ++ s_query ++ [DOT]) s_request 7 8 s_query 13 14 name rx (NReq s_query) Hn Hr).
    + reflexivity.
    + intros rest. reflexivity.
    + intros expr ts. reflexivity.
  - apply (parse_printed_param rx_ok (s_request ++ [DOT] ++ s_path ++ [DOT]) s_request 7 8 s_path 12 13 name rx (NReq s_path) Hn Hr).
    + reflexivity.
    + intros rest. reflexivity.
    + intros expr ts. reflexivity.
  - apply (parse_printed_param rx_ok (s_request ++ [DOT] ++ s_header ++ [DOT]) s_request 7 8 s_header 14 15 name rx (NReq s_header) Hn Hr).
    + reflexivity.
    + intros rest. reflexivity.
    + intros expr ts. reflexivity.
Qed.

(* $v.body#pointer, in the same way *)
Lemma parse_printed_body rx_ok pre v e0 e1 e2 k p mk :
  no_rb p = true ->
  lex (pre ++ HASH :: p) 0 None
    = tok TVar v e0 :: tok TDot [DOT] e1 :: tok TStr s_body e2 :: lex p (S k) (Some (TPtr, [HASH])) ->
  (forall expr ts, parse_variable rx_ok expr (tok TVar v e0) (tok TDot [DOT] e1 :: tok TStr s_body e2 :: ts) = parse_body ts mk) ->
  parse rx_ok (pre ++ HASH :: p) = Some (POk [mk (Some (HASH :: p))]).
Proof.
  intros Hp Hlex Hvar. unfold parse, tokenize. rewrite Hlex, (lex_run_end TPtr p _ _ Hp).
  apply parse_loop_variable; [reflexivity|]. rewrite Hvar. reflexivity.
Qed.

Lemma parse_print rx_ok e : simple_expr rx_ok e = true -> parse rx_ok (print e) = Some (POk [node_of e]).
Proof.
  destruct e as [| | |l name rx|p|name rx|p]; cbn [simple_expr]; intros H; try reflexivity.
  - (* $request.<loc>.name *) apply andb_true_iff in H. destruct H as [Hn Hr]. exact (parse_req_param rx_ok l name rx Hn Hr).
  - (* $request.body#pointer *) destruct p as [p|]; [|reflexivity].
    apply (parse_printed_body rx_ok (s_request ++ [DOT] ++ s_body) s_request 7 8 12 13 p NReqBody H).
    + reflexivity.
    + intros expr ts. reflexivity.
  - (* $response.header.name *) apply andb_true_iff in H. destruct H as [Hn Hr].
    apply (parse_printed_param rx_ok (s_response ++ [DOT] ++ s_header ++ [DOT]) s_response 8 9 s_header 15 16 name rx NRespHeader Hn Hr).
    + reflexivity.
    + intros rest. reflexivity.
    + intros expr ts. reflexivity.
  - (* $response.body#pointer *) destruct p as [p|]; [|reflexivity].
    apply (parse_printed_body rx_ok (s_response ++ [DOT] ++ s_body) s_response 8 9 13 14 p NRespBody H).
    + reflexivity.
    + intros expr ts. reflexivity.
Qed.

Lemma extract_agree rx_extract rx v : apply_extractor rx_extract rx v = denote_extract rx_extract rx v.
Proof.
  unfold apply_extractor, denote_extract. destruct rx as [pat|]; [|reflexivity]. destruct v; try reflexivity.
  destruct (rx_extract pat s) as [[|c g]|]; reflexivity.
Qed.

(* where the code DOES look at truthiness: extract(value) or UNRESOLVABLE - a group that matched the empty string counts as no match *)
Lemma extractor_empty_group_unresolvable rx_extract pat s :
  rx_extract pat s = Some [] -> apply_extractor rx_extract (Some pat) (JStr s) = OVal VUnres.
Proof. intros H. cbn [apply_extractor]. rewrite H. reflexivity. Qed.

Lemma eval_node_req rx_extract cx l name ex :
  eval_node rx_extract cx (NReq (loc_str l) name ex)
  = match source_param cx l name with
    | None | Some (PJ JNull) => OVal VUnres
    | Some (PJ v) => apply_extractor rx_extract ex v
    | Some (PFloat r) => match ex with None => OVal (VFloat r) | Some _ => ORaise end
    end.
Proof. destruct l; reflexivity. Qed.

Lemma ptr_outcome_denote doc p : valid_escapes p = true ->
  ptr_outcome (resolve_pointer doc (tl (HASH :: p))) = OVal (denote_ptr doc (Some p)).
Proof. intros Hp. cbn [tl denote_ptr]. rewrite (pointer_rfc6901_partial _ _ Hp). destruct (rfc6901 doc p); reflexivity. Qed.

Lemma eval_node_denote rx_extract cx e : ptr_strict cx e = true ->
  eval_node rx_extract cx (node_of e) = denote rx_extract cx e.
Proof.
  intros Hp. destruct e as [| | |l name rx|p|name rx|p]; cbn [node_of]; try reflexivity.
  - rewrite eval_node_req. cbn [denote]. destruct (source_param cx l name) as [[[]|]|]; try reflexivity; apply extract_agree.
  - destruct p as [p|]; cbn [option_map eval_node denote denote_ptr].
    + cbn [ptr_strict] in Hp. destruct (c_body cx) as [doc| | | |?]; try reflexivity. exact (ptr_outcome_denote doc p Hp).
    + destruct (c_body cx); reflexivity.
  - cbn [eval_node denote]. destruct (assoc_get (lower_ascii name) (r_headers cx)) as [[|v vs]|]; try reflexivity. apply extract_agree.
  - cbn [eval_node denote]. destruct (r_body cx) as [doc|] eqn:B; [|reflexivity]. destruct p as [p|]; cbn [option_map denote_ptr]; [|reflexivity].
    cbn [ptr_strict] in Hp. rewrite B in Hp. exact (ptr_outcome_denote doc p Hp).
Qed.

Lemma eval_denotes_partial rx_ok rx_extract cx e :
  simple_expr rx_ok e = true -> ptr_strict cx e = true ->
  eval_str rx_ok rx_extract cx (print e) = denote rx_extract cx e.
Proof.
  intros Hs Hp. unfold eval_str. rewrite (parse_print rx_ok e Hs). cbn [eval_nodes].
  rewrite (eval_node_denote rx_extract cx e Hp). destruct (denote rx_extract cx e) as [v| |]; reflexivity.
Qed.

Definition request_value (o : option pval) : outcome :=
  match o with
  | None | Some (PJ JNull) => OVal VUnres
  | Some v => OVal (value_of_pval v)
  end.

Lemma request_value_eval rx_ok rx_extract cx l name : name_ok name = true ->
  eval_str rx_ok rx_extract cx (print (RReq l name None)) = request_value (source_param cx l name).
Proof.
  intros Hn. rewrite eval_denotes_partial; [|cbn [simple_expr rx_region]; rewrite Hn; reflexivity|reflexivity].
  cbn [denote]. destruct (source_param cx l name) as [[[]|]|]; reflexivity.
Qed.

Lemma pval_null_dec v : v = PJ JNull \/ v <> PJ JNull.
Proof. destruct v as [[]|]; (left; reflexivity) || (right; discriminate). Qed.

Lemma request_value_some v : v <> PJ JNull -> request_value (Some v) = OVal (value_of_pval v).
Proof. intros Hv. destruct v as [[]|]; try reflexivity. contradiction Hv. reflexivity. Qed.

Lemma value_of_pval_resolved v : value_of_pval v <> VUnres.
Proof. destruct v; discriminate. Qed.

Definition rx_any : str -> bool := fun _ => true.
Definition rx_none : str -> str -> option str := fun _ _ => None.
Definition cx0 : ctx :=
  {| c_url := [117]; c_method := [103;101;116]; c_status := 200%Z;
     c_query := Some [([97;46;98], PJ (JStr [118]))]; c_path := None; c_headers := None;
     c_body := VNotSet; r_headers := []; r_body := Some (JObj [([105;100], JInt 7); ([120;125;121], JInt 5)]) |}.

Definition e_url_x : str := [36;117;114;108;46;120].                         (* $url.x *)
Definition e_a_hash_b : str := [97;35;98].                                   (* a#b *)
Definition e_dotted : rexpr := RReq LQuery [97;46;98] None.                  (* $request.query.a.b *)
Definition e_ptr_rb : rexpr := RRespBody (Some [47;120;125;121]).            (* $response.body#/x}y *)
Definition t_emb_body : list titem := [TText [73;68;95]; TEmb (RRespBody None)].   (* ID_{$response.body} *)

Lemma text_ok_head c s : text_ok (c :: s) = true -> c <> DOLLAR.
Proof.
  unfold text_ok. cbn [forallb]. intros H. apply andb_true_iff in H. destruct H as [H _].
  unfold mem in H. cbn [existsb] in H. intros ->. discriminate.
Qed.

Lemma url_x_not_in_grammar : ~ in_grammar e_url_x.
Proof.
  intros [[e [_ H]]|[t [Hok H]]].
  - destruct e as [| | |l name rx|p|name rx|p]; try discriminate H.
  - destruct t as [|i t]; [discriminate H|]. apply andb_true_iff in Hok. destruct Hok as [Hi _].
    destruct i as [s|e].
    + destruct s as [|c s]; [discriminate Hi|]. apply text_ok_head in Hi. cbn in H. inversion H as [Hc]. apply Hi. symmetry. exact Hc.
    + cbn in H. discriminate H.
Qed.

(* an expression with a regex extractor and one with an escaped pointer *)
Definition rx_ok1 : str -> bool := fun p => str_eqb p [40;46;41].     (* (.) *)
Definition rx_ex1 : str -> str -> option str := fun _ s => match s with c :: _ => Some [c] | [] => None end.
Definition cx1 : ctx :=
  {| c_url := [117]; c_method := [103;101;116]; c_status := 201%Z;
     c_query := Some [([113], PJ (JStr [97;98]))]; c_path := None; c_headers := None;
     c_body := VNotSet; r_headers := []; r_body := Some (JObj [([97;47;98], JArr [JInt 4; JInt 5])]) |}.
Example eval_denotes_nonvacuous :
  simple_expr rx_ok1 (RReq LQuery [113] (Some [40;46;41])) = true /\
  eval_str rx_ok1 rx_ex1 cx1 (print (RReq LQuery [113] (Some [40;46;41]))) = OVal (VJ (JStr [97])) /\
  simple_expr rx_ok1 (RRespBody (Some [47;97;126;49;98;47;49])) = true /\
  ptr_strict cx1 (RRespBody (Some [47;97;126;49;98;47;49])) = true /\
  eval_str rx_ok1 rx_ex1 cx1 (print (RRespBody (Some [47;97;126;49;98;47;49]))) = OVal (VJ (JInt 5)).
Proof. vm_compute. repeat split. Qed.

Section NestedProof.
  Variable rx_ok : str -> bool.
  Variable rx_extract : str -> str -> option str.
  Variable cx : ctx.
  Notation EN := (eval_nested rx_ok rx_extract cx).
  Notation LOK := (leaves_ok rx_ok rx_extract cx).
  Notation HU := (has_unres rx_ok rx_extract cx).
  Notation SUB := (subst_nested rx_ok rx_extract cx).

  Definition nested_spec (e : json) : Prop :=
    LOK e = true -> EN e = if HU e then OVal VUnres else OVal (VJ (SUB e)).

  (* the two inner loops of eval_nested under names of their own *)
  Fixpoint arr_go (l : list json) (acc : list json) (opq : bool) : outcome :=
    match l with
    | [] => if opq then OVal VOpaque else OVal (VJ (JArr (rev acc)))
    | x :: r => match EN x with
                | OVal (VJ j) => arr_go r (j :: acc) opq
                | OVal VUnres => OVal VUnres
                | OVal _ => arr_go r acc true
                | other => other
                end
    end.

  Fixpoint obj_go (l : list (str * json)) (acc : list (str * json)) (opq : bool) : outcome :=
    match l with
    | [] => if opq then OVal VOpaque else OVal (VJ (JObj acc))
    | (k, x) :: r =>
        match evk rx_ok rx_extract cx k with
        | OVal VUnres => OVal VUnres
        | OVal kv =>
            match EN x with
            | OVal (VJ j) => match kv with
                             | VJ (JStr k') => obj_go r (assoc_set k' j acc) opq
                             | _ => obj_go r acc true
                             end
            | OVal VUnres => OVal VUnres
            | OVal _ => obj_go r acc true
            | other => other
            end
        | other => other
        end
    end.

  Lemma eval_nested_arr l : EN (JArr l) = arr_go l [] false.
  Proof. reflexivity. Qed.

  Lemma eval_nested_obj kvs : EN (JObj kvs) = obj_go kvs [] false.
  Proof. reflexivity. Qed.

  Lemma nested_arr_go (l : list json) : Forall nested_spec l -> forall acc, forallb LOK l = true ->
    arr_go l acc false = if existsb HU l then OVal VUnres else OVal (VJ (JArr (rev acc ++ map SUB l))).
  Proof.
    intros HF. induction HF as [|x l Hx _ IH]; intros acc Hok.
    - cbn. rewrite app_nil_r. reflexivity.
    - apply andb_true_iff in Hok. destruct Hok as [Hx' Hl].
      cbn [arr_go existsb map]. rewrite (Hx Hx'). destruct (HU x); [reflexivity|].
      cbn [orb]. rewrite (IH _ Hl). destruct (existsb HU l); [reflexivity|].
      cbn [rev]. rewrite <- app_assoc. reflexivity.
  Qed.

  Lemma key_ok_cases k : key_ok rx_ok rx_extract cx k = true ->
    evk rx_ok rx_extract cx k = OVal VUnres \/ exists s, evk rx_ok rx_extract cx k = OVal (VJ (JStr s)).
  Proof.
    unfold key_ok. destruct (evk rx_ok rx_extract cx k) as [[[]| | | |?]| |]; try discriminate; [right; eexists; reflexivity|left; reflexivity].
  Qed.

  Lemma nested_obj_go (l : list (str * json)) : Forall (fun kv => nested_spec (snd kv)) l -> forall acc,
    forallb (fun kv => key_ok rx_ok rx_extract cx (fst kv) && LOK (snd kv)) l = true ->
    obj_go l acc false
    = if existsb (fun kv => is_unres_o (evk rx_ok rx_extract cx (fst kv)) || HU (snd kv)) l then OVal VUnres
      else OVal (VJ (JObj (fold_left (fun acc kv => assoc_set (leaf_key rx_ok rx_extract cx (fst kv)) (SUB (snd kv)) acc) l acc))).
  Proof.
    intros HF. induction HF as [|[k x] l Hx _ IH]; intros acc Hok.
    - reflexivity.
    - cbn [forallb fst snd] in Hok. apply andb_true_iff in Hok. destruct Hok as [Hkx Hl].
      apply andb_true_iff in Hkx. destruct Hkx as [Hk Hx'].
      cbn [obj_go existsb fold_left fst snd]. cbn [snd] in Hx. unfold leaf_key.
      destruct (key_ok_cases k Hk) as [E | [s E]]; rewrite E; [reflexivity|].
      cbn [is_unres_o orb]. rewrite (Hx Hx'). destruct (HU x); [reflexivity|]. apply IH. exact Hl.
  Qed.

  Lemma nested_denotes e : nested_spec e.
  Proof.
    induction e using json_ind'; unfold nested_spec; cbn [leaves_ok has_unres subst_nested]; intros Hok; try reflexivity.
    - cbn [eval_nested]. unfold value_ok, ev in Hok. unfold ev, leaf_value, ev.
      destruct (eval_str rx_ok rx_extract cx s) as [[j| | | |?]| |]; try discriminate Hok; reflexivity.
    - rewrite eval_nested_arr, (nested_arr_go l H [] Hok). reflexivity.
    - rewrite eval_nested_obj, (nested_obj_go kvs H [] Hok). reflexivity.
  Qed.

  Lemma evaluate_nested_is e : evaluate rx_ok rx_extract cx e true = EN e.
  Proof. destruct e; reflexivity. Qed.

End NestedProof.

(* an array of objects holding an array of objects (depth 4), expressions in keys and values; and the same
   shape with one unresolvable leaf at the bottom *)
Definition nb_ok : json :=
  JObj [([97], JArr [JObj [([36;109;101;116;104;111;100],                                  (* key $method *)
                           JArr [JObj [([99], JStr [36;115;116;97;116;117;115;67;111;100;101])]; JInt 1])]])].   (* $statusCode *)
Definition nb_unres : json :=
  JArr [JArr [JObj [([99], JStr [36;114;101;115;112;111;110;115;101;46;98;111;100;121;35;47;122])]]].   (* $response.body#/z *)
Example nested_nonvacuous :
  leaves_ok rx_any rx_none cx1 nb_ok = true /\ has_unres rx_any rx_none cx1 nb_ok = false /\
  evaluate rx_any rx_none cx1 nb_ok true =
    OVal (VJ (JObj [([97], JArr [JObj [([71;69;84], JArr [JObj [([99], JStr [50;48;49])]; JInt 1])]])])) /\
  leaves_ok rx_any rx_none cx1 nb_unres = true /\ has_unres rx_any rx_none cx1 nb_unres = true /\
  evaluate rx_any rx_none cx1 nb_unres true = OVal VUnres.
Proof. vm_compute. repeat split. Qed.

Lemma sendable_some x v : sendable x = Some v -> v <> VUnres /\ v <> VJ JNull.
Proof.
  destruct x as [[[]| | | |r]|]; intros H; inversion H; split; discriminate.
Qed.

Lemma keep_sendable_in d n v : In (n, v) (keep_sendable d) -> v <> VUnres /\ v <> VJ JNull.
Proof.
  induction d as [|[m x] d IH]; [intros []|]. cbn [keep_sendable].
  destruct (sendable x) as [w|] eqn:S; [|exact IH]. intros [H|H]; [|exact (IH H)].
  inversion H. subst. exact (sendable_some _ _ S).
Qed.

(* get_parameters_value: without a (non-empty) kwarg everything is generated; with one, the generator is asked for the
   other names and its draw is laid over the kwarg *)
Lemma final_container_gen (kw : list (str * dict)) c gen : assoc_get c kw = None \/ assoc_get c kw = Some [] -> final_container kw c gen = gen [].
Proof. unfold final_container. intros [-> | ->]; reflexivity. Qed.

Lemma final_container_kw (kw : list (str * dict)) c d gen : assoc_get c kw = Some d -> d <> [] ->
  final_container kw c gen = Some (match gen (map fst d) with Some g => assoc_update d g | None => d end).
Proof.
  unfold final_container. intros -> Hd. destruct d as [|x d]; [congruence|].
  cbn [parameters_value]. destruct (gen (map fst (x :: d))); reflexivity.
Qed.

Lemma unresolvable_never_sent_params kw c gen d n v :
  (forall c' d' n' v', In (c', d') kw -> In (n', v') d' -> v' <> VUnres) ->
  (forall excl g m w, gen excl = Some g -> In (m, w) g -> w <> VUnres) ->
  final_container kw c gen = Some d -> In (n, v) d -> v <> VUnres.
Proof.
  intros Hkw Hgen H Hin. destruct (assoc_get c kw) as [[|x ex]|] eqn:G.
  - rewrite final_container_gen in H by (right; exact G). exact (Hgen _ _ _ _ H Hin).
  - rewrite (final_container_kw _ _ _ _ G) in H by discriminate. apply assoc_get_in in G.
    destruct (gen (map fst (x :: ex))) as [new|] eqn:N; inversion H; subst d; [|exact (Hkw _ _ _ _ G Hin)].
    destruct (assoc_update_in _ _ _ _ Hin) as [K|K]; [exact (Hkw _ _ _ _ G K)|exact (Hgen _ _ _ _ N K)].
  - rewrite final_container_gen in H by (left; exact G). exact (Hgen _ _ _ _ H Hin).
Qed.

Lemma unresolved_body_is_generated merge g : final_body merge (body_ready (Some (XOk VUnres))) g = g
  /\ final_body merge (body_ready (Some XErr)) g = g /\ final_body merge (body_ready None) g = g.
Proof. repeat split. Qed.

Definition kw_case : list (str * dict) := [(s_headers, [([120;45;116], VJ (JStr [80;79;83;84]))])].    (* x-t: POST *)
Definition gen_case : list str -> option dict :=
  fun excl => Some (filter (fun kv => negb (in_strs (fst kv) excl)) [([88;45;84], VJ (JStr [103;104]))]).   (* X-T: gh *)

Lemma gen_case_honours_exclude excl g n : gen_case excl = Some g -> In n excl -> assoc_get n g = None.
Proof.
  intros H Hin. inversion H. subst g. cbn [filter fst].
  destruct (in_strs [88;45;84] excl) eqn:E; cbn [negb]; [reflexivity|]. cbn [assoc_get].
  destruct (str_eqb n [88;45;84]) eqn:E2; [|reflexivity]. apply str_eqb_spec in E2. subst n.
  discriminate (existsb_false_In _ _ _ E Hin).
Qed.

Example override_nonvacuous :
  exists f, final_container [([113], [([97], VJ (JInt 1))])] [113] (fun _ => Some [([98], VJ (JInt 2))]) = Some f
            /\ assoc_get [97] f = Some (VJ (JInt 1)) /\ assoc_get [98] f = Some (VJ (JInt 2)).
Proof. eexists. repeat split. Qed.

Lemma keep_sendable_set n x v inner : sendable x = Some v -> assoc_get n (keep_sendable (assoc_set n x inner)) = Some v.
Proof.
  intros Hx. induction inner as [|[k y] inner IH]; cbn [assoc_set].
  - cbn [keep_sendable]. rewrite Hx. cbn [assoc_get]. rewrite str_eqb_refl. reflexivity.
  - destruct (str_eqb n k) eqn:E.
    + cbn [keep_sendable]. rewrite Hx. cbn [assoc_get]. rewrite str_eqb_refl. reflexivity.
    + cbn [keep_sendable]. destruct (sendable y); [cbn [assoc_get]; rewrite E|]; exact IH.
Qed.

(* what into_step_input finds under c.n after extraction has stored a sendable value there *)
Lemma kwargs_set_extracted c n x v e : sendable x = Some v ->
  exists d, assoc_get c (kwargs_of (set_extracted c n x e)) = Some d /\ assoc_get n d = Some v.
Proof.
  intros Hs. unfold set_extracted, kwargs_of. rewrite assoc_get_map_snd, assoc_get_set_same. cbn [option_map].
  eexists. split; [reflexivity|]. apply keep_sendable_set. exact Hs.
Qed.

Lemma extract_parameters_last rx_ok rx_extract cx ps p mb mm :
  extract_parameters rx_ok rx_extract cx {| l_params := ps ++ [p]; l_body := mb; l_merge := mm |} =
  set_extracted (lp_container p) (lp_name p) (to_xval (evaluate rx_ok rx_extract cx (lp_expr p) false))
                (extract_parameters rx_ok rx_extract cx {| l_params := ps; l_body := mb; l_merge := mm |}).
Proof. unfold extract_parameters. cbn [l_params]. rewrite fold_left_app. reflexivity. Qed.

Definition plain_param (c n : str) (loc : ploc) (name : str) : lparam :=
  {| lp_container := c; lp_name := n; lp_expr := JStr (print (RReq loc name None)) |}.

(* every JSON falsy value and a float zero, under query / path / header names; null and an absent name *)
Definition cx_falsy : ctx :=
  {| c_url := [117]; c_method := [112;111;115;116]; c_status := 201%Z;
     c_query := Some [([122], PJ (JInt 0)); ([101], PJ (JStr [])); ([102], PJ (JBool false)); ([97], PJ (JArr []));
                      ([111], PJ (JObj [])); ([120], PFloat [48;46;48]); ([110], PJ JNull); ([116], PJ (JInt 7))];
     c_path := Some [([112], PJ (JInt 0))];
     c_headers := Some [([88;45;69], PJ (JStr []))];
     c_body := VNotSet; r_headers := []; r_body := None |}.

Example falsy_values_nonvacuous :
  forallb (fun kv => py_falsy (snd kv)) [([122], PJ (JInt 0)); ([101], PJ (JStr [])); ([102], PJ (JBool false)); ([97], PJ (JArr []));
                                         ([111], PJ (JObj [])); ([120], PFloat [48;46;48])] = true /\
  map (fun k => eval_str rx_any rx_none cx_falsy (print (RReq LQuery k None))) [[122]; [101]; [102]; [97]; [111]; [120]; [110]; [109]; [116]]
  = [OVal (VJ (JInt 0)); OVal (VJ (JStr [])); OVal (VJ (JBool false)); OVal (VJ (JArr [])); OVal (VJ (JObj []));
     OVal (VFloat [48;46;48]); OVal VUnres; OVal VUnres; OVal (VJ (JInt 7))] /\
  eval_str rx_any rx_none cx_falsy (print (RReq LPath [112] None)) = OVal (VJ (JInt 0)) /\
  eval_str rx_any rx_none cx_falsy (print (RReq LHeader [120;45;101] None)) = OVal (VJ (JStr [])) /\
  (* in a template: a-{$request.query.z} is a-0, a-{$request.query.e} is a-, a-{$request.query.n} (null) is a- too,
     a-{$request.query.m} (absent) is UNRESOLVABLE *)
  map (fun k => eval_str rx_any rx_none cx_falsy (print_tpl [TText [97;45]; TEmb (RReq LQuery k None)])) [[122]; [101]; [102]; [120]; [109]]
  = [OVal (VJ (JStr [97;45;48])); OVal (VJ (JStr [97;45])); OVal (VJ (JStr [97;45;70;97;108;115;101]));
     OVal (VJ (JStr [97;45;48;46;48])); OVal VUnres] /\
  (* through a link: query.tq of the derived case is the 0 of the source request although the generator offers a value *)
  (exists f, final_container (kwargs_of (extract_parameters rx_any rx_none cx_falsy
               {| l_params := [plain_param s_query [116;113] LQuery [122]]; l_body := None; l_merge := true |})) s_query
               (fun excl => Some (filter (fun kv => negb (in_strs (fst kv) excl)) [([116;113], VJ (JStr [71;69;78]))])) = Some f
             /\ assoc_get [116;113] f = Some (VJ (JInt 0))).
Proof. vm_compute. repeat split. eexists. split; reflexivity. Qed.

Section LinkObjectProofs.
  Variable src : Type.
  Variable cid : src -> N.
  Variable fresh : src -> extracted.
  Variable fresh_body : src -> option xval.
  Variable cap : nat.
  Variable containers : list str.
  Hypothesis cid_determines : forall x y, cid x = cid y -> fresh_view src cid fresh fresh_body x = fresh_view src cid fresh fresh_body y.

  Local Notation fv := (fresh_view src cid fresh fresh_body).
  Local Notation lextract := (link_extract src cid fresh fresh_body cap false containers).
  Local Notation lrun := (link_run src cid fresh fresh_body cap false containers).

  Definition refs_lt (t : tobj) (n : nat) : Prop := forall c r, In (c, r) (t_params t) -> (r < n)%nat.

  Lemma read_app h ext t : refs_lt t (length h) -> read (h ++ ext) t = read h t.
  Proof.
    intros Hlt. unfold read. f_equal. f_equal.
    apply map_ext_in. intros [c r] Hin. cbn [fst snd]. f_equal.
    apply app_nth1. eapply Hlt; eauto.
  Qed.

  Lemma alloc_read_map (e : extracted) : forall h : heap,
    map (fun cr : str * nat => (fst cr, nth (snd cr) (h ++ map snd e) [])) (List.combine (map fst e) (seq (length h) (length e))) = e.
  Proof.
    induction e as [|[c d] e IH]; intros h; [reflexivity|].
    cbn [map fst snd length seq List.combine]. f_equal.
    - f_equal. apply nth_middle.
    - specialize (IH (h ++ [d])). rewrite <- app_assoc in IH. cbn [app] in IH.
      rewrite app_length in IH. cbn [length] in IH. replace (length h + 1)%nat with (S (length h)) in IH by lia. exact IH.
  Qed.

  Lemma memo_get_In k m t : memo_get k m = Some t -> In (k, t) m.
  Proof.
    induction m as [|[k1 t1] m IH]; cbn [memo_get]; [discriminate|].
    destruct (N.eqb k k1) eqn:E.
    - intros H. inversion H; subst. apply N.eqb_eq in E. subst. left; reflexivity.
    - intros H. right. apply IH. exact H.
  Qed.

  (* a Transition that, read in heap h, says what the exchange with case id k denotes; growing the heap keeps it so *)
  Definition entry_ok (h : heap) (k : N) (t : tobj) : Prop :=
    refs_lt t (length h) /\ forall x, cid x = k -> read h t = fv x.

  Lemma entry_ok_app h ext k t : entry_ok h k t -> entry_ok (h ++ ext) k t.
  Proof.
    intros [Hlt Hrd]. split.
    - intros c r Hc. specialize (Hlt c r Hc). rewrite app_length. lia.
    - intros y Hy. rewrite read_app by exact Hlt. exact (Hrd y Hy).
  Qed.

  (* a miss: new inner dicts at the end of the heap, holding the fresh extraction *)
  Lemma extract_impl_correct h x h1 t : extract_impl src cid fresh fresh_body false containers h x = (h1, t) ->
    h1 = h ++ map snd (fresh x) /\ entry_ok h1 (cid x) t.
  Proof.
    unfold extract_impl, alloc. intros H. inversion H; subst; clear H. split; [reflexivity|]. split.
    - intros c r Hin. cbn [t_params] in Hin. apply in_combine_r, in_seq in Hin. rewrite app_length, map_length. lia.
    - intros y Hy. unfold read. cbn [t_parent t_params t_body]. rewrite alloc_read_map. symmetry. exact (cid_determines _ _ Hy).
  Qed.

  Definition memo_inv (st : lstate) : Prop := forall k t, In (k, t) (ls_memo st) -> entry_ok (ls_heap st) k t.

  Lemma link_extract_correct st x st1 t :
    memo_inv st -> lextract st x = (st1, t) ->
    memo_inv st1 /\ (exists ext, ls_heap st1 = ls_heap st ++ ext) /\ entry_ok (ls_heap st1) (cid x) t.
  Proof.
    intros Hinv. unfold link_extract.
    destruct (memo_get (cid x) (ls_memo st)) as [t0|] eqn:Hget.
    - intros H. inversion H; subst; clear H. cbn [ls_heap ls_memo].
      apply memo_get_In in Hget. split; [|split; [exists []; rewrite app_nil_r; reflexivity|exact (Hinv _ _ Hget)]].
      intros k0 t1 [Heq|Hin].
      + inversion Heq; subst. exact (Hinv _ _ Hget).
      + apply filter_In in Hin. exact (Hinv _ _ (proj1 Hin)).
    - destruct (extract_impl src cid fresh fresh_body false containers (ls_heap st) x) as [h1 t'] eqn:Hx.
      intros H. inversion H; subst; clear H. cbn [ls_heap ls_memo].
      destruct (extract_impl_correct _ _ _ _ Hx) as [Hh Hnew].
      split; [|split; [exists (map snd (fresh x)); exact Hh|exact Hnew]].
      intros k0 t1 Hin. apply In_firstn in Hin. destruct Hin as [Heq|Hin].
      + inversion Heq; subst k0 t1. exact Hnew.
      + cbn [ls_heap]. rewrite Hh. exact (entry_ok_app _ _ _ _ (Hinv _ _ Hin)).
  Qed.

  Lemma link_run_correct xs : forall st st2 ts,
    memo_inv st -> lrun st xs = (st2, ts) ->
    (exists ext, ls_heap st2 = ls_heap st ++ ext) /\
    Forall2 (fun tv x => snd tv = fv x /\ read (ls_heap st2) (fst tv) = fv x) ts xs.
  Proof.
    induction xs as [|x xs IH]; intros st st2 ts Hinv; cbn [link_run].
    - intros H. inversion H; subst. split; [exists []; rewrite app_nil_r; reflexivity|constructor].
    - destruct (lextract st x) as [st1 t] eqn:Hex.
      destruct (lrun st1 xs) as [st2' ts'] eqn:Hrun.
      intros H. inversion H; subst; clear H.
      destruct (link_extract_correct _ _ _ _ Hinv Hex) as (Hinv1 & [ext1 Hh1] & Hok).
      destruct (IH _ _ _ Hinv1 Hrun) as ([ext2 Hh2] & Hall).
      split.
      + exists (ext1 ++ ext2). rewrite Hh2, Hh1, app_assoc. reflexivity.
      + constructor; [|exact Hall]. cbn [fst snd]. rewrite Hh2.
        split; [exact (proj2 Hok x eq_refl)|exact (proj2 (entry_ok_app _ ext2 _ _ Hok) x eq_refl)].
  Qed.

  Lemma link_extraction_independent_of_history xs :
    views_at_return src cid fresh fresh_body cap false containers xs = map fv xs /\
    views_at_end src cid fresh fresh_body cap false containers xs = map fv xs.
  Proof.
    unfold views_at_return, views_at_end.
    destruct (lrun (link_init false containers) xs) as [st ts] eqn:Hrun.
    assert (Hinv : memo_inv (link_init false containers)) by (intros k t []).
    destruct (link_run_correct _ _ _ _ Hinv Hrun) as [_ Hall]. cbn [snd].
    split.
    - apply Forall2_map_eq with (f := snd) (g := fv). eapply Forall2_weaken; [|exact Hall]. intros a b [H _]; exact H.
    - apply Forall2_map_eq with (f := fun tv => read (ls_heap st) (fst tv)) (g := fv).
      eapply Forall2_weaken; [|exact Hall]. intros a b [_ H]; exact H.
  Qed.
End LinkObjectProofs.

(* the witnesses of C10_link_shared_containers_sentinel *)
Definition cx_id (n : Z) : ctx :=
  {| c_url := [117]; c_method := [112;111;115;116]; c_status := 201%Z; c_query := None; c_path := None; c_headers := None;
     c_body := VNotSet; r_headers := []; r_body := Some (JObj [([105;100], JInt n)]) |}.
Definition link_id : link :=
  {| l_params := [{| lp_container := s_query; lp_name := [105;100]; lp_expr := JStr (print (RRespBody (Some [47;105;100]))) |}];
     l_body := None; l_merge := true |}.
Definition view_id (k : N) (n : Z) : tview := (k, [(s_query, [([105;100], XOk (VJ (JInt n)))])], None).
