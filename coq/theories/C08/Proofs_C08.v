(* C08: what the definitions of Model_C08 do, and the witness documents of the property theorems, which are proved
   in Properties_C08.v.  In reading order:
   1. py_eq as equality of normal forms; get after set in an association list; inversion of bind
   2. the schema loop: the property of a name is the schema of the last parameter with that name
   3. make_operation: the identity it keeps, the rounds of process_definitions, what build_op records
   4. the three loops of get_all_operations, and the witness documents of the iteration theorems
   5. the operation cache: insert_operation, coherence, the invariant, the refinement of fresh lookups
   6. what a lookup and the id scan record; the witness documents of the cache and security theorems
   7. JSON-pointer escaping, operation references and their resolution
   8. the recorded scope does not influence what is built; lookups of plain entries are coherent; their witnesses *)
From Coq Require Import List NArith ZArith Bool.
From Coq Require String.
Import String.StringSyntax.
From Verif Require Import Common.Str Common.Json Common.Lists C08.Model_C08.
Import ListNotations.

(* 1. *)
Definition norm (j : json) : json := match num_of j with Some z => JInt z | None => j end.

Lemma py_eq_norm a b : py_eq a b = true <-> norm a = norm b.
Proof.
  unfold py_eq, norm.
  destruct (num_of a) as [x|] eqn:Ha; destruct (num_of b) as [y|] eqn:Hb.
  - rewrite Z.eqb_eq. split; [intros ->; reflexivity | intros H; inversion H; reflexivity].
  - split.
    + intros H. apply json_eqb_eq in H. subst b. congruence.
    + intros H. subst b. discriminate.
  - split.
    + intros H. apply json_eqb_eq in H. subst b. congruence.
    + intros H. subst a. discriminate.
  - split; [apply json_eqb_eq | intros ->; apply json_eqb_refl].
Qed.

Lemma py_eq_refl a : py_eq a a = true.
Proof. apply py_eq_norm; reflexivity. Qed.
Lemma py_eq_sym a b : py_eq a b = py_eq b a.
Proof.
  destruct (py_eq a b) eqn:E1, (py_eq b a) eqn:E2; try reflexivity.
  - apply py_eq_norm in E1. symmetry in E1. apply py_eq_norm in E1. congruence.
  - apply py_eq_norm in E2. symmetry in E2. apply py_eq_norm in E2. congruence.
Qed.

(* [eqb] decides equality of the normal forms [f]: py_eq through [norm], str_eqb and tkey_eqb through the identity *)
Section KMap.
  Context {K V N : Type} (eqb : K -> K -> bool) (f : K -> N).
  Hypothesis eqb_f : forall a b, eqb a b = true <-> f a = f b.

  Lemma eqb_congr a b c : f b = f c -> eqb a b = eqb a c.
  Proof.
    intros H. destruct (eqb a b) eqn:E1, (eqb a c) eqn:E2; try reflexivity.
    - apply eqb_f in E1. rewrite H in E1. apply eqb_f in E1. congruence.
    - apply eqb_f in E2. rewrite <- H in E2. apply eqb_f in E2. congruence.
  Qed.

  Lemma kget_kset k k0 (x : V) l : kget eqb k (kset eqb k0 x l) = if eqb k k0 then Some x else kget eqb k l.
  Proof.
    induction l as [|[k' x'] r IH]; cbn [kset kget].
    - destruct (eqb k k0); reflexivity.
    - destruct (eqb k0 k') eqn:E; cbn [kget].
      + apply eqb_f in E. rewrite (eqb_congr k k0 k' E). destruct (eqb k k'); reflexivity.
      + rewrite IH. destruct (eqb k k') eqn:E2; [|reflexivity].
        destruct (eqb k k0) eqn:E3; [|reflexivity].
        apply eqb_f in E2. apply eqb_f in E3. assert (E4 : f k0 = f k') by congruence. apply eqb_f in E4. congruence.
  Qed.
End KMap.

Lemma bind_val {A B} (r : res A) (f : A -> res B) y : bind r f = Val y -> exists x, r = Val x /\ f x = Val y.
Proof. destruct r as [x|e]; [exists x; split; [reflexivity | assumption] | discriminate]. Qed.

(* 2. *)
Lemma jassoc_get_set name k s props :
  jassoc_get name (jassoc_set k s props) = if py_eq name k then Some s else jassoc_get name props.
Proof.
  induction props as [|[k' s'] r IH]; cbn [jassoc_set jassoc_get].
  - destruct (py_eq name k); reflexivity.
  - destruct (py_eq k k') eqn:E; cbn [jassoc_get].
    + apply py_eq_norm in E. rewrite (eqb_congr py_eq norm py_eq_norm name k k' E). destruct (py_eq name k'); reflexivity.
    + rewrite IH. destruct (py_eq name k') eqn:E2; [|reflexivity].
      destruct (py_eq name k) eqn:E3; [|reflexivity].
      apply py_eq_norm in E2, E3. assert (E4 : norm k = norm k') by congruence. apply py_eq_norm in E4. congruence.
Qed.

Lemma loop_last f ps : forall props req props' req' name,
  to_schema_loop f ps props req = Val (props', req') ->
  match last_match ps name with
  | Some p => exists s, f p = Val s /\ jassoc_get name props' = Some s
  | None => jassoc_get name props' = jassoc_get name props
  end.
Proof.
  induction ps as [|p r IH]; intros props req props' req' name H; cbn [to_schema_loop last_match] in *.
  - inversion H; reflexivity.
  - destruct (p_name p) as [n|e] eqn:En; cbn [bind] in H; [|discriminate].
    destruct (f p) as [s|e] eqn:Es; cbn [bind] in H; [|discriminate].
    destruct (negb (hashable n)); [discriminate|].
    destruct (p_required p) as [rq|e] eqn:Er; cbn [bind] in H; [|discriminate].
    specialize (IH _ _ _ _ name H).
    destruct (last_match r name) as [q|]; [exact IH|].
    rewrite IH, jassoc_get_set, (py_eq_sym name n).
    destruct (py_eq n name); [exists s; split; [exact Es | reflexivity] | reflexivity].
Qed.

Lemma last_match_none_if ps n name :
  existsb (fun q => match p_name q with Val m => py_eq m n | Raise _ => true end) ps = false ->
  py_eq n name = true -> last_match ps name = None.
Proof.
  induction ps as [|p r IH]; intros H Hn; [reflexivity|]. cbn [existsb last_match] in *.
  apply orb_false_iff in H. destruct H as [H1 H2]. rewrite (IH H2 Hn).
  destruct (p_name p) as [m|]; [|reflexivity].
  rewrite (eqb_congr py_eq norm py_eq_norm m n name (proj1 (py_eq_norm _ _) Hn)) in H1. rewrite H1. reflexivity.
Qed.

Lemma first_eq_last ps name : names_unique ps = true -> first_match ps name = last_match ps name.
Proof.
  induction ps as [|p r IH]; intros H; [reflexivity|]. cbn [names_unique first_match last_match] in *.
  destruct (p_name p) as [n|] eqn:En; [|discriminate].
  apply andb_true_iff in H. destruct H as [H1 H2]. apply negb_true_iff in H1.
  destruct (py_eq n name) eqn:E.
  - rewrite (last_match_none_if _ _ _ H1 E). reflexivity.
  - rewrite (IH H2). destruct (last_match r name); reflexivity.
Qed.

Lemma set_get_first ps name : names_unique ps = true ->
  set_get ps name = Val (first_match ps name).
Proof.
  induction ps as [|p r IH]; intros H; [reflexivity|]. cbn [names_unique set_get first_match] in *.
  destruct (p_name p) as [n|] eqn:En; [|discriminate]. cbn [bind].
  apply andb_true_iff in H. destruct H as [_ H2].
  destruct (py_eq n name); [reflexivity | apply IH; exact H2].
Qed.

(* 3. *)
Definition ident (o : operation) := (o_path o, o_method o, o_raw o, o_resolved o, o_scope o).

Lemma add_parameter_ident o p o' : add_parameter o p = Val o' -> ident o' = ident o.
Proof.
  unfold add_parameter. destruct (p_location p) as [l|]; cbn [bind]; [|discriminate].
  intros H; inversion H. destruct (loc_of l) as [[]|]; reflexivity.
Qed.

Lemma add_parameters_ident ps : forall o o', add_parameters o ps = Val o' -> ident o' = ident o.
Proof.
  induction ps as [|p r IH]; intros o o' H; cbn [add_parameters] in H; [inversion H; reflexivity|].
  destruct (add_parameter o p) as [o1|] eqn:E; cbn [bind] in H; [|discriminate].
  rewrite (IH _ _ H). eapply add_parameter_ident; eauto.
Qed.

(* security.py:22: the already-defined test of process_definitions is by (name, location); what other containers
   hold never matters *)
Lemma set_get_app ps qs n : set_get (ps ++ qs) n = match set_get ps n with Val None => set_get qs n | r => r end.
Proof.
  induction ps as [|q r IH]; cbn [set_get app]; [reflexivity|].
  destruct (p_name q) as [m|]; cbn [bind]; [|reflexivity].
  destruct (py_eq m n); [reflexivity | exact IH].
Qed.

Lemma set_get_in ps n p : set_get ps n = Val (Some p) -> In p ps.
Proof.
  induction ps as [|q r IH]; cbn [set_get]; [discriminate|].
  destruct (p_name q) as [m|]; cbn [bind]; [|discriminate].
  destruct (py_eq m n); [intros H; inversion H; left; reflexivity | intros H; right; exact (IH H)].
Qed.

Lemma container_add_to o c c' p : container (add_to o c' p) c = container o c ++ (if loc_eqb c c' then [p] else []).
Proof. destruct c, c'; cbn [add_to container loc_eqb o_pathp o_headers o_cookies o_query o_body]; rewrite ?app_nil_r; reflexivity. Qed.

Lemma add_parameter_container o p o' c :
  add_parameter o p = Val o' -> container o' c = container o c ++ (if goes_to c p then [p] else []).
Proof.
  unfold add_parameter, goes_to. destruct (p_location p) as [l|]; cbn [bind]; [|discriminate].
  intros H; inversion H; subst o'. destruct (loc_of l) as [c'|]; [apply container_add_to | rewrite app_nil_r; reflexivity].
Qed.

Lemma add_parameters_container ps : forall o o' c,
  add_parameters o ps = Val o' -> container o' c = container o c ++ declared_in c ps.
Proof.
  unfold declared_in.
  induction ps as [|p r IH]; intros o o' c H; cbn [add_parameters filter] in *.
  - inversion H. rewrite app_nil_r. reflexivity.
  - destruct (add_parameter o p) as [o1|] eqn:E; cbn [bind] in H; [|discriminate].
    rewrite (IH _ _ c H), (add_parameter_container _ _ _ c E), <- app_assoc.
    destruct (goes_to c p); reflexivity.
Qed.

Lemma add_parameters_app a : forall o b, add_parameters o (a ++ b) = (do o1 <- add_parameters o a; add_parameters o1 b).
Proof.
  induction a as [|p a IH]; intros o b; [reflexivity|]. cbn [app add_parameters].
  destruct (add_parameter o p) as [o1|]; cbn [bind]; [apply IH | reflexivity].
Qed.

Definition sec_param (v : version) (defs : list json) (p : param) : Prop :=
  exists d j, In d defs /\ (api_key_param v d = Val j \/ http_auth_param v d = Val j) /\ p = PParam j.

Lemma sec_param_incl v defs defs' p : incl defs defs' -> sec_param v defs p -> sec_param v defs' p.
Proof. intros Hi (d & j & Hd & Hj & Hp). exists d, j. split; [exact (Hi d Hd) | split; assumption]. Qed.

(* One round of the loop of process_definitions: the test whether the (name, location) of the definition is
   already served, and what a definition that is not adds. *)
Definition defined_already (d : json) (o : operation) : res bool :=
  do name <- py_get d k_name;
  do location <- py_get d k_in;
  match name, location with
  | Some n, Some l =>
      match n, l with
      | JNull, _ | _, JNull => Val false
      | _, _ => do g <- get_parameter o n l; Val (match g with Some _ => true | None => false end)
      end
  | _, _ => Val false
  end.

Definition derive (v : version) (d : json) (o : operation) : res operation :=
  do ty <- py_item d k_type;
  do o1 <- (if json_eqb ty (JStr s_apiKey) then do p <- api_key_param v d; add_parameter o (PParam p) else Val o);
  if json_eqb ty (JStr (if is_v20 v then s_basic else s_http))
  then do p <- http_auth_param v d; add_parameter o1 (PParam p) else Val o1.

Lemma process_definitions_cons v d r o :
  process_definitions v (d :: r) o =
  (do sk <- defined_already d o;
   if sk then process_definitions v r o else do o2 <- derive v d o; process_definitions v r o2).
Proof.
  cbn [process_definitions]. unfold defined_already, derive.
  destruct (py_get d k_name) as [name|]; cbn [bind]; [|reflexivity].
  destruct (py_get d k_in) as [location|]; cbn [bind]; [|reflexivity].
  match goal with |- bind ?x _ = bind ?x _ => destruct x as [[|]|]; cbn [bind]; try reflexivity end.
  destruct (py_item d k_type) as [ty|]; cbn [bind]; [|reflexivity].
  match goal with |- bind ?x _ = _ => destruct x as [o1|]; cbn [bind]; [|reflexivity] end.
  match goal with |- bind ?x _ = _ => destruct x as [o2|]; reflexivity end.
Qed.

Lemma derive_adds v d o o' : derive v d o = Val o' ->
  exists ps, add_parameters o ps = Val o' /\ Forall (sec_param v [d]) ps.
Proof.
  assert (A : forall (b : bool) mk o o1, mk = api_key_param v d \/ mk = http_auth_param v d ->
            (if b then do p <- mk; add_parameter o (PParam p) else Val o) = Val o1 ->
            exists ps, add_parameters o ps = Val o1 /\ Forall (sec_param v [d]) ps).
  { intros [|] mk o0 o1 Hmk E.
    - apply bind_val in E as (j & Ej & E). exists [PParam j]. cbn [add_parameters]. rewrite E. split; [reflexivity|].
      constructor; [|constructor]. exists d, j. split; [left; reflexivity|]. split; [|reflexivity].
      destruct Hmk as [-> | ->]; [left | right]; exact Ej.
    - injection E as <-. exists []. split; [reflexivity | constructor]. }
  unfold derive. intros H. apply bind_val in H as (ty & _ & H). apply bind_val in H as (o1 & E1 & H).
  destruct (A _ _ _ _ (or_introl eq_refl) E1) as (p1 & A1 & F1). destruct (A _ _ _ _ (or_intror eq_refl) H) as (p2 & A2 & F2).
  exists (p1 ++ p2). rewrite add_parameters_app, A1. split; [exact A2 | apply Forall_app; split; assumption].
Qed.

Lemma loc_of_str l c : loc_of l = Some c -> exists s, l = JStr s /\ str_eqb s s_formData = false.
Proof.
  destruct l; cbn [loc_of]; try discriminate. intros H. exists s. split; [reflexivity|].
  destruct (str_eqb s s_formData) eqn:E; [|reflexivity].
  apply str_eqb_spec in E. subst s. vm_compute in H. discriminate.
Qed.

Lemma loc_eqb_refl c : loc_eqb c c = true.
Proof. destruct c; reflexivity. Qed.

Lemma api_key_param_fields v d n l :
  py_get d k_name = Val (Some n) -> py_get d k_in = Val (Some l) ->
  exists j, api_key_param v d = Val j /\ p_name (PParam j) = Val n /\ py_item j k_in = Val l.
Proof.
  destruct d; cbn [py_get]; try discriminate. intros Hn Hl. inversion Hn as [Hn']. inversion Hl as [Hl'].
  unfold api_key_param, py_item. rewrite Hn', Hl'. cbn [bind].
  eexists. split; [reflexivity|]. destruct (is_v20 v); split; vm_compute; reflexivity.
Qed.

Lemma api_key_of_spec d n c : api_key_of d = Some (n, c) ->
  exists l, py_item d k_type = Val (JStr s_apiKey) /\ py_get d k_name = Val (Some n) /\ py_get d k_in = Val (Some l)
            /\ n <> JNull /\ loc_of l = Some c.
Proof.
  unfold api_key_of.
  destruct (py_item d k_type) as [ty|]; [|discriminate].
  destruct (py_get d k_name) as [[n'|]|]; try discriminate.
  destruct (py_get d k_in) as [[l|]|]; try discriminate.
  destruct (json_eqb ty (JStr s_apiKey)) eqn:Et; cbn [andb]; [|discriminate].
  destruct (json_eqb n' JNull) eqn:En; cbn [negb]; [discriminate|].
  destruct (loc_of l) as [c'|] eqn:El; [|discriminate].
  intros H; inversion H; subst n' c'. exists l. apply json_eqb_eq in Et. subst ty.
  repeat split; try reflexivity; try exact El.
  intros ->. rewrite json_eqb_refl in En. discriminate.
Qed.

(* after the round of an apiKey definition its container serves its name: by the parameter that made the round
   skip the definition, or by the one the round adds *)
Lemma api_key_round v d n c o o2 : api_key_of d = Some (n, c) ->
  (defined_already d o = Val true /\ o2 = o) \/ (defined_already d o = Val false /\ derive v d o = Val o2) ->
  exists p, set_get (container o2 c) n = Val (Some p).
Proof.
  intros Hk. destruct (api_key_of_spec d n c Hk) as (l & Hty & Hn & Hl & Hnn & Hloc).
  destruct (loc_of_str _ _ Hloc) as [s [-> Hnf]].
  assert (D : defined_already d o = (do g <- set_get (container o c) n; Val (match g with Some _ => true | None => false end))).
  { unfold defined_already, get_parameter. rewrite Hn, Hl. cbn [bind]. rewrite Hloc. destruct n; [congruence | reflexivity ..]. }
  rewrite D. destruct (set_get (container o c) n) as [[p|]|] eqn:Eg; cbn [bind];
    intros [[E ->] | [E H]]; try discriminate E; [exists p; exact Eg|].
  unfold derive in H. rewrite Hty in H. cbn [bind] in H. rewrite json_eqb_refl in H.
  destruct (api_key_param_fields v d n (JStr s) Hn Hl) as [j [Ej [Hjn Hjl]]]. rewrite Ej in H. cbn [bind] in H.
  apply bind_val in H as (o1 & E1 & H).
  assert (Hne : json_eqb (JStr s_apiKey) (JStr (if is_v20 v then s_basic else s_http)) = false)
    by (destruct (is_v20 v); vm_compute; reflexivity).
  rewrite Hne in H. injection H as <-.
  exists (PParam j). rewrite (add_parameter_container _ _ _ c E1).
  assert (Hg : goes_to c (PParam j) = true).
  { unfold goes_to, p_location. rewrite Hjl. cbn [bind hashable json_eqb]. rewrite Hnf, Hloc. apply loc_eqb_refl. }
  rewrite Hg, set_get_app, Eg. cbn [set_get]. rewrite Hjn. cbn [bind]. rewrite py_eq_refl. reflexivity.
Qed.

(* process_definitions adds security-derived parameters and nothing else, and every apiKey definition among
   [defs] is served by ITS container, at its name; parameters of the same name in OTHER locations play no role *)
Lemma process_definitions_spec v defs : forall o o', process_definitions v defs o = Val o' ->
  (exists ps, add_parameters o ps = Val o' /\ Forall (sec_param v defs) ps) /\
  (forall d n c, In d defs -> api_key_of d = Some (n, c) -> exists p, set_get (container o' c) n = Val (Some p)).
Proof.
  induction defs as [|d r IH]; intros o o' H.
  { injection H as <-. split; [exists []; split; [reflexivity | constructor] | intros d n c []]. }
  rewrite process_definitions_cons in H. apply bind_val in H as (sk & Esk & H).
  assert (R : exists o2 p2, add_parameters o p2 = Val o2 /\ Forall (sec_param v [d]) p2 /\ process_definitions v r o2 = Val o'
              /\ ((defined_already d o = Val true /\ o2 = o) \/ (defined_already d o = Val false /\ derive v d o = Val o2))).
  { destruct sk.
    - exists o, []. split; [reflexivity|]. split; [constructor|]. split; [exact H|]. left. split; [exact Esk | reflexivity].
    - apply bind_val in H as (o2 & E2 & H). destruct (derive_adds v d o o2 E2) as (p2 & A2 & F2).
      exists o2, p2. split; [exact A2|]. split; [exact F2|]. split; [exact H|]. right. split; [exact Esk | exact E2]. }
  destruct R as (o2 & p2 & A2 & F2 & H2 & R). destruct (IH o2 o' H2) as [(ps & A & F) K]. split.
  - exists (p2 ++ ps). rewrite add_parameters_app, A2. split; [exact A|]. apply Forall_app.
    split; [eapply Forall_impl; [|exact F2] | eapply Forall_impl; [|exact F]]; intros p; apply sec_param_incl.
    + intros x [<-|[]]. left; reflexivity.
    + apply incl_tl, incl_refl.
  - intros d' n c [<-|Hin] Hk; [|exact (K d' n c Hin Hk)].
    destruct (api_key_round v d n c o o2 Hk R) as [p Hp].
    exists p. rewrite (add_parameters_container ps o2 o' c A), set_get_app, Hp. reflexivity.
Qed.

Lemma process_definitions_extends v defs o o' c : process_definitions v defs o = Val o' ->
  exists added, container o' c = container o c ++ added /\ Forall (sec_param v defs) added.
Proof.
  intros H. destruct (proj1 (process_definitions_spec v defs o o' H)) as (ps & A & F).
  exists (declared_in c ps). split; [exact (add_parameters_container ps o o' c A)|].
  rewrite Forall_forall in *. intros p Hp. apply filter_In in Hp. apply F, Hp.
Qed.

Lemma make_operation_spec v doc path method params raw resolved scope o' :
  make_operation v doc path method params raw resolved scope = Val o' ->
  exists o1 active, add_parameters (empty_op path method raw resolved scope) params = Val o1 /\
    active_definitions v doc raw = Val active /\ process_definitions v active o1 = Val o'.
Proof.
  unfold make_operation, add_security, active_definitions. intros H. apply bind_val in H as (o1 & E1 & H).
  rewrite (f_equal (fun i => snd (fst (fst i))) (add_parameters_ident _ _ _ E1) : o_raw o1 = raw) in H.
  apply bind_val in H as (defs & Ed & H). apply bind_val in H as (reqs & Er & H). apply bind_val in H as (kvs & Ek & H).
  exists o1. eexists. split; [exact E1|]. rewrite Ed. cbn [bind]. rewrite Er. cbn [bind]. rewrite Ek. split; [reflexivity | exact H].
Qed.

Lemma make_operation_ident v doc path method params raw resolved scope o :
  make_operation v doc path method params raw resolved scope = Val o ->
  ident o = (path, method, raw, resolved, scope).
Proof.
  intros H. destruct (make_operation_spec _ _ _ _ _ _ _ _ _ H) as (o1 & active & E1 & _ & Hp).
  destruct (proj1 (process_definitions_spec _ _ _ _ Hp)) as (ps & A & _).
  rewrite (add_parameters_ident _ _ _ A), (add_parameters_ident _ _ _ E1). reflexivity.
Qed.

Lemma build_op_ident v doc path method shared entry resolved scope o :
  build_op v doc path method shared entry resolved scope = Val o -> ident o = (path, method, entry, resolved, scope).
Proof.
  unfold build_op. intros H. apply bind_val in H as (params & _ & H). apply bind_val in H as (collected & _ & H).
  exact (make_operation_ident _ _ _ _ _ _ _ _ _ H).
Qed.

Lemma process_entry_ident v doc path scope shared method entry o :
  process_entry v doc path scope shared method entry = Val o ->
  o_path o = path /\ o_method o = method /\ o_raw o = entry.
Proof.
  unfold process_entry. intros H. apply bind_val in H as (resolved & _ & H).
  apply build_op_ident in H. inversion H. auto.
Qed.

Opaque process_entry resolve_op resolve_all shared_parameters.
Definition path_header (doc pi : json) : res (str * json * list (str * json)) :=
  do '(scope, item) <- resolve_path_item doc pi;
  do shared <- shared_parameters doc item;
  do kvs <- py_items item;
  Val (scope, shared, kvs).

Definition accounted_path (v : version) (doc : json) (items : list item) (path : str) (pi : json) : Prop :=
  match path_header doc pi with
  | Raise e => In (IErr path None e) items /\ caught e = true
  | Val (scope, shared, kvs) =>
      forall m entry, In (m, entry) kvs -> is_http_method m = true ->
        (exists o, In (IOk o) items /\ process_entry v doc path scope shared m entry = Val o
                   /\ o_path o = path /\ o_method o = m /\ o_raw o = entry)
        \/ (exists e, In (IErr path (Some m) e) items /\ caught e = true
                      /\ process_entry v doc path scope shared m entry = Raise e)
  end.

(* 4. *)
(* what [accounted_path] asks for one method key of a path item *)
Definition accounted_entry v doc (items : list item) (path scope : str) (shared : json) (m : str) (entry : json) : Prop :=
  (exists o, In (IOk o) items /\ process_entry v doc path scope shared m entry = Val o
             /\ o_path o = path /\ o_method o = m /\ o_raw o = entry)
  \/ (exists e, In (IErr path (Some m) e) items /\ caught e = true
                /\ process_entry v doc path scope shared m entry = Raise e).

Lemma accounted_entry_mono v doc items items' path scope shared m entry :
  incl items items' -> accounted_entry v doc items path scope shared m entry ->
  accounted_entry v doc items' path scope shared m entry.
Proof.
  intros Hs [(o & Hi & Ho)|(e & Hi & He)]; [left; exists o | right; exists e]; (split; [apply Hs, Hi | assumption]).
Qed.

Lemma accounted_mono v doc items items' path pi :
  incl items items' -> accounted_path v doc items path pi -> accounted_path v doc items' path pi.
Proof.
  unfold accounted_path. intros Hs. destruct (path_header doc pi) as [[[scope shared] kvs]|e].
  - intros H m entry Hin Hm. exact (accounted_entry_mono _ _ _ _ _ _ _ _ _ Hs (H m entry Hin Hm)).
  - intros [H1 H2]. split; [apply Hs, H1 | exact H2].
Qed.

(* Each of the three loops of get_all_operations either completes, and then everything it went over is accounted
   for by the items yielded, or is ended by an exception of a class that is not turned into Err (the InvalidSchema
   raised for a document without paths is raised outside them). *)
Lemma methods_loop_spec v doc path scope shared kvs : forall items crash,
  methods_loop v doc path scope shared kvs = (items, crash) ->
  match crash with
  | Some e => caught e = false
  | None => forall m entry, In (m, entry) kvs -> is_http_method m = true ->
                            accounted_entry v doc items path scope shared m entry
  end.
Proof.
  induction kvs as [|[m0 e0] r IH]; intros items crash H; cbn [methods_loop] in H.
  { (* no key left *) injection H as <- <-. intros m entry []. }
  destruct (is_http_method m0) eqn:Em0; cbn [negb] in H.
  2:{ (* m0 is not a method key: skipped *)
      specialize (IH _ _ H). destruct crash; [exact IH|].
      intros m entry [[= <- <-]|Hin] Hm; [congruence | exact (IH m entry Hin Hm)]. }
  destruct (process_entry v doc path scope shared m0 e0) as [o|e] eqn:Ep; [|destruct (caught e) eqn:Ec].
  3:{ (* process_entry raises an uncaught class: the generator ends here *) injection H as <- <-. exact Ec. }
  (* process_entry returns o (IOk o is yielded) or raises a caught class (IErr is yielded): the loop goes on,
     and the key met is either m0, accounted for by the item just yielded, or a later one *)
  all: destruct (methods_loop v doc path scope shared r) as [items' crash'] eqn:Er; injection H as <- <-;
    specialize (IH _ _ eq_refl); destruct crash'; [exact IH|]; intros m entry [[= <- <-]|Hin] Hm;
    [|eapply accounted_entry_mono; [apply incl_tl, incl_refl | exact (IH m entry Hin Hm)]].
  - left. exists o. split; [left; reflexivity|]. split; [exact Ep | exact (process_entry_ident _ _ _ _ _ _ _ _ Ep)].
  - right. exists e. split; [left; reflexivity|]. split; [exact Ec | exact Ep].
Qed.

Lemma process_path_spec v doc path pi items crash :
  process_path v doc path pi = (items, crash) ->
  match crash with Some e => caught e = false | None => accounted_path v doc items path pi end.
Proof.
  unfold process_path, accounted_path. fold (path_header doc pi).
  destruct (path_header doc pi) as [[[scope shared] kvs]|e]; [apply methods_loop_spec|].
  (* the path item cannot be read: one IErr naming the path if the class is caught, the end of the generator otherwise *)
  destruct (caught e) eqn:Ec; intros [= <- <-]; [split; [left; reflexivity | reflexivity] | exact Ec].
Qed.

Lemma paths_loop_spec v doc paths : forall items crash,
  paths_loop v doc paths = (items, crash) ->
  match crash with
  | Some e => caught e = false
  | None => forall path pi, In (path, pi) paths -> accounted_path v doc items path pi
  end.
Proof.
  induction paths as [|[p0 pi0] r IH]; intros items crash H; cbn [paths_loop] in H.
  { (* no path left *) injection H as <- <-. intros path pi []. }
  destruct (process_path v doc p0 pi0) as [items0 [e|]] eqn:Ep; pose proof (process_path_spec _ _ _ _ _ _ Ep) as P0.
  { (* the path item p0 ends the generator *) injection H as <- <-. exact P0. }
  destruct (paths_loop v doc r) as [items' crash'] eqn:Er. injection H as <- <-. specialize (IH _ _ eq_refl).
  destruct crash'; [exact IH|]. intros path pi [[= <- <-]|Hin].
  - (* the path p0: its items come first *) eapply accounted_mono; [apply incl_appl, incl_refl | exact P0].
  - (* a later path *) eapply accounted_mono; [apply incl_appr, incl_refl | exact (IH path pi Hin)].
Qed.

Definition ok_responses : str * json := (S "responses", JObj [(S "200", JObj [(k_description, JStr (S "ok"))])]).
Definition doc_with (paths : list (str * json)) : json :=
  JObj [(S "openapi", JStr (S "3.0.2")); (S "info", JObj [(S "title", JStr (S "t")); (S "version", JStr (S "1"))]);
        (k_paths, JObj paths)].
(* q in query at both levels: integer on the path item, string (required) on the operation *)
Definition doc_override : json :=
  let q := fun more ty => JObj ([(k_name, JStr (S "q")); (k_in, JStr s_query)] ++ more ++ [(k_schema, JObj [(k_type, JStr ty)])]) in
  doc_with [(S "/a", JObj [(k_parameters, JArr [q [] (S "integer")]);
                           (S "get", JObj [(k_parameters, JArr [q [(k_required, JBool true)] s_string]); ok_responses])])].
(* the next two as rendered by harness.core.cjson *)
Definition doc_crash : json :=
  (JObj [([111;112;101;110;97;112;105]%N, (JStr [51;46;48;46;50]%N)); ([105;110;102;111]%N, (JObj [([116;105;116;108;101]%N, (JStr [116]%N)); ([118;101;114;115;105;111;110]%N, (JStr [49]%N))])); ([112;97;116;104;115]%N, (JObj [([47;111;107]%N, (JObj [([103;101;116]%N, (JObj [([114;101;115;112;111;110;115;101;115]%N, (JObj [([50;48;48]%N, (JObj [([100;101;115;99;114;105;112;116;105;111;110]%N, (JStr [111;107]%N))]))]))]))])); ([47;98;97;100]%N, (JObj [([103;101;116]%N, (JObj [([112;97;114;97;109;101;116;101;114;115]%N, (JArr [(JInt (5)%Z)])); ([114;101;115;112;111;110;115;101;115]%N, (JObj [([50;48;48]%N, (JObj [([100;101;115;99;114;105;112;116;105;111;110]%N, (JStr [111;107]%N))]))]))]))])); ([47;111;107;50]%N, (JObj [([103;101;116]%N, (JObj [([114;101;115;112;111;110;115;101;115]%N, (JObj [([50;48;48]%N, (JObj [([100;101;115;99;114;105;112;116;105;111;110]%N, (JStr [111;107]%N))]))]))]))]))]))]).
Definition doc_good : json :=
  (JObj [([111;112;101;110;97;112;105]%N, (JStr [51;46;48;46;50]%N)); ([105;110;102;111]%N, (JObj [([116;105;116;108;101]%N, (JStr [116]%N)); ([118;101;114;115;105;111;110]%N, (JStr [49]%N))])); ([112;97;116;104;115]%N, (JObj [([47;97]%N, (JObj [([112;97;114;97;109;101;116;101;114;115]%N, (JArr [(JObj [([110;97;109;101]%N, (JStr [105;100]%N)); ([105;110]%N, (JStr [113;117;101;114;121]%N)); ([115;99;104;101;109;97]%N, (JObj [([116;121;112;101]%N, (JStr [105;110;116;101;103;101;114]%N))]))])])); ([103;101;116]%N, (JObj [([111;112;101;114;97;116;105;111;110;73;100]%N, (JStr [120]%N)); ([112;97;114;97;109;101;116;101;114;115]%N, (JArr [(JObj [([110;97;109;101]%N, (JStr [113]%N)); ([105;110]%N, (JStr [113;117;101;114;121]%N)); ([114;101;113;117;105;114;101;100]%N, (JBool true)); ([115;99;104;101;109;97]%N, (JObj [([116;121;112;101]%N, (JStr [115;116;114;105;110;103]%N))]))])])); ([114;101;115;112;111;110;115;101;115]%N, (JObj [([50;48;48]%N, (JObj [([100;101;115;99;114;105;112;116;105;111;110]%N, (JStr [111;107]%N))]))]))])); ([112;111;115;116]%N, (JObj [([112;97;114;97;109;101;116;101;114;115]%N, (JArr [(JObj [([36;114;101;102]%N, (JStr [35;47;99;111;109;112;111;110;101;110;116;115;47;112;97;114;97;109;101;116;101;114;115;47;77;73;83;83;73;78;71]%N))])])); ([114;101;115;112;111;110;115;101;115]%N, (JObj [([50;48;48]%N, (JObj [([100;101;115;99;114;105;112;116;105;111;110]%N, (JStr [111;107]%N))]))]))]))])); ([47;98]%N, (JObj [([36;114;101;102]%N, (JStr [35;47;110;111;119;104;101;114;101]%N))]))]))]).

(* witnesses are named by where they are found, not by their normal form: the terms checked stay small *)
Definition no_op : operation := empty_op [] [] JNull JNull [].
Definition first_op (items : list item) : operation := match items with IOk o :: _ => o | _ => no_op end.
Definition the_op (r : option result) : operation := match r with Some (ROp (Val o)) => o | _ => no_op end.

Lemma first_op_in items : match items with IOk _ :: _ => True | _ => False end -> In (IOk (first_op items)) items.
Proof. destruct items as [|[o|] r]; intros []. left; reflexivity. Qed.

Lemma the_op_spec r : match r with Some (ROp (Val _)) => True | _ => False end -> r = Some (ROp (Val (the_op r))).
Proof. destruct r as [[|[o|]]|]; intros []. reflexivity. Qed.
Lemma the_op_result r : match r with ROp (Val _) => True | _ => False end -> r = ROp (Val (the_op (Some r))).
Proof. destruct r as [|[o|]]; intros []. reflexivity. Qed.

Definition paths_of (doc : json) : list (str * json) :=
  match py_item doc k_paths with Val (JObj kvs) => kvs | _ => [] end.
Definition nth_path (doc : json) (n : nat) : str * json := nth n (paths_of doc) ([], JNull).

Lemma crash_outcome :
  snd (get_all_operations V30 doc_crash) = Some EType /\
  List.length (fst (get_all_operations V30 doc_crash)) = 1%nat /\
  iteration_completes V30 doc_crash = false.
Proof. vm_compute. repeat split. Qed.

Definition item_path (i : item) : str := match i with IOk o => o_path o | IErr p _ _ => p end.

Lemma accounted_names_path v doc items path pi scope shared kvs m entry :
  accounted_path v doc items path pi -> path_header doc pi = Val (scope, shared, kvs) ->
  In (m, entry) kvs -> is_http_method m = true -> exists i, In i items /\ item_path i = path.
Proof.
  unfold accounted_path. intros A E Hin Hm. rewrite E in A.
  destruct (A m entry Hin Hm) as [(o & Hi & _ & Hp & _)|(e & Hi & _)].
  - exists (IOk o). split; [exact Hi | exact Hp].
  - exists (IErr path (Some m) e). split; [exact Hi | reflexivity].
Qed.

(* each of the two paths has a method key, and the one item yielded names /ok *)
Lemma not_accounted_n n : (n = 1 \/ n = 2)%nat ->
  ~ accounted_path V30 doc_crash (fst (get_all_operations V30 doc_crash)) (fst (nth_path doc_crash n)) (snd (nth_path doc_crash n)).
Proof.
  assert (F : forallb (fun i => str_eqb (item_path i) (S "/ok")) (fst (get_all_operations V30 doc_crash)) = true)
    by (vm_compute; reflexivity).
  rewrite forallb_forall in F.
  intros [-> | ->] A;
    (eapply accounted_names_path in A as (i & Hi & Hp); [|vm_compute; reflexivity | left; reflexivity | reflexivity]);
    specialize (F i Hi); rewrite Hp in F; vm_compute in F; discriminate F.
Qed.

(* 5. *)
(* A dictionary of positions in a list that only grows at its end: the three dictionaries of the cache
   over [c_ops].  [look] is what [by_tk], [by_id] and [by_ref] unfold to. *)
Section Index.
  Context {K N X : Type} (eqb : K -> K -> bool) (f : K -> N).
  Hypothesis eqb_f : forall a b, eqb a b = true <-> f a = f b.

  Definition look (l : list (K * nat)) (xs : list X) (k : K) : option X :=
    match kget eqb k l with Some i => nth_error xs i | None => None end.
  Definition bounded (l : list (K * nat)) (n : nat) : Prop := forall k i, kget eqb k l = Some i -> (i < n)%nat.

  Lemma look_old l xs x k : bounded l (length xs) -> look l (xs ++ [x]) k = look l xs k.
  Proof.
    intros B. unfold look. destruct (kget eqb k l) as [i|] eqn:E; [|reflexivity].
    apply nth_error_app1, (B k i E).
  Qed.

  Lemma look_new l xs x k0 k : bounded l (length xs) ->
    look (kset eqb k0 (length xs) l) (xs ++ [x]) k = if eqb k k0 then Some x else look l xs k.
  Proof.
    intros B. unfold look at 1. rewrite (kget_kset eqb f eqb_f). destruct (eqb k k0); [|apply look_old, B].
    rewrite nth_error_app2, Nat.sub_diag by apply Nat.le_refl. reflexivity.
  Qed.

  Lemma bounded_old l n : bounded l n -> bounded l (Datatypes.S n).
  Proof. intros B k i E. apply Nat.lt_lt_succ_r, (B k i E). Qed.

  Lemma bounded_new l n k0 : bounded l n -> bounded (kset eqb k0 n l) (Datatypes.S n).
  Proof.
    intros B k i. rewrite (kget_kset eqb f eqb_f).
    destruct (eqb k k0); [intros [= <-]; apply Nat.lt_succ_diag_r | apply bounded_old, B].
  Qed.
End Index.

Lemma tkey_eqb_spec (a b : tkey) : tkey_eqb a b = true <-> a = b.
Proof.
  destruct a as [[a1 a2] a3], b as [[b1 b2] b3]. cbn [tkey_eqb].
  rewrite !andb_true_iff, !str_eqb_spec. split; [intros [[-> ->] ->]; reflexivity | intros [= -> -> ->]; auto].
Qed.

Definition wf (c : cache) : Prop :=
  bounded tkey_eqb (c_tks c) (length (c_ops c)) /\ bounded py_eq (c_ids c) (length (c_ops c))
  /\ bounded str_eqb (c_refs c) (length (c_ops c)).

(* _cache.py:81 on a well-formed cache and a hashable id: what each of the three lookups finds afterwards *)
Lemma insert_operation_spec c o tk oid rf : wf c -> id_ok oid = true ->
  exists c', insert_operation c o tk oid rf = (c', None) /\ wf c' /\ c_maps c' = c_maps c /\ c_defs c' = c_defs c /\
    (forall k, by_tk c' k = if tkey_eqb k tk then Some o else by_tk c k) /\
    (forall k, by_id c' k = match oid with Some i => if py_eq k i then Some o else by_id c k | None => by_id c k end) /\
    (forall k, by_ref c' k = match oid, rf with
                             | None, Some r => if str_eqb k r then Some o else by_ref c k
                             | _, _ => by_ref c k
                             end).
Proof.
  intros (Bt & Bi & Br) Hid. unfold insert_operation.
  (* in each of the three shapes the traversal keys get the new index (Ltk, Btk); the ids and the references get it
     or are left alone, two goals each for [bounded] and two for the lookups *)
  pose proof (look_new tkey_eqb id tkey_eqb_spec (c_tks c) (c_ops c) o tk) as Ltk.
  pose proof (bounded_new tkey_eqb id tkey_eqb_spec _ _ tk Bt) as Btk.
  destruct oid as [i|]; [cbn [id_ok] in Hid; rewrite Hid | destruct rf as [r|]];
    (eexists; split; [reflexivity|]);
    unfold wf, by_tk, by_id, by_ref, op_at; cbn [c_tks c_ids c_refs c_ops c_maps c_defs];
    rewrite app_length, Nat.add_1_r; repeat split; try (intros k; apply Ltk, Bt); try exact Btk.
  - apply (bounded_new py_eq norm py_eq_norm), Bi.
  - apply bounded_old, Br.
  - intros k. apply (look_new py_eq norm py_eq_norm), Bi.
  - intros k. apply look_old, Br.
  - apply bounded_old, Bi.
  - apply (bounded_new str_eqb id str_eqb_spec), Br.
  - intros k. apply look_old, Bi.
  - intros k. apply (look_new str_eqb id str_eqb_spec), Br.
  - apply bounded_old, Bi.
  - apply bounded_old, Br.
  - intros k. apply look_old, Bi.
  - intros k. apply look_old, Br.
Qed.

Lemma coherent_gen_spec eqb v doc U : coherent_gen eqb v doc U = true <->
  (forall a, In a U -> self_ok v doc a = true) /\
  (forall a b, In a U -> In b U -> pair_ok_gen eqb v doc a b = true) /\
  ((exists a, In a U /\ is_by_id a = true) -> populate_ok doc = true).
Proof.
  unfold coherent_gen. rewrite !andb_true_iff, !forallb_forall, orb_true_iff, negb_true_iff.
  split.
  - intros [[HS HP] HO]. split; [exact HS|]. split.
    + intros a b Ha Hb. specialize (HP a Ha). rewrite forallb_forall in HP. exact (HP b Hb).
    + intros E. apply existsb_exists in E. destruct HO as [HO|HO]; [congruence | exact HO].
  - intros (HS & HP & HO). split; [split; [exact HS|]|].
    + intros a Ha. apply forallb_forall. intros b Hb. exact (HP a b Ha Hb).
    + destruct (existsb is_by_id U) eqn:E; [right; apply HO, existsb_exists, E | left; reflexivity].
Qed.

Lemma list_eqb_eq {A} (eqb : A -> A -> bool) (Hs : forall x y, eqb x y = true -> x = y) :
  forall a b, list_eqb eqb a b = true -> a = b.
Proof.
  induction a as [|x a IH]; intros [|y b] H; cbn in H; try discriminate; [reflexivity|].
  apply andb_true_iff in H. destruct H as [H1 H2]. f_equal; [apply Hs; exact H1 | apply IH; exact H2].
Qed.

Lemma param_eqb_eq a b : param_eqb a b = true -> a = b.
Proof.
  destruct a, b; cbn [param_eqb]; intros H; try discriminate;
    repeat (apply andb_true_iff in H; let H2 := fresh "H" in destruct H as [H H2]);
    repeat match goal with
           | X : json_eqb _ _ = true |- _ => apply json_eqb_eq in X; subst
           | X : list_eqb json_eqb _ _ = true |- _ => apply (list_eqb_eq _ json_eqb_eq) in X; subst
           end; reflexivity.
Qed.

Lemma op_core_eqb_eq a b : op_core_eqb a b = true -> op_core a = op_core b.
Proof.
  unfold op_core_eqb, op_core. intros H.
  repeat (apply andb_true_iff in H; let H2 := fresh "H" in destruct H as [H H2]).
  repeat match goal with
         | X : str_eqb _ _ = true |- _ => apply str_eqb_spec in X; rewrite X; clear X
         | X : json_eqb _ _ = true |- _ => apply json_eqb_eq in X; rewrite X; clear X
         | X : list_eqb param_eqb _ _ = true |- _ => apply (list_eqb_eq _ param_eqb_eq) in X; rewrite X; clear X
         end.
  reflexivity.
Qed.

Lemma op_full_eqb_eq a b : op_full_eqb a b = true -> a = b.
Proof.
  unfold op_full_eqb. intros H. apply andb_true_iff in H. destruct H as [H1 H2].
  apply op_core_eqb_eq in H1. apply str_eqb_spec in H2. unfold op_core in H1.
  destruct a, b. cbn in *. inversion H1. subst. reflexivity.
Qed.

(* results up to the scope recorded in the operation *)
Definition res_proj {T} (proj : operation -> T) (r : res operation) : res T :=
  match r with Val o => Val (proj o) | Raise e => Raise e end.
Definition result_proj {T} (proj : operation -> T) (r : result) :=
  match r with RIter x => inl x | ROp r => inr (res_proj proj r) end.
Definition res_core := res_proj op_core.
Definition result_core := result_proj op_core.

Definition post_of (a : access) (r : res operation) : res operation :=
  match a with AGet _ _ => to_lookup_error r | _ => r end.

(* what a lookup returns on an empty cache, in terms of its plan *)
Definition planned (a : access) (pl : plan) : res operation :=
  let '(_, b, idf, _) := pl in
  post_of a (match b with Val o => if id_ok (idf o) then Val o else Raise EType | Raise e => Raise e end).

Section Cache.
  Variable v : version.
  Variable doc : json.

  Definition fresh_op (a : access) : res operation :=
    match fresh v doc a with ROp r => r | RIter _ => Raise EOther end.

  (* what a lookup without a plan raises on an empty cache *)
  Definition unplanned (a : access) : exc :=
    match a with
    | AIter => EOther
    | AGet p _ => match fresh_map doc p with Raise e => e | Val _ => ELookup end
    | AById _ => match populate doc [] with (_, Some e) => e | (defs, None) => missing_id_error defs end
    | AByRef r => match resolve doc r with Raise e => e | Val _ => EValue end
    end.

  Lemma finish_fresh c tk b idf rf : c_tks c = [] ->
    finish c tk b idf rf = (planned AIter (tk, b, idf, rf), snd (finish c tk b idf rf)).
  Proof.
    intros H. unfold finish, by_tk. rewrite H. cbn [kget planned post_of]. destruct b as [o|e]; [|reflexivity].
    unfold insert_operation, id_ok. destruct (idf o) as [i|]; [destruct (hashable i) | destruct rf]; reflexivity.
  Qed.

  Lemma fresh_op_spec a :
    fresh_op a = match pgo v doc a with Some pl => planned a pl | None => Raise (unplanned a) end.
  Proof.
    unfold fresh_op, fresh. destruct a as [|p m|i|r]; cbn [pgo step unplanned]; [reflexivity| | |].
    - unfold access_get, get_map. cbn [c_maps empty_cache kget].
      destruct (fresh_map doc p) as [[scope item]|e]; [|reflexivity].
      destruct (ci_get (lower_ascii m) match item with JObj kvs => kvs | _ => [] end) as [opj|]; [|reflexivity].
      cbn zeta. rewrite finish_fresh by reflexivity. reflexivity.
    - unfold access_id. cbn [by_id c_ids empty_cache kget c_defs is_nil].
      destruct (populate doc []) as [defs [e|]]; [reflexivity|]. cbn [with_defs c_defs].
      destruct (kget py_eq (JStr i) defs) as [en|]; [|reflexivity].
      rewrite finish_fresh by reflexivity. reflexivity.
    - unfold access_ref. cbn [by_ref c_refs empty_cache kget].
      destruct (resolve doc r) as [[url opj]|e]; [|reflexivity].
      destruct (last_two (split_on 47 url)) as [[p m]|]; [|reflexivity].
      rewrite finish_fresh by reflexivity. reflexivity.
  Qed.

  Lemma fresh_ROp a : a <> AIter -> fresh v doc a = ROp (fresh_op a).
  Proof.
    unfold fresh_op, fresh. destruct a as [|p m|i|r]; cbn [step]; [congruence| | |]; intros _.
    - destruct (access_get v doc empty_cache p m); reflexivity.
    - destruct (access_id v doc empty_cache i); reflexivity.
    - destruct (access_ref v doc empty_cache r); reflexivity.
  Qed.

  (* The refinement is proved once, for any notion [eqb] of "same operation" in the coherence of the lookups [U]
     and any projection [proj] of the results that [eqb] respects. *)
  Section Refines.
    Variable U : list access.
    Variable T : Type.
    Variable proj : operation -> T.
    Variable eqb : operation -> operation -> bool.
    Hypothesis eqb_sound : forall a b, eqb a b = true -> proj a = proj b.
    Hypothesis Hcoh : coherent_gen eqb v doc U = true.

    (* [o] may be returned for the lookup [a] *)
    Definition good (a : access) (o : operation) : Prop := res_proj proj (fresh_op a) = Val (proj o).

    Record Inv (c : cache) : Prop := {
      inv_wf : wf c;
      inv_maps : forall p m, kget str_eqb p (c_maps c) = Some m -> fresh_map doc p = Val m;
      inv_defs : c_defs c = [] \/ populate doc [] = (c_defs c, None);
      inv_tk : forall a tk b idf rf o, In a U -> pgo v doc a = Some (tk, b, idf, rf) -> by_tk c tk = Some o -> good a o;
      inv_id : forall i o, In (AById i) U -> by_id c (JStr i) = Some o -> good (AById i) o;
      inv_ref : forall r o, In (AByRef r) U -> by_ref c r = Some o -> good (AByRef r) o }.

    Lemma coh_self a : In a U -> self_ok v doc a = true.
    Proof. apply (proj1 (coherent_gen_spec _ _ _ _) Hcoh). Qed.
    Lemma coh_pair a b : In a U -> In b U -> pair_ok_gen eqb v doc a b = true.
    Proof. apply (proj1 (coherent_gen_spec _ _ _ _) Hcoh). Qed.
    Lemma coh_pop i : In (AById i) U -> exists defs, populate doc [] = (defs, None).
    Proof.
      intros H. assert (P : populate_ok doc = true).
      { apply (proj1 (coherent_gen_spec _ _ _ _) Hcoh). exists (AById i). split; [exact H | reflexivity]. }
      unfold populate_ok in P. destruct (populate doc []) as [defs [e|]]; [discriminate|]. exists defs; reflexivity.
    Qed.

    Lemma fresh_of_plan a tk o idf rf : In a U -> pgo v doc a = Some (tk, Val o, idf, rf) -> fresh_op a = Val o.
    Proof.
      intros Ha Hp. rewrite fresh_op_spec, Hp. cbn [planned].
      pose proof (coh_self a Ha) as S. unfold self_ok in S. rewrite Hp in S. rewrite S. destruct a; reflexivity.
    Qed.

    Lemma good_of_plan a tk ob idf rf o :
      In a U -> pgo v doc a = Some (tk, Val ob, idf, rf) -> eqb o ob = true -> good a o.
    Proof.
      intros Ha Hp E. unfold good. rewrite (fresh_of_plan a tk ob idf rf Ha Hp). cbn [res_proj].
      rewrite (eqb_sound o ob E). reflexivity.
    Qed.

    (* what coherence says of the operation [o] the lookup [a] stores: it may be returned for every lookup of [U]
       that finds it, under the traversal key ... *)
    Lemma good_same_key a tk o idf rf a' b' idf' rf' :
      In a U -> pgo v doc a = Some (tk, Val o, idf, rf) ->
      In a' U -> pgo v doc a' = Some (tk, b', idf', rf') -> good a' o.
    Proof.
      intros Ha Hp Ha' Hp'. pose proof (coh_pair a a' Ha Ha') as P. unfold pair_ok_gen in P. rewrite Hp, Hp' in P.
      apply andb_true_iff in P. destruct P as [P _]. rewrite (proj2 (tkey_eqb_spec tk tk) eq_refl) in P.
      destruct b' as [ob|]; [|discriminate]. exact (good_of_plan a' tk ob idf' rf' o Ha' Hp' P).
    Qed.

    (* ... or under the operationId *)
    Lemma good_same_id a tk o idf rf i j :
      In a U -> pgo v doc a = Some (tk, Val o, idf, rf) -> idf o = Some i ->
      In (AById j) U -> py_eq (JStr j) i = true -> good (AById j) o.
    Proof.
      intros Ha Hp Hi Hj Ej. pose proof (coh_pair a (AById j) Ha Hj) as P. unfold pair_ok_gen in P.
      rewrite Hp, Hi, Ej in P.
      destruct (pgo v doc (AById j)) as [[[[tkb bb] idfb] rfb]|] eqn:Hpb; [|discriminate].
      apply andb_true_iff in P. destruct P as [_ P].
      destruct bb as [ob|]; [|discriminate]. exact (good_of_plan (AById j) tkb ob idfb rfb o Hj Hpb P).
    Qed.

    (* the step every lookup ends in: consult the traversal key, otherwise build and insert *)
    Lemma finish_step c a tk b idf rf x c' :
      Inv c -> In a U -> pgo v doc a = Some (tk, b, idf, rf) ->
      (forall r, rf = Some r -> a = AByRef r) ->
      finish c tk b idf rf = (x, c') ->
      res_proj proj (post_of a x) = res_proj proj (planned a (tk, b, idf, rf)) /\ Inv c'.
    Proof.
      intros I Ha Hp Hrf Hf. unfold finish in Hf.
      replace (planned a (tk, b, idf, rf)) with (fresh_op a) by (rewrite fresh_op_spec, Hp; reflexivity).
      destruct (by_tk c tk) as [o|] eqn:Etk.
      { (* the traversal key is known: o is returned, the cache is left alone *)
        injection Hf as <- <-. split; [|exact I]. rewrite (inv_tk c I a tk b idf rf o Ha Hp Etk). destruct a; reflexivity. }
      destruct b as [o|e].
      2:{ (* the build raises: nothing is stored *)
          injection Hf as <- <-. split; [|exact I]. rewrite fresh_op_spec, Hp. reflexivity. }
      (* the build returns o: it is inserted (its operationId is hashable by coherence) and returned *)
      pose proof (coh_self a Ha) as S. unfold self_ok in S. rewrite Hp in S.
      destruct (insert_operation_spec c o tk (idf o) rf (inv_wf c I) S) as (c1 & Ei & W1 & Em & Ed & Ltk & Lid & Lref).
      rewrite Ei in Hf. injection Hf as <- <-.
      pose proof (fresh_of_plan a tk o idf rf Ha Hp) as Hfresh.
      split; [rewrite Hfresh; destruct a; reflexivity|].
      constructor.
      - (* inv_wf *) exact W1.
      - (* inv_maps *) rewrite Em. apply (inv_maps c I).
      - (* inv_defs *) rewrite Ed. apply (inv_defs c I).
      - (* inv_tk: found under the key of o, or as before *)
        intros a' tk' b' idf' rf' o2 Ha' Hp'. rewrite Ltk. destruct (tkey_eqb tk' tk) eqn:Ek.
        + apply tkey_eqb_spec in Ek. subst tk'. intros [= <-]. exact (good_same_key a tk o idf rf a' b' idf' rf' Ha Hp Ha' Hp').
        + apply (inv_tk c I a' tk' b' idf' rf' o2 Ha' Hp').
      - (* inv_id: found under the operationId of o, or as before *)
        intros j o2 Hj. rewrite Lid. destruct (idf o) as [i|] eqn:Eid; [|apply (inv_id c I j o2 Hj)].
        destruct (py_eq (JStr j) i) eqn:Ej; [|apply (inv_id c I j o2 Hj)].
        intros [= <-]. exact (good_same_id a tk o idf rf i j Ha Hp Eid Hj Ej).
      - (* inv_ref: found under the reference of this lookup (stored only when o has no operationId), or as before *)
        intros r o2 Hr. rewrite Lref. destruct (idf o); [apply (inv_ref c I r o2 Hr)|].
        destruct rf as [r0|]; [|apply (inv_ref c I r o2 Hr)].
        destruct (str_eqb r r0) eqn:Er; [|apply (inv_ref c I r o2 Hr)].
        apply str_eqb_spec in Er. subst r0. intros [= <-]. unfold good. rewrite <- (Hrf r eq_refl), Hfresh. reflexivity.
    Qed.

    Lemma Inv_empty : Inv empty_cache.
    Proof.
      constructor; try (intros; discriminate); [|left; reflexivity].
      repeat split; intros k i; discriminate.
    Qed.

    Lemma Inv_with_map c p m : Inv c -> fresh_map doc p = Val m -> Inv (with_map c p m).
    Proof.
      intros I Hm. destruct I. constructor; cbn [with_map c_maps c_defs]; auto.
      intros p' m'. rewrite (kget_kset str_eqb id str_eqb_spec). destruct (str_eqb p' p) eqn:E; [|apply inv_maps0].
      apply str_eqb_spec in E. subst p'. intros [= <-]. exact Hm.
    Qed.

    Lemma Inv_with_defs c d : Inv c -> populate doc [] = (d, None) -> Inv (with_defs c d).
    Proof. intros I Hd. destruct I. constructor; cbn [with_defs c_maps c_defs]; auto. Qed.

    Lemma get_map_spec c p : Inv c -> exists c1, get_map doc c p = (fresh_map doc p, c1) /\ Inv c1.
    Proof.
      intros I. unfold get_map. destruct (kget str_eqb p (c_maps c)) as [m|] eqn:E.
      - rewrite (inv_maps c I p m E). exists c. split; [reflexivity | exact I].
      - destruct (fresh_map doc p) as [m|e] eqn:Em.
        + exists (with_map c p m). split; [reflexivity | apply Inv_with_map; assumption].
        + exists c. split; [reflexivity | exact I].
    Qed.

    Lemma step_get c p m x c' :
      Inv c -> In (AGet p m) U -> access_get v doc c p m = (x, c') ->
      res_proj proj x = res_proj proj (fresh_op (AGet p m)) /\ Inv c'.
    Proof.
      intros I Ha H. unfold access_get in H. cbn zeta in H.
      destruct (get_map_spec c p I) as (c1 & Em & I1). rewrite Em in H. clear Em.
      rewrite fresh_op_spec. cbn [pgo unplanned].
      destruct (fresh_map doc p) as [[scope item]|e] eqn:Efm.
      2:{ injection H as <- <-. split; [reflexivity | exact I1]. }
      destruct (ci_get (lower_ascii m) match item with JObj kvs => kvs | _ => [] end) as [opj|] eqn:Eci.
      2:{ injection H as <- <-. split; [reflexivity | exact I1]. }
      destruct (finish c1 _ _ _ _) as [r c2] eqn:Ef. injection H as <- <-.
      refine (finish_step c1 (AGet p m) _ _ _ _ r c2 I1 Ha _ _ Ef); [|discriminate].
      cbn [pgo]. rewrite Efm, Eci. reflexivity.
    Qed.

    (* the id scan: performed by this lookup or by an earlier one, it leaves the definitions a fresh scan gives *)
    Lemma scan_spec c defs : Inv c -> populate doc [] = (defs, None) ->
      exists c1, Inv c1 /\ c_defs c1 = defs /\
        (if is_nil (c_defs c) then let '(d, x) := populate doc (c_defs c) in (with_defs c d, x) else (c, None)) = (c1, None).
    Proof.
      intros I Hpop. destruct (c_defs c) as [|d0 dr] eqn:Ed; cbn [is_nil].
      - rewrite Hpop. exists (with_defs c defs). split; [apply Inv_with_defs; assumption | split; reflexivity].
      - exists c. split; [exact I | split; [|reflexivity]].
        destruct (inv_defs c I) as [E|E]; congruence.
    Qed.

    Lemma step_id c i x c' :
      Inv c -> In (AById i) U -> access_id v doc c i = (x, c') ->
      res_proj proj x = res_proj proj (fresh_op (AById i)) /\ Inv c'.
    Proof.
      intros I Ha H. unfold access_id in H.
      destruct (by_id c (JStr i)) as [o|] eqn:Eid.
      { injection H as <- <-. split; [|exact I]. rewrite (inv_id c I i o Ha Eid). reflexivity. }
      destruct (coh_pop i Ha) as [defs Hpop].
      destruct (scan_spec c defs I Hpop) as (c1 & I1 & Hd1 & E1). rewrite E1, Hd1 in H. clear E1.
      rewrite fresh_op_spec. cbn [pgo unplanned]. rewrite Hpop.
      destruct (kget py_eq (JStr i) defs) as [en|] eqn:Ek.
      2:{ injection H as <- <-. split; [reflexivity | exact I1]. }
      refine (finish_step c1 (AById i) _ _ _ _ x c' I1 Ha _ _ H); [|discriminate].
      cbn [pgo]. rewrite Hpop, Ek. reflexivity.
    Qed.

    Lemma step_ref c r x c' :
      Inv c -> In (AByRef r) U -> access_ref v doc c r = (x, c') ->
      res_proj proj x = res_proj proj (fresh_op (AByRef r)) /\ Inv c'.
    Proof.
      intros I Ha H. unfold access_ref in H.
      destruct (by_ref c r) as [o|] eqn:Er.
      { injection H as <- <-. split; [|exact I]. rewrite (inv_ref c I r o Ha Er). reflexivity. }
      rewrite fresh_op_spec. cbn [pgo unplanned].
      destruct (resolve doc r) as [[url opj]|e] eqn:Eres.
      2:{ injection H as <- <-. split; [reflexivity | exact I]. }
      destruct (last_two (split_on 47 url)) as [[p m]|] eqn:El.
      2:{ injection H as <- <-. split; [reflexivity | exact I]. }
      refine (finish_step c (AByRef r) _ _ _ _ x c' I Ha _ _ H); [|intros r0 [= <-]; reflexivity].
      cbn [pgo]. rewrite Eres, El. reflexivity.
    Qed.

    Lemma step_refines c a x c' :
      Inv c -> In a U -> step v doc c a = (x, c') ->
      result_proj proj x = result_proj proj (fresh v doc a) /\ Inv c'.
    Proof.
      intros I Ha H. destruct a as [|p m|i|r]; [injection H as <- <-; split; [reflexivity | exact I]| | |];
        rewrite fresh_ROp by discriminate; cbn [step] in H.
      - destruct (access_get v doc c p m) as [y c2] eqn:E. injection H as <- <-.
        destruct (step_get c p m y c2 I Ha E) as [R I2]. cbn [result_proj]. rewrite R. split; [reflexivity | exact I2].
      - destruct (access_id v doc c i) as [y c2] eqn:E. injection H as <- <-.
        destruct (step_id c i y c2 I Ha E) as [R I2]. cbn [result_proj]. rewrite R. split; [reflexivity | exact I2].
      - destruct (access_ref v doc c r) as [y c2] eqn:E. injection H as <- <-.
        destruct (step_ref c r y c2 I Ha E) as [R I2]. cbn [result_proj]. rewrite R. split; [reflexivity | exact I2].
    Qed.

    Lemma run_refines accs : forall c, Inv c -> incl accs U ->
      map (result_proj proj) (run v doc c accs) = map (fun a => result_proj proj (fresh v doc a)) accs.
    Proof.
      induction accs as [|a r IH]; intros c I Hin; [reflexivity|]. apply incl_cons_inv in Hin. destruct Hin as [Ha Hr].
      cbn [run map]. destruct (step v doc c a) as [x c'] eqn:Es.
      destruct (step_refines c a x c' I Ha Es) as [R I']. cbn [map]. rewrite R, (IH c' I' Hr). reflexivity.
    Qed.
  End Refines.
End Cache.

Lemma cache_refines_fresh_gen {T} (proj : operation -> T) eqb v doc accs :
  (forall a b, eqb a b = true -> proj a = proj b) -> coherent_gen eqb v doc accs = true ->
  map (result_proj proj) (run v doc empty_cache accs) = map (fun a => result_proj proj (fresh v doc a)) accs.
Proof. intros Hs H. apply (run_refines v doc accs T proj eqb Hs H); [apply Inv_empty | apply incl_refl]. Qed.

Lemma map_inj {A B} (f : A -> B) (Hf : forall x y, f x = f y -> x = y) : forall l l', map f l = map f l' -> l = l'.
Proof.
  induction l as [|x l IH]; intros [|y l'] E; try discriminate E; [reflexivity|].
  injection E as E1 E2. f_equal; [exact (Hf x y E1) | exact (IH l' E2)].
Qed.

Lemma result_proj_id_inj r1 r2 : result_proj (fun o => o) r1 = result_proj (fun o => o) r2 -> r1 = r2.
Proof.
  destruct r1 as [x1|[o1|e1]], r2 as [x2|[o2|e2]]; cbn [result_proj res_proj]; intros H; try discriminate; congruence.
Qed.

(* 6. *)
Lemma build_by_path_key v doc p m scope kvs opj o :
  build_by_path v doc p m scope kvs opj = Val o -> o_scope o = scope /\ o_path o = p /\ o_method o = m.
Proof.
  unfold build_by_path. intros H. apply bind_val in H as (resolved & _ & H). apply bind_val in H as (shared & _ & H).
  apply build_op_ident in H. inversion H. auto.
Qed.

Lemma build_by_id_key v doc en o :
  build_by_id v doc en = Val o -> o_scope o = e_scope en /\ o_path o = e_path en /\ o_method o = e_method en.
Proof.
  unfold build_by_id. intros H. apply bind_val in H as (resolved & _ & H). apply bind_val in H as (shared & _ & H).
  apply build_op_ident in H. inversion H. auto.
Qed.

Lemma build_by_ref_key v doc r url p m opj o :
  build_by_ref v doc r url p m opj = Val o -> o_scope o = url /\ o_path o = p /\ o_method o = m.
Proof.
  unfold build_by_ref. intros H. apply bind_val in H as (resolved & _ & H). apply bind_val in H as (parent & _ & H).
  apply bind_val in H as ([u pi] & _ & H). apply bind_val in H as (shared & _ & H).
  apply build_op_ident in H. inversion H. auto.
Qed.

(* [injection] on an equation between concrete plans weak-head normalises the build (through [resolve_all FUEL]) *)
Lemma plan_eq (tk tk' : tkey) (b b' : res operation) (idf idf' : operation -> option json) (rf rf' : option str) :
  Some (tk, b, idf, rf) = Some (tk', b', idf', rf') -> tk = tk' /\ b = b'.
Proof. intros [= -> ->]. split; reflexivity. Qed.

Definition own_scope (doc : json) (paths : list (str * json)) (en : entry) : Prop :=
  exists pi, In (e_path en, pi) paths /\ resolve_path_item doc pi = Val (e_scope en, e_item en)
             /\ exists kvs, py_items (e_item en) = Val kvs /\ In (e_method en, e_op en) kvs.

Lemma kset_in (P : entry -> Prop) id en0 : forall defs,
  (forall k en, In (k, en) defs -> P en) -> P en0 ->
  forall k en, In (k, en) (kset py_eq id en0 defs) -> P en.
Proof.
  induction defs as [|[k' en'] dr IHd]; intros Hd H0 k en Hin; cbn [kset] in Hin.
  - destruct Hin as [Hin|[]]. inversion Hin; subst. exact H0.
  - destruct (py_eq id k').
    + destruct Hin as [Hin|Hin]; [inversion Hin; subst; exact H0 | eapply Hd; right; exact Hin].
    + destruct Hin as [Hin|Hin]; [inversion Hin; subst; eapply Hd; left; reflexivity|].
      eapply IHd; [intros; eapply Hd; right; eassumption | exact H0 | exact Hin].
Qed.

Lemma populate_entries_own (P : entry -> Prop) path scope item kvs : forall defs defs' x,
  (forall k en, In (k, en) defs -> P en) ->
  (forall key e, In (key, e) kvs -> P {| e_path := path; e_method := key; e_scope := scope; e_item := item; e_op := e |}) ->
  populate_entries path scope item kvs defs = (defs', x) ->
  forall k en, In (k, en) defs' -> P en.
Proof.
  induction kvs as [|[key e] r IH]; intros defs defs' x Hd Hk H; cbn [populate_entries] in H.
  - inversion H; subst. exact Hd.
  - assert (Hr : forall key0 e0, In (key0, e0) r -> P {| e_path := path; e_method := key0; e_scope := scope; e_item := item; e_op := e0 |})
      by (intros; apply Hk; right; assumption).
    destruct (negb (is_http_method key)); [eapply IH; eauto|].
    destruct (py_in k_operationId e) as [[|]|]; [| eapply IH; eauto | inversion H; subst; exact Hd].
    destruct (py_item e k_operationId) as [id|]; [|inversion H; subst; exact Hd].
    destruct (hashable id); [|inversion H; subst; exact Hd].
    eapply IH; [| exact Hr | exact H].
    apply kset_in; [exact Hd | apply Hk; left; reflexivity].
Qed.

Lemma populate_paths_own doc all paths : forall defs defs' x,
  (forall z, In z paths -> In z all) ->
  (forall k en, In (k, en) defs -> own_scope doc all en) ->
  populate_paths doc paths defs = (defs', x) ->
  forall k en, In (k, en) defs' -> own_scope doc all en.
Proof.
  induction paths as [|[path pi] r IH]; intros defs defs' x Hsub Hd H; cbn [populate_paths] in H.
  - inversion H; subst. exact Hd.
  - destruct (py_in k_ref pi) as [has|] eqn:Ehas; cbn [bind] in H; [|inversion H; subst; exact Hd].
    assert (Hrp : forall scope item, (if has then do x0 <- py_item pi k_ref; resolve_value doc x0 else Val ([], pi)) = Val (scope, item) ->
                  resolve_path_item doc pi = Val (scope, item)).
    { intros scope item E. unfold resolve_path_item. rewrite Ehas. cbn [bind]. exact E. }
    destruct (if has then do x0 <- py_item pi k_ref; resolve_value doc x0 else Val ([], pi)) as [[scope item]|] eqn:Esc;
      cbn [bind] in H; [|inversion H; subst; exact Hd].
    destruct (py_items item) as [kvs|] eqn:Ekv; cbn [bind] in H; [|inversion H; subst; exact Hd].
    assert (Hnew : forall key e0, In (key, e0) kvs ->
              own_scope doc all {| e_path := path; e_method := key; e_scope := scope; e_item := item; e_op := e0 |}).
    { intros key e0 Hin. exists pi. cbn. split; [apply Hsub; left; reflexivity|]. split; [apply Hrp; reflexivity|]. exists kvs. split; assumption. }
    destruct (populate_entries path scope item kvs defs) as [defs1 [e|]] eqn:Epe.
    + inversion H; subst. eapply (populate_entries_own (own_scope doc all)); [exact Hd | exact Hnew | exact Epe].
    + eapply IH; [intros; apply Hsub; right; assumption | | exact H].
      eapply (populate_entries_own (own_scope doc all)); [exact Hd | exact Hnew | exact Epe].
Qed.

(* documents and access sequences on which results depend on earlier accesses (doc_good2 as rendered by harness.core.cjson) *)
Definition s_x : str := [120%N].
Definition p_a : str := [47;97]%N.
Definition m_get : str := [103;101;116]%N.
Definition accs_dup : list access := [AGet p_a m_get; AById s_x].
Definition accs_twice_id : list access := [AById s_x; AById s_x].
Definition accs_twice_get : list access := [AGet p_a m_get; AGet p_a m_get].
Definition get_x : json := JObj [(S "get", JObj [(k_operationId, JStr s_x); ok_responses])].
Definition doc_dup : json := doc_with [(S "/a", get_x); (S "/b", get_x)].
Definition doc_partial : json := doc_with [(S "/a", get_x); (S "/b", JObj [(k_ref, JStr (S "#/nowhere"))])].
Definition doc_unhashable : json :=
  JObj [(S "openapi", JStr (S "3.0.2")); (k_paths, JObj [(p_a, JObj [(m_get, JObj [(k_operationId, JArr [])])])])].

Definition doc_good2 : json :=
  (JObj [([111;112;101;110;97;112;105]%N, (JStr [51;46;48;46;50]%N)); ([105;110;102;111]%N, (JObj [([116;105;116;108;101]%N, (JStr [116]%N)); ([118;101;114;115;105;111;110]%N, (JStr [49]%N))])); ([112;97;116;104;115]%N, (JObj [([47;97]%N, (JObj [([112;97;114;97;109;101;116;101;114;115]%N, (JArr [(JObj [([110;97;109;101]%N, (JStr [105;100]%N)); ([105;110]%N, (JStr [113;117;101;114;121]%N)); ([115;99;104;101;109;97]%N, (JObj [([116;121;112;101]%N, (JStr [105;110;116;101;103;101;114]%N))]))])])); ([103;101;116]%N, (JObj [([111;112;101;114;97;116;105;111;110;73;100]%N, (JStr [120]%N)); ([112;97;114;97;109;101;116;101;114;115]%N, (JArr [(JObj [([110;97;109;101]%N, (JStr [113]%N)); ([105;110]%N, (JStr [113;117;101;114;121]%N)); ([114;101;113;117;105;114;101;100]%N, (JBool true)); ([115;99;104;101;109;97]%N, (JObj [([116;121;112;101]%N, (JStr [115;116;114;105;110;103]%N))]))])])); ([114;101;115;112;111;110;115;101;115]%N, (JObj [([50;48;48]%N, (JObj [([100;101;115;99;114;105;112;116;105;111;110]%N, (JStr [111;107]%N))]))]))])); ([112;111;115;116]%N, (JObj [([112;97;114;97;109;101;116;101;114;115]%N, (JArr [(JObj [([36;114;101;102]%N, (JStr [35;47;99;111;109;112;111;110;101;110;116;115;47;112;97;114;97;109;101;116;101;114;115;47;77;73;83;83;73;78;71]%N))])])); ([114;101;115;112;111;110;115;101;115]%N, (JObj [([50;48;48]%N, (JObj [([100;101;115;99;114;105;112;116;105;111;110]%N, (JStr [111;107]%N))]))]))]))]))]))]).
Definition accs_good : list access :=
  [AGet p_a [71;69;84]%N; AById s_x; AByRef [35;47;112;97;116;104;115;47;126;49;97;47;103;101;116]%N; AIter; AById s_x; AGet p_a m_get;
   AGet [47;98]%N m_get; AById [110;111]%N].
(* the recorded scope depends on whether the operation was first reached by reference *)
Definition ref_a_get : str := [35;47;112;97;116;104;115;47;126;49;97;47;103;101;116]%N.
Definition accs_ref_first : list access := [AByRef ref_a_get; AGet p_a m_get].
Definition accs_good_strict : list access :=
  [AById s_x; AGet p_a [71;69;84]%N; AIter; AById s_x; AGet p_a m_get; AGet [47;98]%N m_get; AById [110;111]%N].
(* witness: API key in the header token, a declared query parameter token on the operation, a declared header token on
   another one, two requirements at once (header token and query api_key) *)
Definition doc_sec_clash : json :=
  let tok := S "token" in
  let str_schema := JObj [(k_schema, JObj [(k_type, JStr s_string)])] in
  let prm := fun n l => JObj [(k_name, JStr n); (k_in, JStr l); (k_schema, JObj [(k_type, JStr s_string)])] in
  let ok := (S "responses", JObj [(S "200", JObj [(k_description, JStr (S "ok"))])]) in
  JObj [(S "openapi", JStr (S "3.0.2"));
        (k_security, JArr [JObj [(S "T", JArr []); (S "K", JArr [])]]);
        (k_paths, JObj [
           (S "/reset", JObj [(k_parameters, JArr [prm tok s_cookie]);
                              (S "post", JObj [(k_parameters, JArr [prm tok s_query]); ok])]);
           (S "/me", JObj [(S "get", JObj [(k_parameters, JArr [prm tok s_header; prm (S "api_key") s_query]); ok])])]);
        (k_components, JObj [(k_securitySchemes, JObj [
           (S "T", JObj [(k_type, JStr s_apiKey); (k_name, JStr tok); (k_in, JStr s_header)]);
           (S "K", JObj [(k_type, JStr s_apiKey); (k_name, JStr (S "api_key")); (k_in, JStr s_query)])])])].

(* 7. *)
Definition esc1 (c : N) : str := if N.eqb c 126 then [126; 48]%N else if N.eqb c 47 then [126; 49]%N else [c].
Definition esc0 (c : N) : str := if N.eqb c 126 then [126; 48]%N else [c].

Lemma escape_pointer_flat p : escape_pointer p = flat_map esc1 p.
Proof.
  unfold escape_pointer, replace_char. induction p as [|c p IH]; [reflexivity|].
  cbn [flat_map]. rewrite flat_map_app. rewrite IH. f_equal.
  unfold esc1. destruct (N.eqb c 126) eqn:E.
  - reflexivity.
  - cbn [flat_map]. rewrite app_nil_r. reflexivity.
Qed.

Lemma repl2_skip a b c x t : N.eqb x a = false -> repl2 a b c (x :: t) = x :: repl2 a b c t.
Proof. intros H. destruct t as [|y r]; [reflexivity|]. cbn [repl2]. rewrite H. reflexivity. Qed.

Lemma unescape_step1 p : repl2 126 49 47 (flat_map esc1 p) = flat_map esc0 p.
Proof.
  induction p as [|c p IH]; [reflexivity|]. cbn [flat_map]. unfold esc1 at 1, esc0 at 1.
  destruct (N.eqb c 126) eqn:E.
  - cbn [app].
    change (repl2 126 49 47 (126 :: 48 :: flat_map esc1 p)%N) with (126 :: repl2 126 49 47 (48 :: flat_map esc1 p))%N.
    rewrite repl2_skip by reflexivity. rewrite IH. reflexivity.
  - destruct (N.eqb c 47) eqn:E2.
    + cbn [app].
      change (repl2 126 49 47 (126 :: 49 :: flat_map esc1 p)%N) with (47 :: repl2 126 49 47 (flat_map esc1 p))%N.
      rewrite IH. apply N.eqb_eq in E2. subst c. reflexivity.
    + cbn [app]. rewrite repl2_skip by exact E. rewrite IH. reflexivity.
Qed.

Lemma unescape_step2 p : repl2 126 48 126 (flat_map esc0 p) = p.
Proof.
  induction p as [|c p IH]; [reflexivity|]. cbn [flat_map]. unfold esc0 at 1.
  destruct (N.eqb c 126) eqn:E.
  - cbn [app].
    change (repl2 126 48 126 (126 :: 48 :: flat_map esc0 p)%N) with (126 :: repl2 126 48 126 (flat_map esc0 p))%N.
    rewrite IH. apply N.eqb_eq in E. subst c. reflexivity.
  - cbn [app]. rewrite repl2_skip by exact E. rewrite IH. reflexivity.
Qed.

Lemma pointer_roundtrip p : unescape (escape_pointer p) = p.
Proof. unfold unescape. rewrite escape_pointer_flat, unescape_step1, unescape_step2. reflexivity. Qed.

Lemma escape_pointer_inj p q : escape_pointer p = escape_pointer q -> p = q.
Proof. intros H. rewrite <- (pointer_roundtrip p), <- (pointer_roundtrip q), H. reflexivity. Qed.

Lemma escape_pointer_chars p x : In x (escape_pointer p) -> x = 126%N \/ x = 48%N \/ x = 49%N \/ (In x p /\ x <> 47%N).
Proof.
  rewrite escape_pointer_flat. induction p as [|c p IH]; cbn [flat_map]; [intros []|].
  rewrite in_app_iff. intros [H|H].
  - unfold esc1 in H. destruct (N.eqb c 126) eqn:E; [cbn in H; intuition|].
    destruct (N.eqb c 47) eqn:E2; [cbn in H; intuition|].
    destruct H as [H|[]]. subst x. right; right; right. apply N.eqb_neq in E2. split; [left; reflexivity | assumption].
  - destruct (IH H) as [?|[?|[?|[? ?]]]]; auto. right; right; right. split; [right; assumption | assumption].
Qed.

Lemma escape_pointer_no_slash p : ~ In 47%N (escape_pointer p).
Proof. intros H. apply escape_pointer_chars in H. destruct H as [H|[H|[H|[_ H]]]]; try discriminate. apply H; reflexivity. Qed.

Lemma escape_pointer_nonempty p : p <> [] -> exists t c, escape_pointer p = t ++ [c] /\ c <> 47%N.
Proof.
  intros Hp. destruct (exists_last (l := escape_pointer p)) as [t [c E]].
  - rewrite escape_pointer_flat. destruct p as [|x p]; [congruence|]. cbn [flat_map]. unfold esc1.
    destruct (N.eqb x 126); [discriminate|]. destruct (N.eqb x 47); discriminate.
  - exists t, c. split; [exact E|]. intros ->. apply (escape_pointer_no_slash p). rewrite E. apply in_or_app. right. left. reflexivity.
Qed.

Lemma rstrip_slash_id t c : c <> 47%N -> rstrip_slash (t ++ [c]) = t ++ [c].
Proof.
  intros H. unfold rstrip_slash. rewrite rev_app_distr. cbn [rev app strip_left mem existsb].
  apply N.eqb_neq in H. rewrite H. cbn [orb]. cbn [rev]. rewrite rev_involutive. reflexivity.
Qed.

Definition meth_ok (m : str) : bool :=
  str_eqb (lower_ascii m) m && negb (mem 47 m) && negb (mem 126 m) && negb (mem 37 m) && negb (is_nil m).

Lemma not_mem c s : negb (mem c s) = true -> ~ In c s.
Proof. intros H X. apply mem_spec in X. rewrite X in H. discriminate. Qed.

Lemma http_method_props m : is_http_method m = true ->
  lower_ascii m = m /\ ~ In 47%N m /\ ~ In 126%N m /\ ~ In 37%N m /\ exists t c, m = t ++ [c] /\ c <> 47%N.
Proof.
  intros H. unfold is_http_method in H. rewrite existsb_exists in H. destruct H as [x [H He]].
  apply str_eqb_spec in He. subst x.
  assert (F : forallb meth_ok HTTP_METHODS = true) by (vm_compute; reflexivity).
  rewrite forallb_forall in F. apply F in H. unfold meth_ok in H.
  repeat (apply andb_true_iff in H; let H2 := fresh "H" in destruct H as [H H2]).
  apply str_eqb_spec in H. apply not_mem in H3. apply not_mem in H2. apply not_mem in H1.
  repeat split; try assumption.
  destruct m as [|x m]; [discriminate|]. destruct (exists_last (l := x :: m)) as [t [c E]]; [discriminate|].
  exists t, c. split; [exact E|]. intros ->. apply H3. rewrite E. apply in_or_app. right. left. reflexivity.
Qed.

Lemma k_paths_no_slash : ~ In 47%N k_paths.
Proof. apply not_mem. vm_compute. reflexivity. Qed.

Lemma reference_of_inj p m q n : reference_of p m = reference_of q n -> p = q /\ m = n.
Proof.
  unfold reference_of. intros E. apply app_inv_head in E.
  destruct (app_sep_inj 47%N _ _ _ _ (escape_pointer_no_slash p) (escape_pointer_no_slash q) E) as [Ep ->].
  split; [exact (escape_pointer_inj p q Ep) | reflexivity].
Qed.

Lemma split_reference p m : ~ In 47%N m -> split_on 47 (reference_of p m) = [[35%N]; k_paths; escape_pointer p; m].
Proof.
  intros Hm. change (reference_of p m) with ([35] ++ 47 :: k_paths ++ 47 :: escape_pointer p ++ 47 :: m)%N.
  rewrite !split_on_app, (split_on_nosep _ _ k_paths_no_slash), (split_on_nosep _ _ (escape_pointer_no_slash p)),
    (split_on_nosep _ _ Hm). reflexivity.
Qed.

Lemma rstrip_reference p m : (exists t c, m = t ++ [c] /\ c <> 47%N) -> rstrip_slash (reference_of p m) = reference_of p m.
Proof.
  intros [t [c [E Hc]]]. subst m. unfold reference_of.
  replace (S "#/paths/" ++ escape_pointer p ++ 47%N :: t ++ [c]) with ((S "#/paths/" ++ escape_pointer p ++ 47%N :: t) ++ [c]).
  - apply rstrip_slash_id. exact Hc.
  - rewrite <- app_assoc. f_equal. rewrite <- app_assoc. reflexivity.
Qed.

Lemma pct_high_nopct s : ~ In 37%N s -> pct_high s = false.
Proof.
  induction s as [|c t IH]; intros H; [reflexivity|]. cbn [pct_high].
  destruct (N.eqb c 37) eqn:E; [apply N.eqb_eq in E; subst; exfalso; apply H; left; reflexivity|].
  apply IH. intros X. apply H. right. exact X.
Qed.
Lemma unquote_nopct s : ~ In 37%N s -> unquote s = s.
Proof.
  induction s as [|c t IH]; intros H; [reflexivity|]. cbn [unquote].
  destruct (N.eqb c 37) eqn:E; [apply N.eqb_eq in E; subst; exfalso; apply H; left; reflexivity|].
  rewrite IH; [reflexivity|]. intros X. apply H. right. exact X.
Qed.
Lemma repl2_absent a b c s : ~ In a s -> repl2 a b c s = s.
Proof.
  induction s as [|x t IH]; intros H; [reflexivity|].
  rewrite repl2_skip.
  - rewrite IH; [reflexivity|]. intros X. apply H. right. exact X.
  - apply N.eqb_neq. intros ->. apply H. left. reflexivity.
Qed.
Lemma unescape_notilde s : ~ In 126%N s -> unescape s = s.
Proof. intros H. unfold unescape. rewrite (repl2_absent 126 49 47 s H). apply repl2_absent. exact H. Qed.

Lemma k_paths_no_pct : ~ In 37%N k_paths.
Proof. apply not_mem. vm_compute. reflexivity. Qed.

(* a pointer below #/paths: the rest [X] has no percent sign and does not end in a slash *)
Lemma resolve_under_paths doc X t c v :
  X = t ++ [c] -> c <> 47%N -> ~ In 37%N X ->
  pointer_walk doc (k_paths :: map unescape (split_on 47 X)) = Some v ->
  resolve doc (35 :: 47 :: k_paths ++ 47 :: X)%N = Val ((35 :: 47 :: k_paths ++ 47 :: X)%N, v).
Proof.
  intros -> Hc Hp Hw. unfold resolve.
  assert (R : rstrip_slash (35 :: 47 :: k_paths ++ 47 :: t ++ [c])%N = (35 :: 47 :: k_paths ++ 47 :: t ++ [c])%N)
    by exact (rstrip_slash_id (35 :: 47 :: k_paths ++ 47 :: t)%N c Hc).
  assert (Hq : ~ In 37%N (k_paths ++ 47 :: t ++ [c])%N).
  { intros X. apply in_app_or in X. destruct X as [X|[X|X]]; [exact (k_paths_no_pct X) | discriminate | exact (Hp X)]. }
  rewrite R. change (strip_left [47%N] (47 :: k_paths ++ 47 :: t ++ [c])%N) with (k_paths ++ 47 :: t ++ [c])%N.
  change (is_nil (k_paths ++ 47 :: t ++ [c])%N) with false. cbv iota.
  rewrite (pct_high_nopct _ Hq), (unquote_nopct _ Hq), split_on_app, (split_on_nosep _ _ k_paths_no_slash).
  cbn [app map]. change (unescape k_paths) with k_paths. rewrite Hw. reflexivity.
Qed.

Lemma pointer_walk_app a : forall b d,
  pointer_walk d (a ++ b) = match pointer_walk d a with Some d' => pointer_walk d' b | None => None end.
Proof.
  induction a as [|x a IH]; intros b d; [reflexivity|]. cbn [app pointer_walk].
  destruct (pointer_step d x); [apply IH | reflexivity].
Qed.

Lemma opt_json_eqb_eq a b : opt_json_eqb a b = true -> a = b.
Proof. destruct a, b; cbn; intros H; try discriminate; [apply json_eqb_eq in H; subst|]; reflexivity. Qed.

Record plain (doc : json) (p m : str) (kvs : list (str * json)) (opj : json) : Prop := {
  pl_entry : entry_of doc p = Some kvs;
  pl_ne : p <> [];
  pl_pct : ~ In 37%N p;
  pl_meth : is_http_method m = true;
  pl_noref : assoc_mem k_ref kvs = false;
  pl_op : assoc_get m kvs = Some opj;
  pl_ci : ci_get m kvs = Some opj;
  pl_params : ci_get k_parameters kvs = assoc_get k_parameters kvs }.

Lemma plain_entry_spec doc p m : plain_entry doc p m = true -> exists kvs opj, plain doc p m kvs opj.
Proof.
  unfold plain_entry. destruct (entry_of doc p) as [kvs|] eqn:Ee; [|discriminate]. intros H.
  repeat (apply andb_true_iff in H; let H2 := fresh "H" in destruct H as [H H2]).
  unfold assoc_mem in H2. destruct (assoc_get m kvs) as [opj|] eqn:Eo; [|discriminate].
  exists kvs, opj. apply opt_json_eqb_eq in H1. apply opt_json_eqb_eq in H0.
  constructor; try assumption.
  - destruct p; [discriminate | discriminate].
  - apply not_mem. exact H5.
  - apply negb_true_iff. exact H3.
Qed.

Lemma entry_walk doc p kvs : entry_of doc p = Some kvs ->
  pointer_walk doc [k_paths; p] = Some (JObj kvs).
Proof.
  unfold entry_of. destruct doc as [| | | | |top]; try discriminate.
  destruct (assoc_get k_paths top) as [[| | | | |paths]|] eqn:E1; try discriminate.
  destruct (assoc_get p paths) as [[| | | | |kvs']|] eqn:E2; try discriminate.
  intros H; inversion H; subst kvs'. cbn [pointer_walk pointer_step]. rewrite E1. cbn [pointer_step]. rewrite E2. reflexivity.
Qed.

Lemma escape_pointer_no_pct p : ~ In 37%N p -> ~ In 37%N (escape_pointer p).
Proof. intros H X. apply escape_pointer_chars in X. destruct X as [X|[X|[X|[X _]]]]; try discriminate. apply H; exact X. Qed.

Section Plain.
  Variables (doc : json) (p m : str) (kvs : list (str * json)) (opj : json).
  Hypothesis P : plain doc p m kvs opj.

  Lemma resolve_reference : resolve doc (reference_of p m) = Val (reference_of p m, opj).
  Proof.
    destruct (http_method_props m (pl_meth _ _ _ _ _ P)) as [_ [Hs [Ht [Hp [t [c [Em Hc]]]]]]].
    apply (resolve_under_paths doc (escape_pointer p ++ 47 :: m)%N (escape_pointer p ++ 47 :: t)%N c).
    - rewrite Em, <- app_assoc. reflexivity.
    - exact Hc.
    - intros X. apply in_app_or in X.
      destruct X as [X|[X|X]]; [exact (escape_pointer_no_pct p (pl_pct _ _ _ _ _ P) X) | discriminate | exact (Hp X)].
    - rewrite split_on_app, (split_on_nosep _ _ (escape_pointer_no_slash p)), (split_on_nosep _ _ Hs). cbn [app].
      cbn [map]. rewrite pointer_roundtrip, (unescape_notilde m Ht).
      change [k_paths; p; m] with ([k_paths; p] ++ [m]).
      rewrite pointer_walk_app, (entry_walk doc p kvs (pl_entry _ _ _ _ _ P)).
      cbn [pointer_walk pointer_step]. rewrite (pl_op _ _ _ _ _ P). reflexivity.
  Qed.

  Definition parent_of : str := (35 :: 47 :: k_paths ++ 47 :: escape_pointer p)%N.

  Lemma before_last_slash_reference : before_last_slash (reference_of p m) = Some parent_of.
  Proof.
    destruct (http_method_props m (pl_meth _ _ _ _ _ P)) as [_ [Hs _]].
    unfold before_last_slash. rewrite split_reference by exact Hs. reflexivity.
  Qed.

  Lemma resolve_parent : resolve doc parent_of = Val (parent_of, JObj kvs).
  Proof.
    destruct (escape_pointer_nonempty p (pl_ne _ _ _ _ _ P)) as [t [c [Ee Hc]]].
    apply (resolve_under_paths doc (escape_pointer p) t c);
      [exact Ee | exact Hc | exact (escape_pointer_no_pct p (pl_pct _ _ _ _ _ P)) |].
    rewrite split_on_nosep by apply escape_pointer_no_slash. cbn [map]. rewrite pointer_roundtrip.
    apply entry_walk, (pl_entry _ _ _ _ _ P).
  Qed.

  Lemma fresh_map_plain : fresh_map doc p = Val ([], JObj kvs).
  Proof.
    pose proof (pl_entry _ _ _ _ _ P) as E. unfold entry_of in E.
    destruct doc as [| | | | |top]; try discriminate.
    destruct (assoc_get k_paths top) as [[| | | | |paths]|] eqn:E1; try discriminate.
    destruct (assoc_get p paths) as [[| | | | |kvs']|] eqn:E2; try discriminate.
    inversion E; subst kvs'.
    unfold fresh_map, py_get_d. cbn [py_get bind]. rewrite E1. cbn [bind py_item]. rewrite E2. cbn [bind].
    unfold resolve_path_item. cbn [py_in bind]. rewrite (pl_noref _ _ _ _ _ P). cbn [bind ci_dict]. reflexivity.
  Qed.
End Plain.

(* 8. *)
Definition set_scope (s : str) (o : operation) : operation :=
  {| o_path := o_path o; o_method := o_method o; o_raw := o_raw o; o_resolved := o_resolved o; o_scope := s;
     o_pathp := o_pathp o; o_headers := o_headers o; o_cookies := o_cookies o; o_query := o_query o; o_body := o_body o |}.

Lemma add_parameter_set_scope s o p : add_parameter (set_scope s o) p = res_proj (set_scope s) (add_parameter o p).
Proof.
  unfold add_parameter. destruct (p_location p) as [l|]; cbn [bind res_proj]; [|reflexivity].
  destruct (loc_of l) as [[]|]; reflexivity.
Qed.

Lemma add_parameters_set_scope s ps : forall o, add_parameters (set_scope s o) ps = res_proj (set_scope s) (add_parameters o ps).
Proof.
  induction ps as [|p r IH]; intros o; [reflexivity|]. cbn [add_parameters]. rewrite add_parameter_set_scope.
  destruct (add_parameter o p) as [o1|]; cbn [bind res_proj]; [apply IH | reflexivity].
Qed.

Lemma derive_set_scope v s d o : derive v d (set_scope s o) = res_proj (set_scope s) (derive v d o).
Proof.
  assert (A : forall (b : bool) mk o,
            (if b then do p <- mk; add_parameter (set_scope s o) (PParam p) else Val (set_scope s o))
            = res_proj (set_scope s) (if b then do p <- mk; add_parameter o (PParam p) else Val o)).
  { intros [|] mk o0; [|reflexivity]. destruct mk; cbn [bind res_proj]; [apply add_parameter_set_scope | reflexivity]. }
  unfold derive. destruct (py_item d k_type) as [ty|]; cbn [bind res_proj]; [|reflexivity].
  rewrite A. destruct (if json_eqb ty (JStr s_apiKey) then _ else _) as [o1|]; cbn [bind res_proj]; [apply A | reflexivity].
Qed.

Lemma process_definitions_set_scope v s defs : forall o,
  process_definitions v defs (set_scope s o) = res_proj (set_scope s) (process_definitions v defs o).
Proof.
  induction defs as [|d r IH]; intros o; [reflexivity|]. rewrite !process_definitions_cons.
  change (defined_already d (set_scope s o)) with (defined_already d o).
  destruct (defined_already d o) as [[|]|]; cbn [bind res_proj]; [apply IH | | reflexivity].
  rewrite derive_set_scope. destruct (derive v d o) as [o2|]; cbn [bind res_proj]; [apply IH | reflexivity].
Qed.

Lemma add_security_set_scope v doc s o : add_security v doc (set_scope s o) = res_proj (set_scope s) (add_security v doc o).
Proof.
  unfold add_security. change (o_raw (set_scope s o)) with (o_raw o).
  destruct (security_definitions v doc) as [defs|]; cbn [bind res_proj]; [|reflexivity].
  destruct (security_requirements doc (o_raw o)) as [reqs|]; cbn [bind res_proj]; [|reflexivity].
  destruct (py_items defs) as [kvs|]; cbn [bind res_proj]; [|reflexivity].
  apply process_definitions_set_scope.
Qed.

Lemma make_operation_scope v doc path method params raw resolved s1 s2 :
  make_operation v doc path method params raw resolved s2
  = res_proj (set_scope s2) (make_operation v doc path method params raw resolved s1).
Proof.
  unfold make_operation.
  change (empty_op path method raw resolved s2) with (set_scope s2 (empty_op path method raw resolved s1)).
  rewrite add_parameters_set_scope.
  destruct (add_parameters (empty_op path method raw resolved s1) params) as [o|]; cbn [bind res_proj]; [apply add_security_set_scope | reflexivity].
Qed.

Lemma build_op_scope_core v doc path method shared entry resolved s1 s2 :
  res_core (build_op v doc path method shared entry resolved s1) = res_core (build_op v doc path method shared entry resolved s2).
Proof.
  unfold build_op.
  destruct (py_get_d resolved k_parameters (JArr [])) as [params|]; cbn [bind]; [|reflexivity].
  destruct (collect v doc params shared resolved) as [collected|]; cbn [bind]; [|reflexivity].
  rewrite (make_operation_scope v doc path method collected entry resolved s1 s2).
  destruct (make_operation v doc path method collected entry resolved s1); reflexivity.
Qed.

Transparent shared_parameters.
Lemma plain_plans v doc p m kvs opj : plain doc p m kvs opj ->
  pgo v doc (AByRef (reference_of p m))
    = Some (([], p, m), build_by_ref v doc (reference_of p m) (reference_of p m) p m opj, (fun _ => None), Some (reference_of p m))
  /\ pgo v doc (AGet p m) = Some (([], p, m), build_by_path v doc p m [] kvs opj, id_of_resolved, None)
  /\ res_core (build_by_ref v doc (reference_of p m) (reference_of p m) p m opj) = res_core (build_by_path v doc p m [] kvs opj).
Proof.
  intros P. destruct (http_method_props m (pl_meth _ _ _ _ _ P)) as [Hl [Hs _]].
  split; [|split].
  - cbn [pgo]. rewrite (resolve_reference doc p m kvs opj P). rewrite split_reference by exact Hs.
    cbn [last_two rev app]. rewrite pointer_roundtrip. reflexivity.
  - cbn [pgo]. rewrite (fresh_map_plain doc p m kvs opj P). rewrite Hl, (pl_ci _ _ _ _ _ P). reflexivity.
  - unfold build_by_ref, build_by_path.
    destruct (resolve_op doc opj) as [resolved|]; cbn [bind]; [|reflexivity].
    rewrite (before_last_slash_reference doc p m kvs opj P). cbn [bind].
    rewrite (resolve_parent doc p m kvs opj P). cbn [bind].
    unfold shared_parameters, py_get_d. cbn [py_get bind]. rewrite (pl_params _ _ _ _ _ P).
    destruct (resolve_op doc match assoc_get k_parameters kvs with Some x => x | None => JArr [] end) as [shared|]; cbn [bind]; [|reflexivity].
    apply build_op_scope_core.
Qed.

Opaque shared_parameters.

Lemma to_lookup_error_core r : res_core (to_lookup_error r) = to_lookup_error (res_core r).
Proof. destruct r as [o|[]]; reflexivity. Qed.

Lemma list_eqb_refl {A} (eqb : A -> A -> bool) (R : forall x, eqb x x = true) l : list_eqb eqb l l = true.
Proof. induction l as [|x l IH]; [reflexivity|]. cbn [list_eqb]. rewrite R, IH. reflexivity. Qed.

Lemma param_eqb_refl p : param_eqb p p = true.
Proof. destruct p; cbn [param_eqb]; rewrite ?json_eqb_refl, ?(list_eqb_refl json_eqb json_eqb_refl); reflexivity. Qed.

Lemma op_core_eqb_complete a b : op_core a = op_core b -> op_core_eqb a b = true.
Proof.
  unfold op_core, op_core_eqb. intros H. inversion H as [[H1 H2 H3 H4 H5 H6 H7 H8 H9]].
  rewrite H1, H2, H3, H4, H5, H6, H7, H8, H9.
  rewrite !str_eqb_refl, !json_eqb_refl, !(list_eqb_refl param_eqb param_eqb_refl). reflexivity.
Qed.

Lemma plain_access_plan v doc a : plain_access doc a = true ->
  exists p m kvs opj b idf rf, plain doc p m kvs opj /\ pgo v doc a = Some (([], p, m), b, idf, rf)
    /\ res_core b = res_core (build_by_path v doc p m [] kvs opj).
Proof.
  destruct a as [|p m|i|r]; cbn [plain_access]; try discriminate.
  - intros H. destruct (plain_entry_spec doc p m H) as [kvs [opj P]].
    destruct (plain_plans v doc p m kvs opj P) as [_ [Pg _]].
    exists p, m, kvs, opj. do 3 eexists. split; [exact P|]. split; [exact Pg | reflexivity].
  - destruct (path_of_reference r) as [[p m]|]; [|discriminate]. intros H.
    apply andb_true_iff in H. destruct H as [H Er]. apply str_eqb_spec in Er. subst r.
    destruct (plain_entry_spec doc p m H) as [kvs [opj P]].
    destruct (plain_plans v doc p m kvs opj P) as [Pr [_ E]].
    exists p, m, kvs, opj. do 3 eexists. split; [exact P|]. split; [exact Pr | exact E].
Qed.

Lemma plain_pair_ok v doc a b : plain_access doc a = true -> plain_access doc b = true -> pair_ok v doc a b = true.
Proof.
  intros Ha Hb.
  destruct (plain_access_plan v doc a Ha) as (p & m & kvs & opj & ba & idfa & rfa & Pa & Pga & Ea).
  destruct (plain_access_plan v doc b Hb) as (p' & m' & kvs' & opj' & bb & idfb & rfb & Pb & Pgb & Eb).
  unfold pair_ok, pair_ok_gen. rewrite Pga. destruct ba as [oa|]; [|reflexivity]. rewrite Pgb.
  apply andb_true_iff. split.
  - destruct (tkey_eqb ([], p, m) ([], p', m')) eqn:Ek; [|reflexivity]. cbn [negb orb].
    apply tkey_eqb_spec in Ek. inversion Ek; subst p' m'.
    pose proof (pl_entry _ _ _ _ _ Pa) as E1. rewrite (pl_entry _ _ _ _ _ Pb) in E1. inversion E1; subst kvs'.
    pose proof (pl_op _ _ _ _ _ Pa) as E2. rewrite (pl_op _ _ _ _ _ Pb) in E2. inversion E2; subst opj'.
    rewrite <- Eb in Ea. destruct bb as [ob|]; cbn [res_core res_proj] in Ea; [|discriminate].
    apply op_core_eqb_complete. congruence.
  - destruct (idfa oa); [|reflexivity]. destruct b; try reflexivity. discriminate.
Qed.

Lemma plain_coherent v doc U :
  forallb (plain_access doc) U = true -> forallb (self_ok v doc) U = true -> coherent v doc U = true.
Proof.
  intros HP HS. rewrite forallb_forall in HP, HS. unfold coherent. apply coherent_gen_spec. split; [exact HS|]. split.
  - intros a b Ha Hb. apply plain_pair_ok; apply HP; assumption.
  - intros (a & Ha & Hi). specialize (HP a Ha). destruct a; discriminate.
Qed.

Definition op_with (id : str) (pname ploc : str) : json :=
  JObj [(k_operationId, JStr id);
        (k_parameters, JArr [JObj [(k_name, JStr pname); (k_in, JStr ploc); (k_schema, JObj [(k_type, JStr s_string)])]]);
        ok_responses].
Definition m_get' : str := S "get".
(* a literal ~1 in one path, and the path the wrong-order decoding would turn it into *)
Definition doc_tilde : json :=
  JObj [(S "openapi", JStr (S "3.0.2"));
        (k_paths, JObj [(S "/a/v/", JObj [(m_get', op_with (S "listArchive") (S "page") s_query)]);
                        (S "/a/v~1", JObj [(m_get', op_with (S "getShortName") (S "token") s_header)])])].
Definition accs_tilde : list access :=
  [AGet (S "/a/v/") m_get'; AByRef (reference_of (S "/a/v~1") m_get'); AGet (S "/a/v~1") m_get';
   AByRef (reference_of (S "/a/v/") m_get'); AByRef (reference_of (S "/a/v~1") m_get')].

Definition doc_pct : json :=
  JObj [(S "openapi", JStr (S "3.0.2"));
        (k_paths, JObj [(S "/a%7Eb", JObj [(m_get', op_with (S "one") (S "x") s_query)]);
                        (S "/a~b", JObj [(m_get', op_with (S "two") (S "y") s_query)]);
                        (S "/a%2Fb", JObj [(m_get', op_with (S "three") (S "z") s_query)])])].

