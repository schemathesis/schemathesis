(* C08 property theorems, each followed by Print Assumptions.  [conv] (to_json_schema_recursive, the
   concern of C01) is universally quantified. *)
From Coq Require Import List NArith ZArith Bool.
From Verif Require Import Common.Str Common.Json C08.Model_C08 C08.Proofs_C08.
From Coq Require String.
Import String.StringSyntax.
Import ListNotations.

(* The code as it is: in the object schema generated for one location, the property of a name is
   the schema of the LAST parameter with that name (operation-level parameters come first in the
   chain, path-level ones after them, so a path-level definition overwrites). *)
Theorem C08_generated_schema_is_last_definition : forall conv v ps pr name,
  params_to_schema conv v ps = Val pr ->
  match last_match ps name with
  | Some p => exists s, as_schema conv v p = Val s /\ jassoc_get name (fst pr) = Some s
  | None => jassoc_get name (fst pr) = None
  end.
Proof. intros conv v ps [props req] name H. exact (loop_last _ _ _ _ _ _ name H). Qed.
Print Assumptions C08_generated_schema_is_last_definition.

(* Where no name occurs twice in a location, the generated property is the effective definition
   (the one ParameterSet.get returns: the operation-level one). *)
Theorem C08_effective_parameters_partial : forall conv v ps name,
  names_unique ps = true ->
  forall pr, params_to_schema conv v ps = Val pr ->
  effective_schema conv v ps name = Val (jassoc_get name (fst pr)) /\
  generated_schema conv v ps name = effective_schema conv v ps name.
Proof.
  intros conv v ps name U pr H. unfold effective_schema, generated_schema. rewrite H. cbn [bind].
  rewrite (set_get_first _ _ U). cbn [bind]. rewrite (first_eq_last _ _ U).
  pose proof (C08_generated_schema_is_last_definition _ _ _ _ name H) as L.
  destruct (last_match ps name) as [p|].
  - destruct L as [s [Hs Hg]]. rewrite Hs. cbn [bind]. rewrite Hg. split; reflexivity.
  - rewrite L. split; reflexivity.
Qed.
Print Assumptions C08_effective_parameters_partial.

(* ... and with the same (name, location) at both levels the path-level definition is generated *)
Theorem C08_effective_parameters_refuted : exists doc o name,
  In (IOk o) (fst (get_all_operations V30 doc)) /\
  exists s_op s_path,
    effective_schema conv_id V30 (o_query o) name = Val (Some s_op) /\
    generated_schema conv_id V30 (o_query o) name = Val (Some s_path) /\
    s_op = JObj [(k_type, JStr s_string)] /\ s_path = JObj [(k_type, JStr [105;110;116;101;103;101;114]%N)] /\ s_op <> s_path.
Proof.
  exists doc_override, (first_op (fst (get_all_operations V30 doc_override))), (JStr (S "q")).
  split; [apply first_op_in; vm_compute; exact I|].
  do 2 eexists. repeat apply conj; try (vm_compute; reflexivity). vm_compute. discriminate.
Qed.
Print Assumptions C08_effective_parameters_refuted.

Theorem C08_effective_parameters_hypotheses_satisfiable : exists o,
  In (IOk o) (fst (get_all_operations V30 doc_good)) /\ names_unique (o_query o) = true /\ List.length (o_query o) = 2%nat.
Proof.
  exists (first_op (fst (get_all_operations V30 doc_good))).
  split; [apply first_op_in; vm_compute; exact I | split; vm_compute; reflexivity].
Qed.
Print Assumptions C08_effective_parameters_hypotheses_satisfiable.

(* When the generator is not ended by an exception, every path of the document is accounted for:
   a path item that cannot be resolved is one Err naming the path; otherwise every HTTP-method key
   is either Ok with exactly the operation process_entry builds for it (same path, method, raw
   definition) or an Err naming path and method. *)
Theorem C08_every_operation_ok_or_err_partial : forall v doc,
  iteration_completes v doc = true ->
  forall paths path pi, py_item doc k_paths = Val (JObj paths) -> In (path, pi) paths ->
  accounted_path v doc (fst (get_all_operations v doc)) path pi.
Proof.
  unfold iteration_completes, get_all_operations. intros v doc H paths path pi Hp Hin. rewrite Hp in *. cbn [py_items] in *.
  destruct (paths_loop v doc paths) as [items crash] eqn:E. cbn [fst snd] in *.
  destruct crash; [discriminate|]. exact (paths_loop_spec _ _ _ _ _ E path pi Hin).
Qed.
Print Assumptions C08_every_operation_ok_or_err_partial.

(* An exception that ends the generator inside the loops is never of a class that is converted to Err (a document
   without `paths`, or with `paths` that is not an object, is ended by InvalidSchema or AttributeError before them) *)
Theorem C08_crash_is_uncaught_class : forall v doc items e paths,
  py_item doc k_paths = Val (JObj paths) ->
  get_all_operations v doc = (items, Some e) -> caught e = false.
Proof.
  unfold get_all_operations. intros v doc items e paths Hp. rewrite Hp. cbn [py_items]. apply paths_loop_spec.
Qed.
Print Assumptions C08_crash_is_uncaught_class.

(* parameters: [5] in one operation: TypeError leaves the generator, the operations of that path
   and of every later path are neither offered nor reported *)
Theorem C08_every_operation_ok_or_err_refuted : exists doc paths path pi,
  py_item doc k_paths = Val (JObj paths) /\ In (path, pi) paths /\
  snd (get_all_operations V30 doc) = Some EType /\
  ~ accounted_path V30 doc (fst (get_all_operations V30 doc)) path pi.
Proof.
  exists doc_crash, (paths_of doc_crash), (fst (nth_path doc_crash 2)), (snd (nth_path doc_crash 2)).
  split; [vm_compute; reflexivity|]. split; [vm_compute; right; right; left; reflexivity|].
  split; [apply crash_outcome|]. apply not_accounted_n. right; reflexivity.
Qed.
Print Assumptions C08_every_operation_ok_or_err_refuted.

Theorem C08_every_operation_hypotheses_satisfiable :
  iteration_completes V30 doc_good = true /\
  exists o p m e p2 e2, fst (get_all_operations V30 doc_good) = [IOk o; IErr p (Some m) e; IErr p2 None e2].
Proof.
  split; [vm_compute; reflexivity|].
  assert (Shape : forall items, match items with [IOk _; IErr _ (Some _) _; IErr _ None _] => True | _ => False end ->
            exists o p m e p2 e2, items = [IOk o; IErr p (Some m) e; IErr p2 None e2]).
  { intros items H.
    destruct items as [|[o|] items]; try contradiction.
    destruct items as [|[|p [m|] e] items]; try contradiction.
    destruct items as [|[|p2 [|] e2] items]; try contradiction.
    destruct items; try contradiction. do 6 eexists. reflexivity. }
  apply Shape. vm_compute. exact I.
Qed.
Print Assumptions C08_every_operation_hypotheses_satisfiable.

(* The operation cache refines fresh lookups: for every document and EVERY access sequence
   (iteration, by path and method, by operationId, by reference, in any order and number) whose
   lookups are pairwise coherent - two lookups that address the same cache entry build the same
   operation, built operations have a hashable operationId, and the id scan completes when a
   lookup by id occurs - each access returns what it returns on a fresh schema object: same path,
   method, raw and resolved definition and parameter containers (everything but the recorded scope,
   for which see the strict variant below). *)
Theorem C08_cache_refines_fresh_partial : forall v doc accs,
  coherent v doc accs = true ->
  map result_core (run v doc empty_cache accs) = map (fun a => result_core (fresh v doc a)) accs.
Proof. intros v doc accs. apply cache_refines_fresh_gen, op_core_eqb_eq. Qed.
Print Assumptions C08_cache_refines_fresh_partial.

(* With the recorded scope: under strict coherence (lookups that address the same cache entry build
   EQUAL operations, definition.scope included) the results are equal to the fresh ones as values, hence
   also the observed views (label, scope, per-location JSON Schemas, body alternatives) for any conv. *)
Theorem C08_cache_refines_fresh_strict_partial : forall v doc accs,
  coherent_strict v doc accs = true ->
  run v doc empty_cache accs = map (fresh v doc) accs.
Proof.
  intros v doc accs H. apply (map_inj _ result_proj_id_inj). rewrite map_map.
  exact (cache_refines_fresh_gen (fun o => o) op_full_eqb v doc accs op_full_eqb_eq H).
Qed.
Print Assumptions C08_cache_refines_fresh_strict_partial.

Theorem C08_cache_refines_fresh_views_partial : forall conv v doc accs,
  coherent_strict v doc accs = true ->
  map (result_view_of conv v) (run v doc empty_cache accs) = map (fun a => result_view_of conv v (fresh v doc a)) accs.
Proof.
  intros conv v doc accs H. rewrite (C08_cache_refines_fresh_strict_partial v doc accs H), map_map. reflexivity.
Qed.
Print Assumptions C08_cache_refines_fresh_views_partial.

(* ... and strictness is needed: get_operation_by_reference records the URL of the reference as scope
   and shares the cache entry of schema[path][method], which records the root scope *)
Theorem C08_cache_refines_fresh_strict_refuted : exists doc accs,
  run V30 doc empty_cache accs <> map (fresh V30 doc) accs
  /\ coherent V30 doc accs = true /\ coherent_strict V30 doc accs = false
  /\ exists o1 o2, nth_error (run V30 doc empty_cache accs) 1 = Some (ROp (Val o1))
                   /\ fresh V30 doc (AGet p_a m_get) = ROp (Val o2) /\ o_scope o1 = ref_a_get /\ o_scope o2 = [].
Proof.
  exists doc_good2, accs_ref_first.
  assert (W : exists o1 o2, nth_error (run V30 doc_good2 empty_cache accs_ref_first) 1 = Some (ROp (Val o1))
                            /\ fresh V30 doc_good2 (AGet p_a m_get) = ROp (Val o2) /\ o_scope o1 = ref_a_get /\ o_scope o2 = []).
  { exists (the_op (nth_error (run V30 doc_good2 empty_cache accs_ref_first) 1)),
           (the_op (Some (fresh V30 doc_good2 (AGet p_a m_get)))).
    split; [apply the_op_spec; vm_compute; exact I|]. split; [apply the_op_result; vm_compute; exact I|].
    split; vm_compute; reflexivity. }
  (* the two scopes differ, so the results do; so the sequence is not strictly coherent *)
  assert (N : run V30 doc_good2 empty_cache accs_ref_first <> map (fresh V30 doc_good2) accs_ref_first).
  { destruct W as (o1 & o2 & E1 & E2 & S1 & S2). intros E. rewrite E in E1. unfold accs_ref_first in E1.
    cbn [map nth_error] in E1. rewrite E2 in E1. injection E1 as <-. rewrite S1 in S2. discriminate S2. }
  split; [exact N|]. split; [vm_compute; reflexivity|]. split; [|exact W].
  destruct (coherent_strict V30 doc_good2 accs_ref_first) eqn:C; [|reflexivity].
  destruct N. apply C08_cache_refines_fresh_strict_partial, C.
Qed.
Print Assumptions C08_cache_refines_fresh_strict_refuted.

Theorem C08_cache_strict_hypotheses_satisfiable :
  coherent_strict V30 doc_good2 accs_good_strict = true /\
  exists o, nth_error (run V30 doc_good2 empty_cache accs_good_strict) 1 = Some (ROp (Val o)) /\ List.length (o_query o) = 2%nat.
Proof.
  split; [vm_compute; reflexivity|].
  exists (the_op (nth_error (run V30 doc_good2 empty_cache accs_good_strict) 1)).
  split; [apply the_op_spec; vm_compute; exact I | vm_compute; reflexivity].
Qed.
Print Assumptions C08_cache_strict_hypotheses_satisfiable.

(* The scope an operation records is its own: a lookup by path and method or by operationId records the
   scope component of its traversal key (and the path and method of that key); a lookup by reference is
   keyed under the root scope and records the URL the reference resolves at. *)
Theorem C08_lookup_scope_is_own : forall v doc a tk idf rf o,
  pgo v doc a = Some (tk, Val o, idf, rf) ->
  match a with
  | AByRef r => fst (fst tk) = [] /\ exists opj, resolve doc r = Val (o_scope o, opj)
  | _ => o_scope o = fst (fst tk)
  end /\ o_path o = snd (fst tk) /\ o_method o = snd tk.
Proof.
  intros v doc a tk idf rf o. destruct a as [|p m|i|r]; cbn [pgo]; [discriminate| | |].
  - destruct (fresh_map doc p) as [[scope item]|]; [|discriminate].
    destruct (ci_get _ _) as [opj|]; [|discriminate]. intros H. apply plan_eq in H as [<- Hb].
    exact (build_by_path_key _ _ _ _ _ _ _ _ Hb).
  - destruct (populate doc []) as [defs [e|]]; [discriminate|].
    destruct (kget py_eq (JStr i) defs) as [en|]; [|discriminate]. intros H. apply plan_eq in H as [<- Hb].
    exact (build_by_id_key _ _ _ _ Hb).
  - destruct (resolve doc r) as [[url opj]|] eqn:Er; [|discriminate].
    destruct (last_two (split_on 47 url)) as [[p m]|]; [|discriminate]. intros H. apply plan_eq in H as [<- Hb].
    destruct (build_by_ref_key _ _ _ _ _ _ _ _ Hb) as (-> & Hp & Hm).
    split; [split; [reflexivity | exists opj; reflexivity] | split; assumption].
Qed.
Print Assumptions C08_lookup_scope_is_own.

(* ... and the id scan records every operation with the scope, path item and definition of ITS OWN path:
   the root scope for an inline path item whatever precedes it, the URL of the reference for a path item
   behind $ref (also when the scan is interrupted: for the entries recorded so far). *)
Theorem C08_id_scan_scope_is_own : forall doc paths defs x,
  py_get_d doc k_paths (JObj []) = Val (JObj paths) ->
  populate doc [] = (defs, x) -> forall k en, In (k, en) defs ->
  exists pi, In (e_path en, pi) paths /\ resolve_path_item doc pi = Val (e_scope en, e_item en)
             /\ exists kvs, py_items (e_item en) = Val kvs /\ In (e_method en, e_op en) kvs.
Proof.
  unfold populate. intros doc paths defs x Hp. rewrite Hp. cbn [py_items]. intros H.
  apply (populate_paths_own doc paths paths [] defs x); [intros z Hz; exact Hz | intros k en Hin; inversion Hin | exact H].
Qed.
Print Assumptions C08_id_scan_scope_is_own.

(* duplicated operationId: schema[/a][get] then get_operation_by_id(x) returns GET /a, a fresh schema returns GET /b *)
Theorem C08_cache_refines_fresh_refuted : exists doc accs,
  map result_core (run V30 doc empty_cache accs) <> map (fun a => result_core (fresh V30 doc a)) accs
  /\ coherent V30 doc accs = false.
Proof.
  exists doc_dup, accs_dup.
  assert (N : map result_core (run V30 doc_dup empty_cache accs_dup) <> map (fun a => result_core (fresh V30 doc_dup a)) accs_dup)
    by (vm_compute; discriminate).
  split; [exact N|]. destruct (coherent V30 doc_dup accs_dup) eqn:C; [|reflexivity].
  destruct N. apply C08_cache_refines_fresh_partial, C.
Qed.
Print Assumptions C08_cache_refines_fresh_refuted.

(* an id scan interrupted by an unresolvable path item: the same lookup by id raises, then succeeds *)
Theorem C08_cache_refines_fresh_refuted_failed_scan : exists doc accs,
  map result_core (run V30 doc empty_cache accs) <> map (fun a => result_core (fresh V30 doc a)) accs
  /\ populate_ok doc = false.
Proof. exists doc_partial, accs_twice_id. split; [vm_compute; discriminate | vm_compute; reflexivity]. Qed.
Print Assumptions C08_cache_refines_fresh_refuted_failed_scan.

(* operationId: []: the lookup by path raises TypeError after storing the operation, then returns it *)
Theorem C08_cache_refines_fresh_refuted_unhashable_id : exists doc accs,
  map result_core (run V30 doc empty_cache accs) <> map (fun a => result_core (fresh V30 doc a)) accs
  /\ forallb (self_ok V30 doc) accs = false.
Proof. exists doc_unhashable, accs_twice_get. split; [vm_compute; discriminate | vm_compute; reflexivity]. Qed.
Print Assumptions C08_cache_refines_fresh_refuted_unhashable_id.

Theorem C08_cache_hypotheses_satisfiable :
  coherent V30 doc_good2 accs_good = true /\
  exists o, nth_error (run V30 doc_good2 empty_cache accs_good) 2 = Some (ROp (Val o)) /\ List.length (o_query o) = 2%nat.
Proof.
  split; [vm_compute; reflexivity|].
  exists (the_op (nth_error (run V30 doc_good2 empty_cache accs_good) 2)).
  split; [apply the_op_spec; vm_compute; exact I | vm_compute; reflexivity].
Qed.
Print Assumptions C08_cache_hypotheses_satisfiable.

(* Security-derived parameters are part of the effective parameters.  For every operation make_operation builds
   (whichever route leads to it: iteration, path and method, operationId, reference all end in make_operation), with
   active = the security definitions named by the requirements in force for it (operation-level security, else global):
   (1) each container holds the parameters declared for that location (operation level first, then path level),
       unchanged and in order, followed only by parameters derived from active definitions;
   (2) for every active apiKey definition with name n and location c, container c serves n: by the declared parameter
       of THAT (name, location) when there is one (the explicit definition wins, nothing is added), by a
       security-derived one otherwise.  The statement for container c mentions no other container: a parameter of the
       same name declared in another location neither satisfies nor suppresses the security parameter. *)
Theorem C08_security_parameters_effective : forall v doc path method params raw resolved scope o',
  make_operation v doc path method params raw resolved scope = Val o' ->
  exists active, active_definitions v doc raw = Val active /\
  forall c,
    (exists added, container o' c = declared_in c params ++ added /\ Forall (sec_param v active) added) /\
    (forall d n, In d active -> api_key_of d = Some (n, c) ->
       exists p, set_get (container o' c) n = Val (Some p) /\
                 (forall p0, set_get (declared_in c params) n = Val (Some p0) -> p = p0) /\
                 (set_get (declared_in c params) n = Val None -> sec_param v active p)).
Proof.
  intros v doc path method params raw resolved scope o' H.
  destruct (make_operation_spec _ _ _ _ _ _ _ _ _ H) as (o1 & active & E1 & Ha & Hp).
  exists active. split; [exact Ha|]. intros c.
  destruct (process_definitions_extends _ _ _ _ c Hp) as [added [Hc Hf]].
  rewrite (add_parameters_container _ _ _ c E1) in Hc.
  replace (container (empty_op path method raw resolved scope) c) with (@nil param) in Hc by (destruct c; reflexivity).
  cbn [app] in Hc. split; [exists added; split; assumption|].
  intros d n Hin Hk. destruct (proj2 (process_definitions_spec _ _ _ _ Hp) d n c Hin Hk) as [p Hq].
  exists p. split; [exact Hq|]. rewrite Hc in Hq. split.
  - intros p0 H0. rewrite set_get_app, H0 in Hq. injection Hq as <-. reflexivity.
  - intros H0. rewrite set_get_app, H0 in Hq. apply set_get_in in Hq.
    rewrite Forall_forall in Hf. apply Hf, Hq.
Qed.
Print Assumptions C08_security_parameters_effective.

(* the executable form of (2), the one evaluated per generated case against the implementation *)
Theorem C08_security_keys_present : forall v doc path method params raw resolved scope o' active,
  make_operation v doc path method params raw resolved scope = Val o' ->
  active_definitions v doc raw = Val active -> security_keys_present active o' = true.
Proof.
  intros v doc path method params raw resolved scope o' active H Ha.
  destruct (C08_security_parameters_effective _ _ _ _ _ _ _ _ _ H) as [active' [Ha' S]].
  rewrite Ha in Ha'. injection Ha' as <-.
  unfold security_keys_present. apply forallb_forall. intros d Hin.
  destruct (api_key_of d) as [[n c]|] eqn:Ek; [|reflexivity].
  destruct (S c) as [_ S2]. destruct (S2 d n Hin Ek) as [p [Hp _]]. rewrite Hp. reflexivity.
Qed.
Print Assumptions C08_security_keys_present.

(* non-vacuity: API key in header token + declared cookie token (path level) + declared query token (operation
   level) + a second requirement (query api_key): header [token] is the security one, query [token; api_key];
   on the other operation both keys are declared in the same location and nothing is added *)
Theorem C08_security_parameters_hypotheses_satisfiable :
  fresh_keys V30 doc_sec_clash (AGet (S "/reset") (S "post"))
    = Val [Val []; Val [JStr (S "token")]; Val [JStr (S "token")]; Val [JStr (S "token"); JStr (S "api_key")]] /\
  fresh_keys V30 doc_sec_clash (AGet (S "/me") (S "get"))
    = Val [Val []; Val [JStr (S "token")]; Val []; Val [JStr (S "api_key")]].
Proof. split; vm_compute; reflexivity. Qed.
Print Assumptions C08_security_parameters_hypotheses_satisfiable.

(* JSON-pointer escaping of path keys.
   RFC 6901: the token decoding get_operation_by_reference and the link statistic apply (~1 first, then ~0) inverts
   the encoding APIOperation.operation_reference applies (~ first, then /), for EVERY string. *)
Theorem C08_pointer_roundtrip : forall p, unescape (escape_pointer p) = p.
Proof. exact pointer_roundtrip. Qed.
Print Assumptions C08_pointer_roundtrip.

(* ... hence the (path, method) derived from operation_reference is the operation's own, for ALL path strings (tildes,
   slashes, ~0 / ~1 / ~01 / ~10 / ~~1, percent signs, the empty path) and every method key without a slash, and two
   operations never share a reference *)
Theorem C08_reference_roundtrip : forall p m, ~ In 47%N m -> m <> [] ->
  path_of_reference (reference_of p m) = Some (p, m) /\
  forall q n, ~ In 47%N n -> n <> [] -> reference_of p m = reference_of q n -> p = q /\ m = n.
Proof.
  intros p m Hm Hne. split; [|intros q n _ _; apply reference_of_inj].
  unfold path_of_reference, path_of_url. rewrite rstrip_reference.
  - rewrite split_reference by exact Hm. cbn [last_two rev app]. rewrite pointer_roundtrip. reflexivity.
  - destruct (exists_last Hne) as [t [c E]]. exists t, c. split; [exact E|].
    intros ->. apply Hm. rewrite E. apply in_or_app. right. left. reflexivity.
Qed.
Print Assumptions C08_reference_roundtrip.

(* the sentinel: the same two substitutions in the other order (~0 first).  The token ~01 - a literal ~1 in the path -
   becomes a slash, and the references of /a/v~1 and /a/v/ are decoded to ONE path *)
Theorem C08_pointer_roundtrip_wrong_order_refuted : exists p q m,
  unescape_wrong (escape_pointer (S "~1")) = S "/" /\ unescape_wrong (escape_pointer (S "~1")) <> S "~1" /\
  p <> q /\
  path_of_url unescape_wrong (reference_of p m) = Some (q, m) /\
  path_of_url unescape_wrong (reference_of q m) = Some (q, m) /\
  path_of_url unescape (reference_of p m) = Some (p, m).
Proof.
  exists (S "/a/v~1"), (S "/a/v/"), (S "get"). repeat apply conj; try (vm_compute; reflexivity); vm_compute; discriminate.
Qed.
Print Assumptions C08_pointer_roundtrip_wrong_order_refuted.

(* For every document and every plain entry (an inline path item under a non-empty key without percent sign, a method key
   present as written): the lookup by operation_reference and the lookup by path and method address the SAME cache entry
   (root scope, that path, that method) and build the same operation (everything but the recorded scope); on fresh schema
   objects they return the same thing (a KeyError of the build is reported as LookupError by MethodMap.__getitem__). *)
Theorem C08_reference_lookup_is_path_lookup_partial : forall v doc p m,
  plain_entry doc p m = true ->
  (exists kvs opj b1 b2,
     pgo v doc (AByRef (reference_of p m)) = Some (([], p, m), b1, (fun _ => None), Some (reference_of p m)) /\
     pgo v doc (AGet p m) = Some (([], p, m), b2, id_of_resolved, None) /\
     b2 = build_by_path v doc p m [] kvs opj /\ res_core b1 = res_core b2) /\
  (self_ok v doc (AGet p m) = true ->
   to_lookup_error (res_core (fresh_op v doc (AByRef (reference_of p m)))) = res_core (fresh_op v doc (AGet p m))) /\
  operation_ref_target doc (JStr (reference_of p m)) = Some (m, p).
Proof.
  intros v doc p m H. destruct (plain_entry_spec doc p m H) as [kvs [opj P]].
  destruct (plain_plans v doc p m kvs opj P) as [Pr [Pg E]]. split; [|split].
  - exists kvs, opj. do 2 eexists. split; [exact Pr|]. split; [exact Pg|]. split; [reflexivity | exact E].
  - intros S. rewrite !fresh_op_spec, Pr, Pg. cbn [planned post_of id_ok].
    unfold self_ok in S. rewrite Pg in S.
    destruct (build_by_ref v doc (reference_of p m) (reference_of p m) p m opj) as [o1|e1];
      destruct (build_by_path v doc p m [] kvs opj) as [o2|e2]; cbn [res_core res_proj] in E; try discriminate.
    + rewrite S. rewrite to_lookup_error_core. unfold res_core. cbn [res_proj]. f_equal. exact E.
    + rewrite to_lookup_error_core. cbn [res_core res_proj]. inversion E. reflexivity.
  - destruct (http_method_props m (pl_meth _ _ _ _ _ P)) as [_ [Hs _]].
    unfold operation_ref_target, resolve_value. rewrite (resolve_reference doc p m kvs opj P).
    unfold path_of_url. rewrite split_reference by exact Hs. cbn [last_two rev app]. rewrite pointer_roundtrip. reflexivity.
Qed.
Print Assumptions C08_reference_lookup_is_path_lookup_partial.

(* ... and in EVERY sequence of lookups by (path, method) and by operation_reference of plain entries (any order, any
   number, any mix of paths - also paths that a wrong token decoding would confuse), on one schema object, each lookup
   returns what it returns on a fresh schema object: the coherence hypothesis of C08_cache_refines_fresh_partial is
   discharged syntactically for these accesses. *)
Theorem C08_reference_and_path_lookups_any_order_partial : forall v doc accs,
  forallb (plain_access doc) accs = true -> forallb (self_ok v doc) accs = true ->
  coherent v doc accs = true /\
  map result_core (run v doc empty_cache accs) = map (fun a => result_core (fresh v doc a)) accs.
Proof.
  intros v doc accs HP HS. pose proof (plain_coherent v doc accs HP HS) as C.
  split; [exact C | exact (C08_cache_refines_fresh_partial v doc accs C)].
Qed.
Print Assumptions C08_reference_and_path_lookups_any_order_partial.

(* non-vacuity: /a/v/ and /a/v~1 in one document, looked up by path and by reference in a mixed order *)
Theorem C08_reference_lookups_hypotheses_satisfiable :
  forallb (plain_access doc_tilde) accs_tilde = true /\ forallb (self_ok V30 doc_tilde) accs_tilde = true /\
  reference_of (S "/a/v~1") m_get' = S "#/paths/~1a~1v~01/get" /\
  exists o, nth_error (run V30 doc_tilde empty_cache accs_tilde) 1 = Some (ROp (Val o)) /\
            o_path o = S "/a/v~1" /\ o_raw o = op_with (S "getShortName") (S "token") s_header /\ List.length (o_headers o) = 1%nat.
Proof.
  split; [vm_compute; reflexivity|]. split; [vm_compute; reflexivity|]. split; [vm_compute; reflexivity|].
  exists (the_op (nth_error (run V30 doc_tilde empty_cache accs_tilde) 1)).
  split; [apply the_op_spec; vm_compute; exact I|]. repeat apply conj; vm_compute; reflexivity.
Qed.
Print Assumptions C08_reference_lookups_hypotheses_satisfiable.

(* the region is needed: operation_reference does not escape percent signs and the resolver unquotes the fragment before
   splitting it.  With /a%7Eb and /a~b in one document the lookup by the reference of /a%7Eb silently returns the
   definition of /a~b under the path /a%7Eb; the reference of /a%2Fb does not resolve at all. *)
Theorem C08_reference_lookup_percent_refuted : exists doc p p2 m,
  plain_entry doc p m = false /\ mem 37 p = true /\
  (exists o o', fresh V30 doc (AByRef (reference_of p m)) = ROp (Val o) /\
                fresh V30 doc (AGet p m) = ROp (Val o') /\
                o_path o = p /\ o_raw o = op_with (S "two") (S "y") s_query /\
                o_raw o' = op_with (S "one") (S "x") s_query /\ o_raw o <> o_raw o') /\
  fresh V30 doc (AByRef (reference_of p2 m)) = ROp (Raise ERef) /\
  (exists o', fresh V30 doc (AGet p2 m) = ROp (Val o')).
Proof.
  exists doc_pct, (S "/a%7Eb"), (S "/a%2Fb"), m_get'.
  split; [vm_compute; reflexivity|]. split; [vm_compute; reflexivity|]. split; [|split].
  - exists (the_op (Some (fresh V30 doc_pct (AByRef (reference_of (S "/a%7Eb") m_get'))))),
           (the_op (Some (fresh V30 doc_pct (AGet (S "/a%7Eb") m_get')))).
    split; [apply the_op_result; vm_compute; exact I|]. split; [apply the_op_result; vm_compute; exact I|].
    repeat apply conj; try (vm_compute; reflexivity). vm_compute. discriminate.
  - vm_compute. reflexivity.
  - exists (the_op (Some (fresh V30 doc_pct (AGet (S "/a%2Fb") m_get')))). apply the_op_result. vm_compute. exact I.
Qed.
Print Assumptions C08_reference_lookup_percent_refuted.
